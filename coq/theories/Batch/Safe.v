(* C14: what GetTxnOperations guarantees about whatever CAS serves. *)
From Coq Require Import List ZArith Bool Lia Permutation.
From SV Require Import Base.ListFacts Resolve.Chain Batch.Files.
Import ListNotations.
Local Open Scope Z_scope.

Lemma has_dup_false_iff l : forall seen,
  has_dup seen l = false <-> NoDup l /\ (forall x, In x l -> ~ In x seen).
Proof.
  induction l as [|x r IH]; intros seen; cbn [has_dup].
  - split; [split; [constructor | intros ? []] | reflexivity].
  - rewrite orb_false_iff, memZ_false, IH, NoDup_cons_iff. cbn [In]. firstorder (subst; auto).
Qed.

Lemma nodup_has_dup l : NoDup l -> has_dup [] l = false.
Proof. intros H. apply has_dup_false_iff. split; [exact H | intros ? _ []]. Qed.

Theorem read_file_some {A} L max (r : raw A) x :
  read_file L max r = Some x ->
  f_read_ok r = true /\ f_raw_size r <= max /\ f_decomp_ok r = true /\ f_size r <= max * l_factor L /\ f_parsed r = Some x.
Proof.
  unfold read_file. destruct (f_read_ok r); cbn [negb]; [|discriminate].
  destruct (Z.gtb_spec (f_raw_size r) max); [discriminate|]. destruct (f_decomp_ok r); cbn [negb]; [|discriminate].
  destruct (Z.gtb_spec (f_size r) (max * l_factor L)); [discriminate|]. auto.
Qed.

Theorem oversize_raw_rejected {A} L max (r : raw A) : f_raw_size r > max -> read_file L max r = None.
Proof. intros H. destruct (read_file L max r) eqn:E; [apply read_file_some in E; lia | reflexivity]. Qed.

Theorem oversize_decompressed_rejected {A} L max (r : raw A) :
  f_size r > max * l_factor L -> read_file L max r = None.
Proof. intros H. destruct (read_file L max r) eqn:E; [apply read_file_some in E; lia | reflexivity]. Qed.

Theorem get_some L a ops :
  get_txn_operations L a = Some ops ->
  a_syntax_ok a = true /\ Z.of_nat (length ops) = a_count a /\
  exists c b, read_file L (l_core_index L) (a_core a) = Some c /\ validate_core_index L c = true /\
              get_batch_files L c = Some b /\ assemble b = Some ops.
Proof.
  unfold get_txn_operations. destruct (a_syntax_ok a); cbn [negb]; [|discriminate].
  destruct (read_file L (l_core_index L) (a_core a)) as [c|]; [|discriminate].
  destruct (validate_core_index L c) eqn:Ev; cbn [negb]; [|discriminate].
  destruct (get_batch_files L c) as [b|] eqn:Eb; [|discriminate]. destruct (assemble b) as [o|] eqn:Ea; [|discriminate].
  destruct (Z.eqb_spec (Z.of_nat (length o)) (a_count a)); [|discriminate]. intros [= <-]. eauto 10.
Qed.

Theorem count_matches_anchor L a ops :
  get_txn_operations L a = Some ops -> Z.of_nat (length ops) = a_count a.
Proof. intros H. apply get_some in H. tauto. Qed.

(* the two index validations as conjunctions *)
Lemma discipline_iff (p : bool) n : (if (0 <? n)%nat then p else negb p) = true <-> (p = true <-> (0 < n)%nat).
Proof. destruct (Nat.ltb_spec 0 n), p; cbn [negb]; intuition (discriminate || lia). Qed.

Lemma validate_core_index_true L c :
  validate_core_index L c = true <->
  (present (ci_proof c) = true <-> (0 < length (ci_recovers c) + length (ci_deactivates c))%nat) /\
  uri_len (ci_proof c) <= l_uri_len L /\ uri_len (ci_prov c) <= l_uri_len L /\
  forallb (fun r => cc_sd_present r && cc_sd_valid r) (ci_creates c) = true /\
  forallb (op_ref_ok L) (ci_recovers c) = true /\ forallb (op_ref_ok L) (ci_deactivates c) = true.
Proof. unfold validate_core_index, uri_ok. rewrite !andb_true_iff, discipline_iff, !Z.leb_le. tauto. Qed.

Lemma validate_prov_index_true L p :
  validate_prov_index L p = true <->
  (present (pi_proof p) = true <-> (0 < length (pi_updates p))%nat) /\
  uri_len (pi_proof p) <= l_uri_len L /\
  match pi_chunks p with c :: _ => uri_len c <= l_uri_len L | [] => True end /\
  forallb (op_ref_ok L) (pi_updates p) = true.
Proof.
  unfold validate_prov_index, uri_ok. rewrite !andb_true_iff, discipline_iff, Z.leb_le.
  destruct (pi_chunks p); rewrite ?Z.leb_le; tauto.
Qed.

Theorem long_uri_rejected L a ops c :
  get_txn_operations L a = Some ops -> read_file L (l_core_index L) (a_core a) = Some c ->
  uri_len (ci_proof c) <= l_uri_len L /\ uri_len (ci_prov c) <= l_uri_len L.
Proof.
  intros H Hr. apply get_some in H. destruct H as (_ & _ & c' & b & Hr' & Hv & _). rewrite Hr in Hr'. injection Hr' as <-.
  apply validate_core_index_true in Hv. tauto.
Qed.

Theorem proof_reference_discipline L c :
  validate_core_index L c = true ->
  (present (ci_proof c) = true <-> (0 < length (ci_recovers c) + length (ci_deactivates c))%nat).
Proof. intros Hv. apply validate_core_index_true in Hv. apply Hv. Qed.

Theorem prov_proof_reference_discipline L p :
  validate_prov_index L p = true ->
  (present (pi_proof p) = true <-> (0 < length (pi_updates p))%nat).
Proof. intros Hv. apply validate_prov_index_true in Hv. apply Hv. Qed.

(* a proof file is read and validated exactly when it is referenced *)
Lemma read_opt_inv {A} L max (valid : A -> bool) (r : ref A) o :
  (if present r then match read_ref L max r with
                     | Some p => if valid p then Some (Some p) else None
                     | None => None
                     end
   else Some None) = Some o ->
  if present r then exists p, read_ref L max r = Some p /\ valid p = true /\ o = Some p else o = None.
Proof.
  destruct (present r); [|intros [= <-]; reflexivity].
  destruct (read_ref L max r) as [p|]; [|discriminate]. destruct (valid p) eqn:E; [|discriminate].
  intros [= <-]. exists p. auto.
Qed.

Lemma get_prov_files_inv L r pi pp ch :
  get_prov_files L r = Some (pi, pp, ch) ->
  read_ref L (l_prov_index L) r = Some pi /\ validate_prov_index L pi = true /\
  (if present (pi_proof pi)
   then exists q, read_ref L (l_proof L) (pi_proof pi) = Some q /\ validate_prov_proof q = true /\ pp = Some q
   else pp = None) /\
  exists c0 rest, pi_chunks pi = c0 :: rest /\ read_ref L (l_chunk L) c0 = Some ch /\ validate_chunk ch = true.
Proof.
  unfold get_prov_files. destruct (read_ref L (l_prov_index L) r) as [pi'|]; [|discriminate].
  destruct (validate_prov_index L pi') eqn:Ev; cbn [negb]; [|discriminate]. cbv zeta.
  destruct (if present (pi_proof pi') then _ else _) as [pp'|] eqn:Ep; [|discriminate]. apply read_opt_inv in Ep.
  destruct (pi_chunks pi') as [|c0 rest] eqn:Ech; [discriminate|].
  destruct (read_ref L (l_chunk L) c0) as [ch'|] eqn:Ec; [|discriminate].
  destruct (validate_chunk ch') eqn:Evc; [|discriminate]. intros [= <- <- <-].
  repeat split; try assumption. exists c0, rest. auto.
Qed.

Lemma get_batch_files_inv L c b :
  get_batch_files L c = Some b ->
  bf_core b = c /\ counts_ok b = true /\
  (if present (ci_proof c)
   then exists p, read_ref L (l_proof L) (ci_proof c) = Some p /\ validate_core_proof p = true /\ bf_core_proof b = Some p
   else bf_core_proof b = None) /\
  (if present (ci_prov c) then exists x, get_prov_files L (ci_prov c) = Some x /\ bf_prov b = Some x
   else bf_prov b = None).
Proof.
  unfold get_batch_files. cbv zeta.
  destruct (if present (ci_proof c) then _ else _) as [cp|] eqn:Ep; [|discriminate]. apply read_opt_inv in Ep.
  destruct (if present (ci_prov c) then _ else _) as [pv|] eqn:Ev; [|discriminate].
  destruct (counts_ok _) eqn:Ec; [|discriminate]. intros [= <-]. cbn [bf_core bf_core_proof bf_prov].
  repeat split; try assumption.
  destruct (present (ci_prov c)); [|congruence].
  destruct (get_prov_files L (ci_prov c)) as [x|]; [|discriminate]. injection Ev as <-. exists x. auto.
Qed.

(* [get_batch_files_inv] with the reads forgotten and each [if] split into two implications *)
Lemma get_batch_files_some L c b :
  get_batch_files L c = Some b ->
  bf_core b = c /\ counts_ok b = true /\
  (present (ci_proof c) = true -> exists p, bf_core_proof b = Some p /\ validate_core_proof p = true) /\
  (present (ci_proof c) = false -> bf_core_proof b = None) /\
  (present (ci_prov c) = false -> bf_prov b = None) /\
  (present (ci_prov c) = true -> exists pi pp ch, bf_prov b = Some (pi, pp, ch) /\ validate_prov_index L pi = true /\
        validate_chunk ch = true /\
        (present (pi_proof pi) = true -> exists q, pp = Some q /\ validate_prov_proof q = true) /\
        (present (pi_proof pi) = false -> pp = None)).
Proof.
  intros H. destruct (get_batch_files_inv _ _ _ H) as (Hc & Hcnt & Hp & Hv). repeat (split; [assumption|]).
  split; [intros E; rewrite E in Hp; destruct Hp as (p & _ & Hvp & Hbp); exists p; auto|].
  split; [intros E; rewrite E in Hp; exact Hp|]. split; [intros E; rewrite E in Hv; exact Hv|].
  intros E. rewrite E in Hv. destruct Hv as ([[pi pp] ch] & Hg & Hb). exists pi, pp, ch.
  destruct (get_prov_files_inv _ _ _ _ _ Hg) as (_ & Hvi & Hq & _ & _ & _ & _ & Hvc).
  repeat (split; [assumption|]). split; intros E'; rewrite E' in Hq; [destruct Hq as (q & _ & Hvq & ->); exists q; auto | exact Hq].
Qed.

(* the suffix is copied from the reference, whatever the proof or delta list holds at that position *)
Lemma zip_ops_sfx ty refs proofs : map ro_sfx (zip_ops ty refs proofs) = map or_sfx refs.
Proof.
  revert proofs. induction refs as [|r rs IH]; intros ps; cbn [zip_ops map ro_sfx]; [reflexivity|]. f_equal. apply IH.
Qed.

Lemma with_deltas_sfx ops ds : map ro_sfx (with_deltas ops ds) = map ro_sfx ops.
Proof.
  revert ds. induction ops as [|o r IH]; intros ds; cbn [with_deltas map ro_sfx]; [reflexivity|]. f_equal. apply IH.
Qed.

(* zipping with enough proofs never touches the default: every signed-data blob is a real entry *)
Lemma zip_ops_in_range ty refs proofs :
  (length refs <= length proofs)%nat ->
  Forall (fun o => ro_ty o = ty /\ exists p, In p proofs /\ ro_signed o = pe_signed p) (zip_ops ty refs proofs)
  /\ map ro_sfx (zip_ops ty refs proofs) = map or_sfx refs.
Proof.
  intros Hl. split; [|apply zip_ops_sfx].
  revert proofs Hl. induction refs as [|r rs IH]; intros proofs Hl; cbn [zip_ops]; [constructor|].
  destruct proofs as [|p ps]; [cbn in Hl; lia|]. cbn [hd tl]. cbn [length] in Hl.
  constructor; [cbn; eauto 6|]. eapply Forall_impl; [|apply (IH ps); lia]. cbn. intros o (Ht & q & Hq & Hs). eauto 6.
Qed.

Lemma with_deltas_in_range ops ds :
  (length ops <= length ds)%nat ->
  map ro_sfx (with_deltas ops ds) = map ro_sfx ops /\
  Forall (fun o => exists d, In d ds /\ ro_delta o = de_delta d) (with_deltas ops ds).
Proof.
  intros Hl. split; [apply with_deltas_sfx|].
  revert ds Hl. induction ops as [|o r IH]; intros ds Hl; cbn [with_deltas]; [constructor|].
  destruct ds as [|d dr]; [cbn in Hl; lia|]. cbn [hd tl]. cbn [length] in Hl.
  constructor; [cbn; eauto|]. eapply Forall_impl; [|apply (IH dr); lia]. cbn. intros x (q & Hq & Hs). eauto.
Qed.

(* assembleAnchoredOperations checks the suffixes of the references for duplicates before it zips; the zips keep
   the suffixes, so the check alone gives distinctness (no count check is involved) *)
Lemma assemble_distinct b ops : assemble b = Some ops -> NoDup (map ro_sfx ops).
Proof.
  unfold assemble.
  destruct (has_dup [] _) eqn:Ed; [discriminate|]. apply has_dup_false_iff in Ed. destruct Ed as [Hnd _].
  destruct (bf_prov b) as [[[pi pp] ch]|].
  - destruct (has_dup [] _) eqn:Ed2; [discriminate|]. apply has_dup_false_iff in Ed2. destruct Ed2 as [Hnd2 _].
    destruct (negb _); [discriminate|]. destruct (negb _); [discriminate|]. intros [= <-].
    rewrite map_app, with_deltas_sfx, !map_app, !zip_ops_sfx. unfold create_ops. rewrite map_map. cbn [ro_sfx].
    (* creates ++ recovers ++ updates ++ deactivates is a permutation of the checked list *)
    eapply Permutation_NoDup; [|exact Hnd2]. rewrite <- !app_assoc. do 2 apply Permutation_app_head.
    apply Permutation_app_comm.
  - intros [= <-]. rewrite zip_ops_sfx. rewrite app_assoc in Hnd. apply NoDup_app_iff in Hnd. apply Hnd.
Qed.

Theorem suffixes_distinct L a ops : get_txn_operations L a = Some ops -> NoDup (map ro_sfx ops).
Proof. intros H. apply get_some in H. destruct H as (_ & _ & c & b & _ & _ & _ & Ha). exact (assemble_distinct _ _ Ha). Qed.
