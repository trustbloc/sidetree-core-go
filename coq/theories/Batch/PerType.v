(* Per-type size limits at the level of the whole provider: every file a successful read of a batch went
   through met the limit of ITS OWN type (compressed and decompressed), whatever the other limits are.
   The provider model is a function of (limits, CAS content as seen through the references, anchor): it has no
   state, so "whatever the provider has read before" cannot matter in the model; the correspondence drives one
   real provider through the same object in two roles (harness: two_roles) to check that for the code. *)
From Coq Require Import List ZArith Lia.
From SV Require Import Batch.Files Batch.Safe.
Import ListNotations.
Local Open Scope Z_scope.

Definition within {A} (L : limits) (max : Z) (r : ref A) (x : A) : Prop :=
  exists f, target r = Some f /\ f_read_ok f = true /\ f_raw_size f <= max /\ f_decomp_ok f = true /\
            f_size f <= max * l_factor L /\ f_parsed f = Some x.

Lemma read_ref_within {A} L max (r : ref A) x : read_ref L max r = Some x -> within L max r x.
Proof.
  unfold read_ref, within. destruct (target r) as [f|] eqn:Et; [|discriminate].
  intros H. apply read_file_some in H. exists f. split; [reflexivity|]. tauto.
Qed.

Lemma prov_files_within_limits L r pi pp ch :
  get_prov_files L r = Some (pi, pp, ch) ->
  within L (l_prov_index L) r pi /\
  (forall q, pp = Some q -> within L (l_proof L) (pi_proof pi) q) /\
  exists c rest, pi_chunks pi = c :: rest /\ within L (l_chunk L) c ch.
Proof.
  intros H. destruct (get_prov_files_inv _ _ _ _ _ H) as (Hr & _ & Hq & c & rest & Hc & Hch & _).
  split; [apply read_ref_within; exact Hr|]. split.
  - intros q ->. destruct (present (pi_proof pi)); [|discriminate].
    destruct Hq as (q' & Hq & _ & [= <-]). apply read_ref_within. exact Hq.
  - exists c, rest. split; [exact Hc | apply read_ref_within; exact Hch].
Qed.

(* the contrapositive the two-roles cases exercise: the object named as first chunk file is larger than the
   chunk-file limit - the read of the provisional files fails, however generous the other limits are *)
Lemma oversize_chunk_rejected L r pi c rest f :
  read_ref L (l_prov_index L) r = Some pi -> pi_chunks pi = c :: rest -> target c = Some f ->
  f_raw_size f > l_chunk L -> get_prov_files L r = None.
Proof.
  intros Hr Hc Ht Hs. destruct (get_prov_files L r) as [[[pi' pp] ch]|] eqn:E; [exfalso|reflexivity].
  destruct (get_prov_files_inv _ _ _ _ _ E) as (Hr' & _ & _ & c' & rest' & Hc' & Hch & _).
  rewrite Hr in Hr'. injection Hr' as <-. rewrite Hc in Hc'. injection Hc' as <- <-.
  unfold read_ref in Hch. rewrite Ht, (oversize_raw_rejected _ _ _ Hs) in Hch. discriminate.
Qed.

Lemma batch_files_within_limits L c b :
  get_batch_files L c = Some b ->
  (forall p, bf_core_proof b = Some p -> within L (l_proof L) (ci_proof c) p) /\
  (forall pi pp ch, bf_prov b = Some (pi, pp, ch) ->
     within L (l_prov_index L) (ci_prov c) pi /\
     (forall q, pp = Some q -> within L (l_proof L) (pi_proof pi) q) /\
     exists k rest, pi_chunks pi = k :: rest /\ within L (l_chunk L) k ch).
Proof.
  intros H. destruct (get_batch_files_inv _ _ _ H) as (_ & _ & Hp & Hv). split.
  - intros p Hb. destruct (present (ci_proof c)); [|congruence].
    destruct Hp as (p' & Hr & _ & Hb'). rewrite Hb in Hb'. injection Hb' as <-. apply read_ref_within. exact Hr.
  - intros pi pp ch Hb. destruct (present (ci_prov c)); [|congruence].
    destruct Hv as (x & Hg & Hb'). rewrite Hb in Hb'. injection Hb' as <-. apply prov_files_within_limits. exact Hg.
Qed.

(* non-vacuity: the two-roles situation as a concrete state. One object of 511 bytes is named as first chunk file; under a
   chunk-file limit of 510 the provisional files are refused although every other limit (and the core-index limit the same
   object would meet) is generous; under a limit of 511 the same state is read. *)
Definition ex_L (chunk : Z) : limits :=
  {| l_hash_len := 100; l_uri_len := 100; l_core_index := 1000000; l_proof := 1000000; l_prov_index := 1000000;
     l_chunk := chunk; l_factor := 3 |}.
Definition ex_chunk_raw : raw chunk_file :=
  {| f_read_ok := true; f_raw_size := 511; f_decomp_ok := true; f_size := 700;
     f_parsed := Some {| ch_deltas := [ {| de_delta := 1; de_valid := true |} ] |} |}.
Definition ex_pi : prov_index_file :=
  {| pi_proof := {| uri_len := 0; target := None |};
     pi_chunks := [ {| uri_len := 46; target := Some ex_chunk_raw |} ]; pi_updates := [] |}.
Definition ex_pi_ref : ref prov_index_file :=
  {| uri_len := 46; target := Some {| f_read_ok := true; f_raw_size := 120; f_decomp_ok := true; f_size := 150; f_parsed := Some ex_pi |} |}.

Example ex_two_roles_hypotheses :
  read_ref (ex_L 510) (l_prov_index (ex_L 510)) ex_pi_ref = Some ex_pi /\
  f_raw_size ex_chunk_raw > l_chunk (ex_L 510) /\ f_raw_size ex_chunk_raw <= l_core_index (ex_L 510).
Proof. split; [vm_compute; reflexivity|]. cbn. lia. Qed.

Example ex_two_roles_refused : get_prov_files (ex_L 510) ex_pi_ref = None.
Proof. vm_compute. reflexivity. Qed.

Example ex_two_roles_read_at_the_limit : exists pp ch, get_prov_files (ex_L 511) ex_pi_ref = Some (ex_pi, pp, ch).
Proof. eexists. eexists. vm_compute. reflexivity. Qed.
