(* C13: files written for a batch read back as exactly that batch. *)
From Coq Require Import List ZArith Bool Lia Permutation.
From SV Require Import Base.ListFacts Base.Split3 Resolve.Op Resolve.Chain Batch.Files Batch.Handler Batch.Safe.
Import ListNotations.
Local Open Scope Z_scope.

Lemma parse_ops_split3 l : forall seen,
  parse_ops seen l =
  let s := split3 bq_expired bq_sfx memZ seen l in
  {| p_included := s3_in s; p_additional := s3_add s; p_expired := s3_exp s |}.
Proof.
  induction l as [|o r IH]; intros seen; cbn [parse_ops split3]; [reflexivity|].
  rewrite !IH. destruct (bq_expired o); [|destruct (memZ (bq_sfx o) seen)]; reflexivity.
Qed.

Lemma parse_ops_perm : forall l seen,
  let p := parse_ops seen l in Permutation l (p_included p ++ p_additional p ++ p_expired p).
Proof. intros l seen. cbn zeta. rewrite parse_ops_split3. apply split3_perm. Qed.

Lemma parse_ops_included : forall l seen,
  NoDup (map bq_sfx (p_included (parse_ops seen l))) /\
  (forall o, In o (p_included (parse_ops seen l)) -> ~ In (bq_sfx o) seen /\ bq_expired o = false /\ In o l).
Proof. intros l seen. rewrite parse_ops_split3. apply split3_in, memZ_In. Qed.

Lemma of_type_partition inc :
  Permutation inc (of_type Create inc ++ of_type Recover inc ++ of_type Update inc ++ of_type Deactivate inc).
Proof.
  unfold of_type. induction inc as [|o r IH]; [reflexivity|]. cbn [filter].
  set (A := filter (fun o => optype_eqb (bq_ty o) Create) r) in *.
  set (B := filter (fun o => optype_eqb (bq_ty o) Recover) r) in *.
  set (C := filter (fun o => optype_eqb (bq_ty o) Update) r) in *.
  set (D := filter (fun o => optype_eqb (bq_ty o) Deactivate) r) in *.
  destruct (bq_ty o); cbn [optype_eqb app].
  - constructor. exact IH.
  - (* update *) rewrite (app_assoc A B). apply Permutation_cons_app. rewrite <- app_assoc. exact IH.
  - (* recover *) apply Permutation_cons_app. exact IH.
  - (* deactivate *) rewrite (app_assoc A), (app_assoc (A ++ B)). apply Permutation_cons_app. rewrite <- !app_assoc. exact IH.
Qed.

Lemma of_type_ty t l o : In o (of_type t l) -> bq_ty o = t.
Proof.
  unfold of_type. intros H. apply filter_In in H. destruct H as [_ H]. destruct (bq_ty o), t; cbn in H; congruence.
Qed.

Definition valid_ref (L : limits) (o : qbop) : Prop :=
  mh_ok L (bq_sfx_len o) = true /\ mh_ok L (bq_reveal_len o) = true.

Lemma zip_ops_same ty l :
  zip_ops ty (map to_op_ref l) (map to_proof l) =
  map (fun o => {| ro_ty := ty; ro_sfx := bq_sfx o; ro_reveal := bq_reveal o; ro_signed := bq_signed o; ro_delta := 0;
                   ro_sdata := 0; ro_origin := match ty with Recover => bq_origin o | _ => 0 end |}) l.
Proof. induction l as [|o r IH]; [reflexivity|]. cbn [map zip_ops hd tl]. f_equal. exact IH. Qed.

Lemma with_deltas_same (f : qbop -> rop) l :
  with_deltas (map f l) (map to_delta l) =
  map (fun o => {| ro_ty := ro_ty (f o); ro_sfx := ro_sfx (f o); ro_reveal := ro_reveal (f o); ro_signed := ro_signed (f o);
                   ro_delta := bq_delta o; ro_sdata := ro_sdata (f o); ro_origin := ro_origin (f o) |}) l.
Proof. induction l as [|o r IH]; [reflexivity|]. cbn [map with_deltas hd tl to_delta de_delta]. f_equal. exact IH. Qed.

Lemma with_deltas_app a b da db :
  length a = length da -> with_deltas (a ++ b) (da ++ db) = with_deltas a da ++ with_deltas b db.
Proof.
  revert da. induction a as [|x r IH]; intros da Hl; destruct da as [|d dr]; cbn in Hl; try discriminate; [reflexivity|].
  cbn [app with_deltas hd tl]. f_equal. apply IH. lia.
Qed.

(* what the zips give for operations of one type, against [expect] *)
Lemma expect_zip t l : (forall o, In o l -> bq_ty o = t) -> t <> Create ->
  map (fun o => {| ro_ty := t; ro_sfx := bq_sfx o; ro_reveal := bq_reveal o; ro_signed := bq_signed o;
                   ro_delta := match t with Deactivate => 0 | _ => bq_delta o end; ro_sdata := 0;
                   ro_origin := match t with Recover => bq_origin o | _ => 0 end |}) l
  = map expect l.
Proof.
  intros Hl Hnc. apply map_ext_in. intros o Ho. unfold expect. rewrite (Hl o Ho). destruct t; try congruence; reflexivity.
Qed.

Lemma map_ext_in' {A B} (f g : A -> B) l : (forall x, In x l -> f x = g x) -> map f l = map g l.
Proof. apply map_ext_in. Qed.

Lemma forallb_map_true {A B} (f : B -> bool) (g : A -> B) l : (forall x, In x l -> f (g x) = true) -> forallb f (map g l) = true.
Proof. intros H. apply forallb_forall. intros y Hy. apply in_map_iff in Hy. destruct Hy as (x & <- & Hx). auto. Qed.

Lemma refs_ok L l : Forall (valid_ref L) l -> forallb (op_ref_ok L) (map to_op_ref l) = true.
Proof.
  intros Hv. apply forallb_map_true. intros o Ho. rewrite Forall_forall in Hv.
  destruct (Hv o Ho) as [H1 H2]. unfold op_ref_ok, to_op_ref. cbn. rewrite H1, H2. reflexivity.
Qed.

(* every proof entry and delta the handler writes carries a positive verdict *)
Lemma core_proof_valid re de : validate_core_proof (core_proof_of re de) = true.
Proof. apply andb_true_iff. split; apply forallb_map_true; reflexivity. Qed.

Lemma prov_proof_valid up : validate_prov_proof (prov_proof_of up) = true.
Proof. apply forallb_map_true. reflexivity. Qed.

Lemma chunk_valid cr re up : validate_chunk (chunk_of cr re up) = true.
Proof. apply forallb_map_true. reflexivity. Qed.

Section RT.
  Variable L : limits.
  Variable u : Z.
  Hypothesis Hu : 0 < u <= l_uri_len L.
  Hypothesis Hlim : 0 <= l_core_index L /\ 0 <= l_proof L /\ 0 <= l_prov_index L /\ 0 <= l_chunk L /\ 0 <= l_factor L.

  Lemma read_served {A} max (x : A) : 0 <= max -> read_file L max (served x) = Some x.
  Proof.
    intros Hm. unfold read_file, served. cbn [f_read_ok f_raw_size f_decomp_ok f_size f_parsed negb].
    destruct (Z.gtb_spec 0 max); [lia|]. destruct (Z.gtb_spec 0 (max * l_factor L)); [nia | reflexivity].
  Qed.

  Lemma read_ref_to {A} max (x : A) : 0 <= max -> read_ref L max (ref_to u x) = Some x.
  Proof. apply read_served. Qed.

  Lemma present_ref_to {A} (x : A) : present (ref_to u x) = true.
  Proof. unfold present, ref_to. cbn [uri_len]. destruct (Z.eqb_spec u 0); [lia | reflexivity]. Qed.

  (* a proof file is written, and referenced, exactly when [l] (the operations that need it) is not empty *)
  Lemma opt_ref_present {A B} (l : list B) (x : A) :
    present match l with [] => no_ref | _ => ref_to u x end = true <-> (0 < length l)%nat.
  Proof. destruct l; [|rewrite present_ref_to]; cbn; split; (discriminate || lia || reflexivity). Qed.

  Lemma opt_ref_uri {A B} (l : list B) (x : A) : uri_len match l with [] => no_ref | _ => ref_to u x end <= l_uri_len L.
  Proof. destruct l; cbn; lia. Qed.

  Lemma opt_ref_read {A B} (l : list B) (x : A) max (valid : A -> bool) : 0 <= max -> valid x = true ->
    (if present match l with [] => no_ref | _ => ref_to u x end
     then match read_ref L max match l with [] => no_ref | _ => ref_to u x end with
          | Some p => if valid p then Some (Some p) else None
          | None => None
          end
     else Some None) = Some match l with [] => None | _ => Some x end.
  Proof. intros Hm Hv. destruct l; [reflexivity|]. rewrite present_ref_to, read_ref_to, Hv by exact Hm. reflexivity. Qed.

  Variables cr re up de : list qbop.
  Hypothesis Hvalid : Forall (valid_ref L) (re ++ up ++ de).
  Hypothesis Hnd : NoDup (map bq_sfx (cr ++ re ++ up ++ de)).

  Lemma valid_parts : Forall (valid_ref L) re /\ Forall (valid_ref L) up /\ Forall (valid_ref L) de.
  Proof. rewrite <- !Forall_app. exact Hvalid. Qed.

  Lemma core_index_valid wp : validate_core_index L (core_index_of u wp cr re up de) = true.
  Proof.
    apply validate_core_index_true. cbn [ci_proof ci_prov ci_creates ci_recovers ci_deactivates core_index_of].
    rewrite !map_length, <- app_length. split; [apply opt_ref_present|]. split; [apply opt_ref_uri|].
    split; [destruct wp; cbn; lia|]. split; [apply forallb_map_true; reflexivity|]. split; apply refs_ok, valid_parts.
  Qed.

  Lemma prov_index_valid : validate_prov_index L (prov_index_of u cr re up) = true.
  Proof.
    apply validate_prov_index_true. cbn [pi_proof pi_chunks pi_updates prov_index_of]. rewrite map_length.
    split; [apply opt_ref_present|]. split; [apply opt_ref_uri|]. split; [cbn; lia | apply refs_ok, valid_parts].
  Qed.

  Definition files_of (wp : bool) : batch_files :=
    {| bf_core := core_index_of u wp cr re up de;
       bf_core_proof := match re ++ de with [] => None | _ => Some (core_proof_of re de) end;
       bf_prov := if wp then Some (prov_index_of u cr re up, match up with [] => None | _ => Some (prov_proof_of up) end, chunk_of cr re up)
                  else None |}.

  Lemma prov_files_read :
    get_prov_files L (ref_to u (prov_index_of u cr re up))
    = Some (prov_index_of u cr re up, match up with [] => None | _ => Some (prov_proof_of up) end, chunk_of cr re up).
  Proof.
    unfold get_prov_files. rewrite read_ref_to by apply Hlim. rewrite prov_index_valid. cbn [negb].
    unfold prov_index_of at 1 2 3. cbn [pi_proof pi_chunks].
    rewrite (opt_ref_read up (prov_proof_of up)) by (apply Hlim || apply prov_proof_valid).
    rewrite read_ref_to by apply Hlim. rewrite chunk_valid. reflexivity.
  Qed.

  Lemma counts_ok_files wp : counts_ok (files_of wp) = true.
  Proof.
    unfold counts_ok, files_of, core_proof_of, prov_index_of, prov_proof_of, chunk_of.
    destruct wp, (re ++ de), up; cbn; rewrite ?map_length, ?app_length, ?Nat.add_assoc, ?Nat.eqb_refl; reflexivity.
  Qed.

  Lemma batch_files_read wp : get_batch_files L (core_index_of u wp cr re up de) = Some (files_of wp).
  Proof.
    unfold get_batch_files. cbn [ci_proof ci_prov core_index_of].
    rewrite (opt_ref_read (re ++ de) (core_proof_of re de)) by (apply Hlim || apply core_proof_valid).
    destruct wp.
    - rewrite present_ref_to, prov_files_read. fold (files_of true). rewrite (counts_ok_files true). reflexivity.
    - cbn [present no_ref uri_len Z.eqb negb]. fold (files_of false). rewrite (counts_ok_files false). reflexivity.
  Qed.

  Hypothesis Hcr : forall o, In o cr -> bq_ty o = Create.
  Hypothesis Hre : forall o, In o re -> bq_ty o = Recover.
  Hypothesis Hup : forall o, In o up -> bq_ty o = Update.
  Hypothesis Hde : forall o, In o de -> bq_ty o = Deactivate.

  Lemma assemble_files wp :
    (wp = false -> cr = [] /\ re = [] /\ up = []) ->
    assemble (files_of wp) = Some (map expect (cr ++ re ++ up ++ de)).
  Proof.
    intros Hwp. unfold assemble, files_of. cbn [bf_core bf_core_proof bf_prov core_index_of ci_creates ci_recovers ci_deactivates].
    rewrite !map_map. cbn [cc_sfx to_create_ref or_sfx to_op_ref].
    assert (Hnd4 : NoDup ((map bq_sfx cr ++ map bq_sfx re ++ map bq_sfx de) ++ map bq_sfx up)).
    { rewrite !map_app in Hnd. eapply Permutation_NoDup; [|exact Hnd]. rewrite <- !app_assoc.
      do 2 apply Permutation_app_head. apply Permutation_app_comm. }
    erewrite nodup_has_dup by (apply NoDup_app_iff in Hnd4; apply Hnd4).
    set (cp := match _ with Some p => p | None => _ end).
    assert (Hcp : cp_deactivates cp = map to_proof de /\ cp_recovers cp = map to_proof re)
      by (unfold cp; destruct re, de; split; reflexivity).
    destruct Hcp as [-> ->]. rewrite !zip_ops_same.
    destruct wp.
    - cbn [pi_updates prov_index_of]. rewrite (map_map to_op_ref or_sfx). erewrite nodup_has_dup by exact Hnd4.
      rewrite map_length, <- (map_length to_proof re), firstn_all, forallb_map_true by reflexivity. cbn [negb].
      replace match match up with [] => None | _ => Some (prov_proof_of up) end with Some p => pp_updates p | None => [] end
        with (map to_proof up) by (destruct up; reflexivity).
      rewrite zip_ops_same. unfold chunk_of, create_ops. cbn [ch_deltas]. rewrite map_map.
      cbn [cc_sfx cc_sdata cc_origin to_create_ref].
      repeat rewrite ?app_length, ?map_length. rewrite Nat.eqb_refl. cbn [negb].
      rewrite !map_app, !with_deltas_app, !with_deltas_same by (rewrite !map_length; reflexivity).
      cbn [ro_ty ro_sfx ro_reveal ro_signed ro_sdata ro_origin].
      rewrite <- !app_assoc. f_equal. f_equal; [|f_equal; [|f_equal]].
      + apply map_ext_in. intros o Ho. unfold expect. rewrite (Hcr o Ho). reflexivity.
      + apply (expect_zip Recover); [exact Hre | discriminate].
      + apply (expect_zip Update); [exact Hup | discriminate].
      + apply (expect_zip Deactivate); [exact Hde | discriminate].
    - destruct (Hwp eq_refl) as (-> & -> & ->). cbn [app map].
      f_equal. apply (expect_zip Deactivate); [exact Hde | discriminate].
  Qed.

  Theorem read_prepared wp n :
    (wp = false -> cr = [] /\ re = [] /\ up = []) ->
    n = length (cr ++ re ++ up ++ de) -> (0 < n)%nat ->
    get_txn_operations L (anchor_of u wp cr re up de n) = Some (map expect (cr ++ re ++ up ++ de)).
  Proof.
    intros Hwp Hn Hpos. unfold get_txn_operations, anchor_of. cbn [a_syntax_ok a_core a_count].
    destruct (0 <? Z.of_nat n) eqn:E; [|apply Z.ltb_ge in E; lia]. cbn [negb].
    rewrite read_served by apply Hlim. rewrite core_index_valid. cbn [negb].
    rewrite batch_files_read, (assemble_files wp Hwp). rewrite map_length, <- Hn, Z.eqb_refl. reflexivity.
  Qed.
End RT.

Lemma prepare_snd u ops : snd (prepare u ops) = parse_ops [] ops.
Proof. unfold prepare. cbv zeta. destruct (p_included (parse_ops [] ops)); reflexivity. Qed.

Lemma prepare_nonempty u ops :
  p_included (parse_ops [] ops) <> [] -> prepare u ops = (prepare_files u ops (parse_ops [] ops), parse_ops [] ops).
Proof. unfold prepare. cbv zeta. destruct (p_included (parse_ops [] ops)); [congruence | reflexivity]. Qed.

(* F16, PrepareTxnFiles on a batch whose operations have all expired: nothing included -> no file, no anchor string,
   nothing to read back, nothing deferred: the whole batch is in the expired list *)
Theorem prepare_all_expired L u ops :
  let a := fst (prepare u ops) in let p := snd (prepare u ops) in
  p_included p = [] ->
  a = no_anchor /\ a_count a = 0 /\ get_txn_operations L a = None /\ p_additional p = [] /\ Permutation ops (p_expired p).
Proof.
  cbv zeta. rewrite prepare_snd. intros Hi.
  assert (Ha : p_additional (parse_ops [] ops) = [])
    by (revert Hi; rewrite parse_ops_split3; apply split3_in_nil, memZ_In).
  unfold prepare. cbv zeta. rewrite Hi. cbn [fst].
  split; [reflexivity|]. split; [reflexivity|]. split; [reflexivity|]. split; [exact Ha|].
  pose proof (parse_ops_perm ops []) as Hp. cbv zeta in Hp. rewrite Hi, Ha in Hp. exact Hp.
Qed.

(* Validity of the references is needed only of the operations that are written as references.  A create has no
   reveal value: its [bq_reveal_len] is 0 and [mh_ok L 0 = false], so a queue that holds one does not meet
   [Forall (valid_ref L)]. *)
Theorem roundtrip_refs L u ops :
  0 < u <= l_uri_len L ->
  0 <= l_core_index L /\ 0 <= l_proof L /\ 0 <= l_prov_index L /\ 0 <= l_chunk L /\ 0 <= l_factor L ->
  Forall (fun o => bq_ty o <> Create -> valid_ref L o) ops ->
  p_included (parse_ops [] ops) <> [] ->
  get_txn_operations L (fst (prepare u ops)) = Some (map expect (read_back_order (p_included (parse_ops [] ops)))).
Proof.
  intros Hu Hlim Hvalid Hne. rewrite (prepare_nonempty u ops Hne).
  unfold prepare_files. cbn [fst]. set (p := parse_ops [] ops) in *. set (inc := p_included p) in *.
  destruct (parse_ops_included ops []) as [Hnd Hin]. fold p in Hnd, Hin. fold inc in Hnd, Hin.
  unfold read_back_order. fold inc.
  apply read_prepared; try assumption; try (intros o Ho; eapply of_type_ty; exact Ho).
  - apply Forall_forall. intros o Ho. rewrite Forall_forall in Hvalid.
    rewrite !in_app_iff in Ho. unfold of_type in Ho. rewrite !filter_In in Ho.
    apply Hvalid; [apply (Hin o); tauto|]. intros Hc. rewrite Hc in Ho. cbn [optype_eqb] in Ho. intuition discriminate.
  - eapply Permutation_NoDup; [|exact Hnd]. apply Permutation_map. apply of_type_partition.
  - (* no provisional files only when every queued operation is an included deactivate *)
    intros Hwp. apply negb_false_iff, Nat.eqb_eq in Hwp.
    pose proof (Permutation_length (parse_ops_perm ops [])) as Hp. fold p in Hp. cbn zeta in Hp. fold inc in Hp.
    pose proof (Permutation_length (of_type_partition inc)) as Hq. rewrite !app_length in Hp. rewrite !app_length in Hq.
    repeat split; apply length_zero_iff_nil; lia.
  - apply Permutation_length. apply of_type_partition.
  - clearbody inc. destruct inc; [congruence | cbn; lia].
Qed.

(* C13: the files written by PrepareTxnFiles read back as exactly the included operations - the first non-expired
   one per suffix - ordered create, recover, update, deactivate; the anchor count is their number; every queued
   operation is included, deferred or expired.  [Forall (valid_ref L) ops] asks a valid reveal value of every
   operation, creates included, which have none: [roundtrip_refs] is the statement that covers queues with creates. *)
Theorem roundtrip L u ops :
  0 < u <= l_uri_len L ->
  0 <= l_core_index L /\ 0 <= l_proof L /\ 0 <= l_prov_index L /\ 0 <= l_chunk L /\ 0 <= l_factor L ->
  Forall (valid_ref L) ops ->
  let a := fst (prepare u ops) in let p := snd (prepare u ops) in
  p_included p <> [] ->
  get_txn_operations L a = Some (map expect (read_back_order (p_included p))) /\
  a_count a = Z.of_nat (length (p_included p)) /\
  NoDup (map bq_sfx (p_included p)) /\
  Permutation ops (p_included p ++ p_additional p ++ p_expired p).
Proof.
  intros Hu Hlim Hvalid. cbv zeta. rewrite prepare_snd. intros Hne. split.
  - apply roundtrip_refs; try assumption. eapply Forall_impl; [|exact Hvalid]. auto.
  - rewrite (prepare_nonempty u ops Hne). split; [reflexivity|]. split; [apply parse_ops_included | apply parse_ops_perm].
Qed.
