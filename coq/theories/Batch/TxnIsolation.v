(* C15, "a failing transaction contributes nothing, later ones proceed": isolation for the observer model [observe]
   of Batch/TxnProc.v, read off the closed form  observe st txns = st ++ concat (map contribution txns).

   An element of the observer's input is (t, put_ok, del_ok): the transaction record with the facts of
   the protocol client and the operation provider, and the verdicts of the two store calls made for it. *)
From Coq Require Import List ZArith Bool Lia.
From SV Require Import Base.ListFacts Resolve.Op Batch.Files Batch.TxnProc Batch.TxnProofs.
Import ListNotations.
Local Open Scope Z_scope.

Definition entry : Type := (stxn * bool * bool)%type.
Definition e_txn (e : entry) : stxn := fst (fst e).
Definition e_put_ok (e : entry) : bool := snd (fst e).

(* the transaction is skipped by the observer (no protocol client for the namespace, no protocol
   version for the transaction), its operations cannot be retrieved, or the operation store's Put fails *)
Definition failing (e : entry) : Prop :=
  tx_ns_ok (e_txn e) = false \/ tx_version_ok (e_txn e) = false \/ tx_ops (e_txn e) = None \/ e_put_ok e = false.

Definition failingb (e : entry) : bool :=
  negb (tx_ns_ok (e_txn e) && tx_version_ok (e_txn e) && match tx_ops (e_txn e) with Some _ => true | None => false end
        && e_put_ok e).

Lemma failingb_spec e : failingb e = true <-> failing e.
Proof.
  unfold failingb, failing. rewrite negb_true_iff, !andb_false_iff. destruct (tx_ops (e_txn e)); intuition discriminate.
Qed.

Lemma not_failing e : failingb e = false <->
  tx_ns_ok (e_txn e) = true /\ tx_version_ok (e_txn e) = true /\ (exists ops, tx_ops (e_txn e) = Some ops) /\ e_put_ok e = true.
Proof.
  unfold failingb. rewrite negb_false_iff, !andb_true_iff. destruct (tx_ops (e_txn e)) as [ops|]; split.
  - intros [[[Ha Hb] _] Hd]. eauto 6.
  - intros (Ha & Hb & _ & Hd). auto.
  - intros [[_ Hc] _]. discriminate.
  - intros (_ & _ & [o Ho] & _). discriminate.
Qed.

(* what one element of the list adds to the operation store *)
Definition contribution (e : entry) : list sop :=
  if failingb e then []
  else match tx_ops (e_txn e) with
       | Some ops => map (stamp (e_txn e)) (first_per_suffix [] ops)
       | None => []
       end.

Lemma contribution_observe_one t p d : contribution (t, p, d) = observe_one [] p d t.
Proof.
  unfold observe_one, contribution, failingb, process_txn, e_txn, e_put_ok. cbn [fst snd].
  destruct (tx_ns_ok t), (tx_version_ok t), (tx_ops t), p, d; reflexivity.
Qed.

Lemma observe_one_contribution store t p d : observe_one store p d t = store ++ contribution (t, p, d).
Proof. rewrite contribution_observe_one. apply observe_one_from_empty. Qed.

Theorem observe_closed_form : forall txns store, observe store txns = store ++ concat (map contribution txns).
Proof.
  induction txns as [|[[t p] d] r IH]; intros store; cbn [observe map concat]; [rewrite app_nil_r; reflexivity|].
  rewrite IH, observe_one_contribution, app_assoc. reflexivity.
Qed.

Lemma contribution_failing e : failingb e = true -> contribution e = [].
Proof. intros H. unfold contribution. rewrite H. reflexivity. Qed.

Lemma contribution_ok e : failingb e = false ->
  exists ops, tx_ops (e_txn e) = Some ops /\ contribution e = map (stamp (e_txn e)) (first_per_suffix [] ops).
Proof.
  intros H. unfold contribution. rewrite H. apply not_failing in H. destruct H as (_ & _ & (ops & Ho) & _).
  exists ops. rewrite Ho. auto.
Qed.

Lemma failing_no_contribution e : failing e -> contribution e = [].
Proof. intros H. apply contribution_failing, failingb_spec, H. Qed.

Lemma first_per_suffix_nil_iff ops : first_per_suffix [] ops = [] <-> ops = [].
Proof. destruct ops as [|o r]; cbn [first_per_suffix memZ]; split; intros H; try reflexivity; discriminate. Qed.

(* a transaction adds nothing exactly when it fails or holds no operation *)
Lemma contribution_nil_iff e : contribution e = [] <-> failing e \/ tx_ops (e_txn e) = Some [].
Proof.
  rewrite <- failingb_spec. destruct (failingb e) eqn:Ef.
  - split; [intros _; left; reflexivity | intros _; apply contribution_failing; exact Ef].
  - destruct (contribution_ok e Ef) as (ops & Ho & ->). rewrite Ho. split.
    + intros H. right. apply map_eq_nil in H. apply (proj1 (first_per_suffix_nil_iff ops)) in H. subst. reflexivity.
    + intros [Hf|[= ->]]; [discriminate | reflexivity].
Qed.

(* a failing transaction can be removed from the list without changing the result, from any store *)
Theorem failing_txn_removable store l1 e l2 :
  failing e -> observe store (l1 ++ e :: l2) = observe store (l1 ++ l2).
Proof.
  intros Hf. rewrite !observe_closed_form, !map_app, !concat_app. cbn [map concat].
  rewrite (failing_no_contribution e Hf). reflexivity.
Qed.

(* exactly the transactions without contribution can be removed *)
Theorem removable_iff_no_contribution store l1 e l2 :
  observe store (l1 ++ e :: l2) = observe store (l1 ++ l2) <-> failing e \/ tx_ops (e_txn e) = Some [].
Proof.
  rewrite <- contribution_nil_iff. rewrite !observe_closed_form, !map_app, !concat_app. cbn [map concat]. split.
  - intros H. apply app_inv_head in H. apply app_inv_head in H.
    apply (f_equal (@length sop)) in H. rewrite app_length in H.
    destruct (contribution e); [reflexivity | cbn [length] in H; lia].
  - intros ->. reflexivity.
Qed.

(* the transactions after a failing one are processed as if it had not been there *)
Theorem later_txns_proceed store l1 e l2 :
  failing e -> observe store (l1 ++ e :: l2) = observe (observe store l1) l2.
Proof. intros Hf. rewrite failing_txn_removable by exact Hf. apply observe_app. Qed.

Theorem failing_txns_filtered : forall txns store,
  observe store txns = observe store (filter (fun e => negb (failingb e)) txns).
Proof.
  intros txns store. rewrite !observe_closed_form. f_equal.
  induction txns as [|e r IH]; cbn [filter map concat]; [reflexivity|].
  destruct (failingb e) eqn:Ef; cbn [negb map concat].
  - apply failingb_spec in Ef. rewrite (failing_no_contribution e Ef). exact IH.
  - rewrite IH. reflexivity.
Qed.

(* along a list the store only grows, at its end: what was stored stays, in place (for every prefix) *)
Theorem observe_grows store l1 l2 : exists added, observe store (l1 ++ l2) = observe store l1 ++ added.
Proof. rewrite observe_app. apply observe_extends. Qed.

Lemma in_contribution s e :
  In s (contribution e) <->
  ~ failing e /\ exists ops o, tx_ops (e_txn e) = Some ops /\ In o (first_per_suffix [] ops) /\ s = stamp (e_txn e) o.
Proof.
  rewrite <- failingb_spec. destruct (failingb e) eqn:Ef.
  - rewrite (contribution_failing e Ef). split; [intros [] | intros [Hn _]; elim Hn; reflexivity].
  - destruct (contribution_ok e Ef) as (ops & Ho & ->). rewrite in_map_iff, Ho. split.
    + intros (o & <- & Hi). split; [discriminate|]. exists ops, o. auto.
    + intros (_ & ops' & o & [= <-] & Hi & ->). exists o. auto.
Qed.

(* every stored operation was in the initial store or stems from a NON-failing transaction of the list:
   it is one of the operations the provider returned for it (the first one for its suffix) and carries
   the transaction's coordinates *)
Theorem stored_op_origin store txns s :
  In s (observe store txns) ->
  In s store \/
  exists e ops o,
    In e txns /\ ~ failing e /\ tx_ops (e_txn e) = Some ops /\ In o ops /\ In o (first_per_suffix [] ops) /\
    so_req s = o /\ so_ty s = ro_ty o /\ so_sfx s = ro_sfx o /\
    so_time s = tx_time (e_txn e) /\ so_num s = tx_num (e_txn e) /\ so_pver s = tx_pver (e_txn e) /\
    so_cref s = tx_cref (e_txn e) /\ so_eqv s = tx_eqv (e_txn e).
Proof.
  rewrite observe_closed_form. intros Hi. apply in_app_or in Hi. destruct Hi as [Hi|Hi]; [left; exact Hi|]. right.
  apply in_concat in Hi. destruct Hi as (c & Hc & Hs). apply in_map_iff in Hc. destruct Hc as (e & <- & He).
  apply in_contribution in Hs. destruct Hs as (Hnf & ops & o & Ho & Hio & ->).
  exists e, ops, o. split; [exact He|]. split; [exact Hnf|]. split; [exact Ho|].
  split; [apply (proj2 (first_per_suffix_nodup ops []) o Hio)|]. split; [exact Hio|].
  cbn. repeat split; reflexivity.
Qed.

(* conversely every operation kept from a non-failing transaction is stored *)
Theorem non_failing_txn_stored store txns e ops o :
  In e txns -> ~ failing e -> tx_ops (e_txn e) = Some ops -> In o (first_per_suffix [] ops) ->
  In (stamp (e_txn e) o) (observe store txns).
Proof.
  intros He Hnf Ho Hi. rewrite observe_closed_form. apply in_or_app. right. apply in_concat.
  exists (contribution e). split; [apply in_map; exact He|]. apply in_contribution. split; [exact Hnf|]. exists ops, o. auto.
Qed.

Definition coord (e : entry) : Z * Z := (tx_time (e_txn e), tx_num (e_txn e)).
Definition op_key (s : sop) : Z * Z * Z := (so_sfx s, so_time s, so_num s).

Lemma contribution_keys_nodup e : NoDup (map op_key (contribution e)).
Proof.
  destruct (failingb e) eqn:Ef; [rewrite (contribution_failing e Ef); constructor|].
  destruct (contribution_ok e Ef) as (ops & _ & ->).
  apply (NoDup_map_inv (fun k : Z * Z * Z => fst (fst k))). rewrite !map_map. cbn [op_key stamp so_sfx fst].
  apply first_per_suffix_nodup.
Qed.

Lemma contribution_key_coord e s : In s (contribution e) -> (so_time s, so_num s) = coord e /\ failingb e = false.
Proof.
  intros Hi. apply in_contribution in Hi. destruct Hi as (Hnf & ops & o & _ & _ & ->). split; [reflexivity|].
  destruct (failingb e) eqn:Ef; [|reflexivity]. elim Hnf. apply failingb_spec. exact Ef.
Qed.

(* Only the coordinates of the NON-failing transactions have to be distinct (a failing transaction may
   share them, e.g. one that is delivered again). *)
Theorem one_op_per_suffix_and_txn txns :
  NoDup (map coord (filter (fun e => negb (failingb e)) txns)) ->
  NoDup (map op_key (observe [] txns)).
Proof.
  rewrite observe_closed_form. cbn [app]. induction txns as [|e r IH]; cbn [filter map concat]; [constructor|].
  intros Hn. rewrite map_app. apply NoDup_app_iff. split; [|split].
  - apply contribution_keys_nodup.
  - apply IH. destruct (negb (failingb e)); [inversion Hn; assumption | exact Hn].
  - intros k Hk Hk'. apply in_map_iff in Hk, Hk'. destruct Hk as (s & <- & Hs), Hk' as (s' & Hkey & Hs').
    apply in_concat in Hs'. destruct Hs' as (c & Hc & Hs'). apply in_map_iff in Hc. destruct Hc as (e' & <- & He').
    destruct (contribution_key_coord _ _ Hs) as [Hco Hnf], (contribution_key_coord _ _ Hs') as [Hco' Hnf'].
    rewrite Hnf in Hn. cbn [negb map] in Hn. apply NoDup_cons_iff in Hn. apply (proj1 Hn).
    apply in_map_iff. exists e'. rewrite filter_In, Hnf', <- Hco, <- Hco'. injection Hkey as _ -> ->. auto.
Qed.

(* C15's wording: the coordinates of all transactions pairwise distinct *)
Corollary one_op_per_suffix_and_txn_all txns :
  NoDup (map coord txns) -> NoDup (map op_key (observe [] txns)).
Proof. intros Hn. apply one_op_per_suffix_and_txn. apply NoDup_map_filter. exact Hn. Qed.

(* read as "at most one": two stored operations with the same suffix and coordinates are the same entry *)
Corollary same_key_same_op txns i j :
  NoDup (map coord (filter (fun e => negb (failingb e)) txns)) ->
  (i < length (observe [] txns))%nat -> (j < length (observe [] txns))%nat ->
  op_key (nth i (observe [] txns) (stamp (Build_stxn 0 0 0 0 0 false false None) (Build_rop Create 0 0 0 0 0 0))) =
  op_key (nth j (observe [] txns) (stamp (Build_stxn 0 0 0 0 0 false false None) (Build_rop Create 0 0 0 0 0 0))) ->
  i = j.
Proof.
  intros Hn Hi Hj Hk. pose proof (one_op_per_suffix_and_txn txns Hn) as Hnd.
  set (d := stamp (Build_stxn 0 0 0 0 0 false false None) (Build_rop Create 0 0 0 0 0 0)) in *.
  rewrite <- (map_nth op_key _ d i), <- (map_nth op_key _ d j) in Hk.
  apply (proj1 (NoDup_nth (map op_key (observe [] txns)) (op_key d)) Hnd); rewrite ?map_length; assumption.
Qed.

Definition xop (t : optype) (sfx : Z) : rop :=
  {| ro_ty := t; ro_sfx := sfx; ro_reveal := 0; ro_signed := 0; ro_delta := sfx * 10; ro_sdata := 0; ro_origin := 0 |}.
Definition xtxn (time num : Z) (ns ver : bool) (ops : option (list rop)) : stxn :=
  {| tx_time := time; tx_num := num; tx_pver := 0; tx_cref := num + 1; tx_eqv := 0; tx_ns_ok := ns; tx_version_ok := ver;
     tx_ops := ops |}.

Definition good1 : entry := (xtxn 10 0 true true (Some [xop Create 1; xop Create 2; xop Update 1]), true, true).
Definition good2 : entry := (xtxn 10 1 true true (Some [xop Update 2; xop Create 3]), true, true).
Definition bad_unreadable : entry := (xtxn 11 2 true true None, true, true).
Definition bad_namespace : entry := (xtxn 11 3 false true (Some [xop Create 9]), true, true).
Definition bad_version : entry := (xtxn 11 4 true false (Some [xop Create 9]), true, true).
Definition bad_put : entry := (xtxn 11 5 true true (Some [xop Create 9]), false, true).
Definition bad_delete : entry := (xtxn 12 6 true true (Some [xop Create 7]), true, false).

Example failing_examples :
  map failingb [good1; good2; bad_unreadable; bad_namespace; bad_version; bad_put; bad_delete]
  = [false; false; true; true; true; true; false].
Proof. vm_compute. reflexivity. Qed.

(* failing transactions in between change nothing; the later good one is processed *)
Example isolation_example :
  observe [] [bad_namespace; good1; bad_unreadable; bad_version; bad_put; good2] = observe [] [good1; good2] /\
  map op_key (observe [] [good1; good2]) = [(1, 10, 0); (2, 10, 0); (2, 10, 1); (3, 10, 1)].
Proof. vm_compute. split; reflexivity. Qed.

(* hypothesis of one_op_per_suffix_and_txn holds for this list (and fails to be needed for failing ones:
   a failing transaction re-using coordinates (10, 0) does no harm) *)
Example coords_distinct_example :
  let txns := [bad_namespace; good1; (xtxn 10 0 true true None, true, true); good2] in
  NoDup (map coord (filter (fun e => negb (failingb e)) txns)) /\ ~ NoDup (map coord txns).
Proof.
  cbn zeta. split.
  - vm_compute. constructor; [intros [H|[]]; discriminate|]. constructor; [intros []|constructor].
  - intros Hn. vm_compute in Hn. inversion Hn as [|? ? _ Hr]; subst. inversion Hr as [|? ? Hx _]; subst.
    apply Hx. left. reflexivity.
Qed.

(* the pairwise-distinct hypothesis is needed: the same transaction delivered twice is stored twice *)
Example duplicate_coords_refuted :
  map op_key (observe [] [good2; good2]) = [(2, 10, 1); (3, 10, 1); (2, 10, 1); (3, 10, 1)].
Proof. vm_compute. reflexivity. Qed.

(* DEVIATION from "a failing transaction contributes nothing": when DeleteAll on the unpublished-operation
   store fails, Process returns an error (the observer logs it and goes on) but OpStore.Put has already
   stored the operations. *)
Example delete_failure_is_not_isolated :
  process_txn [] true false (e_txn bad_delete) = ([stamp (e_txn bad_delete) (xop Create 7)], PErr) /\
  observe [] [bad_delete] <> observe [] [].
Proof. vm_compute. split; [reflexivity | discriminate]. Qed.

Print Assumptions observe_closed_form.
Print Assumptions failing_txn_removable.
Print Assumptions removable_iff_no_contribution.
Print Assumptions later_txns_proceed.
Print Assumptions failing_txns_filtered.
Print Assumptions observe_grows.
Print Assumptions stored_op_origin.
Print Assumptions non_failing_txn_stored.
Print Assumptions one_op_per_suffix_and_txn.
Print Assumptions one_op_per_suffix_and_txn_all.
Print Assumptions same_key_same_op.
