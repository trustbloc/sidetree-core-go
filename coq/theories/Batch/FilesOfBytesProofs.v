(* Theorems about the batch-file view computed from bytes (Batch/FilesOfBytes.v): GetTxnOperations run on BYTES.
   - the decoders are total and never fail for lack of fuel; what a decoder accepts is the JSON text of an object or
     of null
   - what a successful read says about the anchor TEXT, the CAS entries and the decoded file structs
     ([bytes_success_structure]); the theorems of Batch/Safe.v for [get_txn_operations_bytes]
   - a reachable file whose bytes are not the JSON text of an object (or null) of the right shape, or that breaks a
     read or size limit, makes the transaction fail ([bytes_bad_file_fails])
   - round trip: the canonical JSON text of a file struct (what the handler writes: docutil.MarshalCanonical)
     decodes to that struct ([rt_core_index] ... [rt_chunk])
   - examples on a file set the real handler wrote. *)
From Coq Require Import String List ZArith Bool Lia.
From SV Require Import Base.Bytes Base.ListFacts Json.Ast Json.Num Json.Jcs Json.JcsProofs Json.GoJson Json.GoJsonProofs
  Resolve.Op Batch.Files Batch.Safe Batch.FilesOfBytes.
Import ListNotations.
Local Open Scope Z_scope.

(** * Totality and fuel *)

(* Every function of Batch/FilesOfBytes.v is a total Gallina function: the struct decoders recurse on the syntax tree,
   [anchor_view_of_bytes] follows references to a fixed depth (core index -> provisional index -> chunk), so a CAS whose
   files refer to each other in a cycle cannot make it loop.  The only counter is the fuel of the JSON parser. *)

Definition parse_with_fuel (n : nat) (b : bytes) : option gj :=
  match pvalue n std_limit 0 b with
  | Some (v, rest) => match skip_ws rest with [] => Some v | _ => None end
  | None => None
  end.

Lemma parse_enough_fuel : forall b k, parse_with_fuel (go_fuel b + k) b = std_parse b.
Proof. intros b k. apply go_parse_any_fuel. Qed.

Lemma parse_fuel_mono : forall n b t, parse_with_fuel n b = Some t -> std_parse b = Some t.
Proof.
  intros n b t. unfold parse_with_fuel. destruct (pvalue n std_limit 0 b) as [[v rest]|] eqn:E; [|discriminate].
  intros H. rewrite <- (parse_enough_fuel b n). unfold parse_with_fuel.
  rewrite Nat.add_comm. rewrite (pvalue_mono _ _ _ _ _ (go_fuel b) E). exact H.
Qed.

(* any amount of fuel above [go_fuel b] gives the result the decoder computes, and a smaller amount can only turn a
   result into an error, never into another result: a None of a decoder is a rejection (syntax, nesting depth above
   10000, a value of the wrong kind), never an exhausted counter *)
Theorem unmarshal_fuel : forall (T : Type) (f : T -> bytes -> gj -> option T) (zero : T) (b : bytes),
  (forall k, unmarshal_tree f zero (parse_with_fuel (go_fuel b + k) b) = unmarshal f zero b) /\
  (forall n x, unmarshal_tree f zero (parse_with_fuel n b) = Some x -> unmarshal f zero b = Some x).
Proof.
  intros T f zero b. split.
  - intros k. unfold unmarshal. now rewrite parse_enough_fuel.
  - intros n x H. unfold unmarshal. destruct (parse_with_fuel n b) as [t|] eqn:E; [|discriminate].
    now rewrite (parse_fuel_mono _ _ _ E).
Qed.

Corollary file_decoders_fuel : forall b k,
  unmarshal_tree core_index_member core_index_zero (parse_with_fuel (go_fuel b + k) b) = decode_core_index b /\
  unmarshal_tree core_proof_member core_proof_zero (parse_with_fuel (go_fuel b + k) b) = decode_core_proof b /\
  unmarshal_tree prov_index_member prov_index_zero (parse_with_fuel (go_fuel b + k) b) = decode_prov_index b /\
  unmarshal_tree prov_proof_member prov_proof_zero (parse_with_fuel (go_fuel b + k) b) = decode_prov_proof b /\
  unmarshal_tree chunk_member chunk_zero (parse_with_fuel (go_fuel b + k) b) = decode_chunk b.
Proof. intros b k. repeat split; apply unmarshal_fuel. Qed.

(** * What a decoder accepts is the text of an object or of null *)

Lemma unmarshal_shape : forall {T} (f : T -> bytes -> gj -> option T) zero b x,
  unmarshal f zero b = Some x ->
  exists t, std_parse b = Some t /\ ((t = GNull /\ x = zero) \/ exists ms, t = GObj ms /\ fold_members f ms zero = Some x).
Proof.
  intros T f zero b x. unfold unmarshal, unmarshal_tree. destruct (std_parse b) as [t|]; [|discriminate].
  intros H. exists t. split; [reflexivity|]. destruct t; unfold dec_struct in H; try discriminate.
  - left. split; [reflexivity | congruence].
  - right. eauto.
Qed.

Definition json_object_or_null (b : bytes) : Prop :=
  exists t, std_parse b = Some t /\ (t = GNull \/ exists ms, t = GObj ms).

Lemma unmarshal_object_or_null : forall {T} (f : T -> bytes -> gj -> option T) zero b,
  unmarshal f zero b <> None -> json_object_or_null b.
Proof.
  intros T f zero b H. destruct (unmarshal f zero b) as [x|] eqn:E; [|congruence].
  destruct (unmarshal_shape _ _ _ _ E) as [t [Ht Hs]]. exists t. split; [exact Ht|].
  destruct Hs as [[-> _]|[ms [-> _]]]; [left; reflexivity | right; eauto].
Qed.

Theorem decoded_is_object_or_null : forall b,
  (decode_core_index b <> None -> json_object_or_null b) /\ (decode_core_proof b <> None -> json_object_or_null b) /\
  (decode_prov_index b <> None -> json_object_or_null b) /\ (decode_prov_proof b <> None -> json_object_or_null b) /\
  (decode_chunk b <> None -> json_object_or_null b).
Proof. intros b. repeat split; apply unmarshal_object_or_null. Qed.

(** * A successful read, on bytes *)

Definition entry_ok (L : limits) (max : Z) (e : cas_entry) : Prop :=
  ce_read_ok e = true /\ ce_raw_size e <= max /\ ce_decomp_ok e = true /\ blen (ce_content e) <= max * l_factor L.

(* the CAS has, at [uri], content within the limits that decodes to [m] *)
Definition file_at {T} (L : limits) (C : cas) (max : Z) (uri : bytes) (dec : bytes -> option T) (m : T) : Prop :=
  exists e, cas_get C uri = Some e /\ entry_ok L max e /\ dec (ce_content e) = Some m.

Lemma read_unreadable : forall {A} L max, read_file L max (@unreadable A) = None.
Proof. reflexivity. Qed.

Lemma raw_of_read : forall {A} L max oe (parse : bytes -> option A) x,
  read_file L max (raw_of oe parse) = Some x ->
  exists e, oe = Some e /\ entry_ok L max e /\ parse (ce_content e) = Some x.
Proof.
  intros A L max oe parse x H. apply read_file_some in H. unfold raw_of in H.
  destruct oe as [e|]; [|destruct H; discriminate]. exists e. unfold entry_ok.
  destruct (ce_read_ok e), (ce_decomp_ok e); cbn in H; intuition discriminate.
Qed.

Lemma blen_nonneg : forall s, 0 <= blen s.
Proof. intros s. unfold blen. lia. Qed.

Lemma blen_zero : forall s, blen s = 0 <-> s = [].
Proof. intros [|c r]; unfold blen; cbn [length]; split; intros H; try reflexivity; try discriminate; lia. Qed.

Lemma uri_len_ref_of : forall {A} C uri (parse : bytes -> option A), uri_len (ref_of C uri parse) = blen uri.
Proof. intros A C [|c r] parse; reflexivity. Qed.

Lemma present_ref_of : forall {A} C uri (parse : bytes -> option A), present (ref_of C uri parse) = true <-> uri <> [].
Proof.
  intros A C uri parse. unfold present. rewrite uri_len_ref_of, negb_true_iff, Z.eqb_neq, blen_zero. tauto.
Qed.

Lemma ref_of_read : forall {A} L C max uri (parse : bytes -> option A) x,
  read_ref L max (ref_of C uri parse) = Some x -> uri <> [] /\ file_at L C max uri parse x.
Proof.
  intros A L C max uri parse x H. unfold read_ref, ref_of in H. destruct uri as [|c r]; cbn [target] in H; [discriminate|].
  split; [discriminate|]. apply raw_of_read in H. destruct H as (e & He & Hok & Hp). exists e. auto.
Qed.

(* the projections of Batch/FilesOfBytes.v are [option_map projection . decoder] *)
Lemma file_at_map : forall {T U} L C max uri (dec : bytes -> option T) (f : T -> U) x,
  file_at L C max uri (fun b => option_map f (dec b)) x -> exists m, file_at L C max uri dec m /\ x = f m.
Proof.
  intros T U L C max uri dec f x (e & He & Hok & Hp). destruct (dec (ce_content e)) as [m|] eqn:Em; [|discriminate].
  injection Hp as <-. exists m. split; [exists e; auto | reflexivity].
Qed.

Lemma proofs_of_length : forall I l fs, length (proofs_of I l fs) = length l.
Proof. intros I l. induction l as [|s r IH]; intros fs; cbn [proofs_of length]; [reflexivity | now rewrite IH]. Qed.

Lemma deltas_of_length : forall I l fs, length (deltas_of I l fs) = length l.
Proof.
  intros I l. induction l as [|[d|] r IH]; intros fs; cbn [deltas_of length]; [reflexivity | now rewrite IH | now rewrite IH].
Qed.

Lemma creates_of_length : forall I l fs, length (creates_of I l fs) = length l.
Proof.
  intros I l. induction l as [|c r IH]; intros fs; cbn [creates_of]; [reflexivity|].
  destruct (crm_suffix c); cbn [length]; now rewrite IH.
Qed.

Lemma digits_val_ge : forall s acc v, digits_val s acc = Some v -> 0 <= acc -> acc <= v.
Proof.
  induction s as [|c r IH]; intros acc v H Ha; cbn [digits_val] in H; [inversion H; lia|].
  destruct (is_digit_b c) eqn:Ed; [|discriminate]. apply NumLex.digit_b_range in Ed. apply IH in H; lia.
Qed.

(* ParseAnchorData succeeded: exactly two parts, the first a positive decimal number without leading zero *)
Lemma parse_anchor_ok : forall a n uri,
  parse_anchor a = (true, n, uri) ->
  exists digits, split_dot [] a = [digits; uri] /\ positive_int_text digits = true /\ digits_val digits 0 = Some n /\ 0 < n < two63.
Proof.
  intros a n uri H. unfold parse_anchor in H.
  destruct (split_dot [] a) as [|d [|u [|x l]]] eqn:Es; try discriminate.
  destruct (positive_int_text d) eqn:Ep; [|discriminate].
  destruct (digits_val d 0) as [v|] eqn:Ed; [|discriminate].
  destruct (v <? two63) eqn:Ev; [|discriminate]. inversion H; subst. exists d. apply Z.ltb_lt in Ev.
  repeat split; auto.
  destruct d as [|c r]; [discriminate|]. cbn [positive_int_text] in Ep. cbn [digits_val] in Ed.
  rewrite !andb_true_iff, Z.leb_le in Ep. destruct (is_digit_b c); [|discriminate]. apply digits_val_ge in Ed; lia.
Qed.

(* the anchor text, the core index file behind it, and what the provider went on with *)
Lemma bytes_success_core : forall L F C a ops,
  get_txn_operations_bytes L F C a = Some ops ->
  exists uri m b,
    parse_anchor a = (true, Z.of_nat (length ops), uri) /\
    file_at L C (l_core_index L) uri decode_core_index m /\
    validate_core_index L (core_index_of_m F C m) = true /\
    get_batch_files L (core_index_of_m F C m) = Some b /\ assemble b = Some ops.
Proof.
  intros L F C a ops H. unfold get_txn_operations_bytes in H. apply get_some in H.
  destruct H as (Hok & Hcnt & c & b & Hr & Hv & Hb & Ha).
  unfold anchor_view_of_bytes in *. destruct (parse_anchor a) as [[ok n] uri] eqn:Epa.
  cbn [a_syntax_ok a_count a_core] in *. subst ok n.
  apply raw_of_read in Hr. apply (file_at_map L C _ uri decode_core_index (core_index_of_m F C)) in Hr.
  destruct Hr as (m & Hm & ->). exists uri, m, b. auto.
Qed.

(* what a successful GetTxnOperations says about the anchor text, the CAS and the file bytes *)
Theorem bytes_success_structure : forall L F C a ops,
  get_txn_operations_bytes L F C a = Some ops ->
  exists uri m,
    parse_anchor a = (true, Z.of_nat (length ops), uri) /\
    file_at L C (l_core_index L) uri decode_core_index m /\
    blen (cim_proof_uri m) <= l_uri_len L /\ blen (cim_prov_uri m) <= l_uri_len L /\
    (cim_proof_uri m <> [] <-> (0 < length (core_recovers m) + length (core_deactivates m))%nat) /\
    (cim_proof_uri m <> [] ->
       exists p, file_at L C (l_proof L) (cim_proof_uri m) decode_core_proof p /\
                 length (sl_elems (cpm_recover p)) = length (core_recovers m) /\
                 length (sl_elems (cpm_deactivate p)) = length (core_deactivates m)) /\
    (cim_prov_uri m <> [] ->
       exists pi ch c0 rest,
         file_at L C (l_prov_index L) (cim_prov_uri m) decode_prov_index pi /\
         sl_elems (pim_chunks pi) = c0 :: rest /\ chm_uri c0 <> [] /\ blen (chm_uri c0) <= l_uri_len L /\
         file_at L C (l_chunk L) (chm_uri c0) decode_chunk ch /\
         length (sl_elems (ckm_deltas ch))
           = (length (core_creates m) + length (core_recovers m) + length (prov_updates pi))%nat /\
         blen (pim_proof_uri pi) <= l_uri_len L /\
         (pim_proof_uri pi <> [] <-> (0 < length (prov_updates pi))%nat) /\
         (pim_proof_uri pi <> [] ->
            exists pp, file_at L C (l_proof L) (pim_proof_uri pi) decode_prov_proof pp /\
                       length (sl_elems (ppm_update pp)) = length (prov_updates pi))).
Proof.
  intros L F C a ops H. destruct (bytes_success_core _ _ _ _ _ H) as (uri & m & b & Hpa & Hcore & Hv & Hb & _).
  apply validate_core_index_true in Hv. destruct Hv as (Hdisc & Hu1 & Hu2 & _).
  cbn [ci_proof ci_prov ci_recovers ci_deactivates core_index_of_m] in Hdisc, Hu1, Hu2.
  rewrite uri_len_ref_of in Hu1. rewrite uri_len_ref_of in Hu2. rewrite present_ref_of, !map_length in Hdisc.
  exists uri, m. repeat (split; [assumption|]).
  destruct (get_batch_files_inv _ _ _ Hb) as (Hbc & Hcounts & Hp & Hpv).
  cbn [ci_proof ci_prov core_index_of_m] in Hp, Hpv.
  unfold counts_ok in Hcounts. rewrite Hbc in Hcounts. apply andb_true_iff in Hcounts. destruct Hcounts as [Hc1 Hc2].
  cbn [ci_recovers ci_deactivates ci_creates core_index_of_m] in Hc1, Hc2.
  split; intros Hne.
  - (* core proof file *)
    rewrite (proj2 (present_ref_of _ _ _) Hne) in Hp. destruct Hp as (p & Hrp & _ & Hbp).
    apply ref_of_read in Hrp. apply proj2, file_at_map in Hrp. destruct Hrp as (pm & Hfile & ->). exists pm. split; [exact Hfile|].
    rewrite Hbp in Hc1. apply andb_true_iff in Hc1. destruct Hc1 as [E1 E2]. apply Nat.eqb_eq in E1, E2.
    cbn [cp_recovers cp_deactivates core_proof_of_m] in E1, E2. rewrite proofs_of_length, map_length in E1, E2.
    split; congruence.
  - (* provisional files *)
    rewrite (proj2 (present_ref_of _ _ _) Hne) in Hpv. destruct Hpv as ([[pi pp] ch] & Hg & Hbv).
    destruct (get_prov_files_inv _ _ _ _ _ Hg) as (Hrpi & Hvpi & Hq & c0 & rest & Hch & Hrch & _).
    apply ref_of_read in Hrpi. apply proj2, file_at_map in Hrpi. destruct Hrpi as (pim & Hfpi & ->).
    apply validate_prov_index_true in Hvpi. destruct Hvpi as (Hd2 & Hup & Hux & _).
    cbn [pi_chunks pi_proof pi_updates prov_index_of_m] in *.
    destruct (sl_elems (pim_chunks pim)) as [|x xs] eqn:Ex; cbn [chunks_of] in Hch, Hux; [discriminate|].
    injection Hch as <- <-. rewrite uri_len_ref_of in Hux. rewrite uri_len_ref_of in Hup.
    rewrite present_ref_of, map_length in Hd2.
    apply ref_of_read in Hrch. destruct Hrch as (Hxne & Hrch). apply file_at_map in Hrch. destruct Hrch as (chm & Hfch & ->).
    rewrite Hbv in Hc2. apply andb_true_iff in Hc2. destruct Hc2 as [E1 E2]. apply Nat.eqb_eq in E2. symmetry in E2.
    cbn [pi_updates ch_deltas chunk_of_m prov_index_of_m] in E2. rewrite !map_length, deltas_of_length, creates_of_length in E2.
    exists pim, chm, x, xs. repeat (split; [assumption|]).
    intros Hpne. rewrite (proj2 (present_ref_of _ _ _) Hpne) in Hq. destruct Hq as (q & Hrq & _ & ->).
    apply ref_of_read in Hrq. apply proj2, file_at_map in Hrq. destruct Hrq as (qm & Hfq & ->). exists qm. split; [exact Hfq|].
    apply Nat.eqb_eq in E1. cbn [pi_updates pp_updates prov_proof_of_m prov_index_of_m] in E1.
    rewrite map_length, proofs_of_length in E1. symmetry. exact E1.
Qed.

Theorem bytes_suffixes_distinct : forall L F C a ops,
  get_txn_operations_bytes L F C a = Some ops -> NoDup (map ro_sfx ops).
Proof. intros L F C a ops H. eapply suffixes_distinct. exact H. Qed.

(* count = the number written in the anchor TEXT: the anchor string splits at its only '.' into a decimal number
   without sign or leading zero and the core index URI; the number is the (positive) number of operations returned *)
Theorem bytes_count_matches_anchor_text : forall L F C a ops,
  get_txn_operations_bytes L F C a = Some ops ->
  exists digits uri, split_dot [] a = [digits; uri] /\ positive_int_text digits = true /\
                     digits_val digits 0 = Some (Z.of_nat (length ops)) /\ (0 < length ops)%nat.
Proof.
  intros L F C a ops H. destruct (bytes_success_structure _ _ _ _ _ H) as (uri & m & Hpa & _).
  destruct (parse_anchor_ok _ _ _ Hpa) as (d & Hs & Hp & Hd & Hn). exists d, uri. repeat split; auto. lia.
Qed.

Theorem bytes_bad_anchor_fails : forall L F C a n uri,
  parse_anchor a = (false, n, uri) -> get_txn_operations_bytes L F C a = None.
Proof.
  intros L F C a n uri H. unfold get_txn_operations_bytes, get_txn_operations, anchor_view_of_bytes. rewrite H. reflexivity.
Qed.

(* size / decompression limits, read failures and decoding errors, for every file that has to be read *)
Definition bad_entry {T} (L : limits) (max : Z) (dec : bytes -> option T) (oe : option cas_entry) : Prop :=
  match oe with
  | None => True                                                         (* nothing at that address *)
  | Some e => ce_read_ok e = false \/ ce_raw_size e > max \/ ce_decomp_ok e = false \/
              blen (ce_content e) > max * l_factor L \/ dec (ce_content e) = None
  end.

Lemma bad_entry_no_file {T} {L C max uri} {dec : bytes -> option T} {m} :
  bad_entry L max dec (cas_get C uri) -> ~ file_at L C max uri dec m.
Proof.
  intros Hb (e & He & (H1 & H2 & H3 & H4) & H5). rewrite He in Hb. cbn in Hb.
  destruct Hb as [Hb|[Hb|[Hb|[Hb|Hb]]]]; try congruence; lia.
Qed.

Lemma file_at_fun {T} {L C max uri} {dec : bytes -> option T} {m e m'} :
  file_at L C max uri dec m -> cas_get C uri = Some e -> dec (ce_content e) = Some m' -> m = m'.
Proof. intros (e0 & He0 & _ & Hd) He Hm. congruence. Qed.

(* the files GetTxnOperations has to read, one of which is bad *)
Inductive bad_file (L : limits) (C : cas) (a : bytes) : Prop :=
| bad_core_index : forall n uri,
    parse_anchor a = (true, n, uri) -> bad_entry L (l_core_index L) decode_core_index (cas_get C uri) -> bad_file L C a
| bad_core_proof : forall n uri e m,
    parse_anchor a = (true, n, uri) -> cas_get C uri = Some e -> decode_core_index (ce_content e) = Some m ->
    cim_proof_uri m <> [] -> bad_entry L (l_proof L) decode_core_proof (cas_get C (cim_proof_uri m)) -> bad_file L C a
| bad_prov_index : forall n uri e m,
    parse_anchor a = (true, n, uri) -> cas_get C uri = Some e -> decode_core_index (ce_content e) = Some m ->
    cim_prov_uri m <> [] -> bad_entry L (l_prov_index L) decode_prov_index (cas_get C (cim_prov_uri m)) -> bad_file L C a
| bad_prov_proof : forall n uri e m e' pi,
    parse_anchor a = (true, n, uri) -> cas_get C uri = Some e -> decode_core_index (ce_content e) = Some m ->
    cim_prov_uri m <> [] -> cas_get C (cim_prov_uri m) = Some e' -> decode_prov_index (ce_content e') = Some pi ->
    pim_proof_uri pi <> [] -> bad_entry L (l_proof L) decode_prov_proof (cas_get C (pim_proof_uri pi)) -> bad_file L C a
| bad_no_chunk : forall n uri e m e' pi,
    parse_anchor a = (true, n, uri) -> cas_get C uri = Some e -> decode_core_index (ce_content e) = Some m ->
    cim_prov_uri m <> [] -> cas_get C (cim_prov_uri m) = Some e' -> decode_prov_index (ce_content e') = Some pi ->
    sl_elems (pim_chunks pi) = [] -> bad_file L C a
| bad_chunk : forall n uri e m e' pi c0 rest,
    parse_anchor a = (true, n, uri) -> cas_get C uri = Some e -> decode_core_index (ce_content e) = Some m ->
    cim_prov_uri m <> [] -> cas_get C (cim_prov_uri m) = Some e' -> decode_prov_index (ce_content e') = Some pi ->
    sl_elems (pim_chunks pi) = c0 :: rest -> bad_entry L (l_chunk L) decode_chunk (cas_get C (chm_uri c0)) -> bad_file L C a.

(* a file on the path of GetTxnOperations that cannot be read, is larger than its limit as served or after
   decompression, does not decompress, or whose bytes the decoder of its struct rejects, makes the transaction fail *)
Theorem bytes_bad_file_fails : forall L F C a, bad_file L C a -> get_txn_operations_bytes L F C a = None.
Proof.
  intros L F C a Hbad. destruct (get_txn_operations_bytes L F C a) as [ops|] eqn:E; [exfalso|reflexivity].
  destruct (bytes_success_structure _ _ _ _ _ E) as (uri0 & m0 & Hpa & Hcore & _ & _ & _ & Hproof & Hprov).
  destruct Hbad as [n uri Ha Hb | n uri e m Ha He Hm Hne Hb | n uri e m Ha He Hm Hne Hb
                   | n uri e m e' pi Ha He Hm Hne He' Hpi Hpne Hb | n uri e m e' pi Ha He Hm Hne He' Hpi Hnil
                   | n uri e m e' pi c0 rest Ha He Hm Hne He' Hpi Hch Hb];
    rewrite Hpa in Ha; injection Ha as <- <-; try pose proof (file_at_fun Hcore He Hm) as ->.
  - exact (bad_entry_no_file Hb Hcore).
  - destruct (Hproof Hne) as (p & Hp & _). exact (bad_entry_no_file Hb Hp).
  - destruct (Hprov Hne) as (pi & ch & c0 & rest & Hp & _). exact (bad_entry_no_file Hb Hp).
  - destruct (Hprov Hne) as (pi0 & ch & c0 & rest & Hp & _ & _ & _ & _ & _ & _ & _ & Hpp).
    pose proof (file_at_fun Hp He' Hpi) as ->. destruct (Hpp Hpne) as (pp & Hq & _). exact (bad_entry_no_file Hb Hq).
  - destruct (Hprov Hne) as (pi0 & ch & c0 & rest & Hp & Hc & _). pose proof (file_at_fun Hp He' Hpi) as ->. congruence.
  - destruct (Hprov Hne) as (pi0 & ch & c1 & rest1 & Hp & Hc & _ & _ & Hchunk & _).
    pose proof (file_at_fun Hp He' Hpi) as ->. rewrite Hch in Hc. injection Hc as <- <-.
    exact (bad_entry_no_file Hb Hchunk).
Qed.

(* in particular: bytes that are not the JSON text of an object (or of null) *)
Theorem not_json_object_is_bad : forall L max e,
  ~ json_object_or_null (ce_content e) ->
  bad_entry L max decode_core_index (Some e) /\ bad_entry L max decode_core_proof (Some e) /\
  bad_entry L max decode_prov_index (Some e) /\ bad_entry L max decode_prov_proof (Some e) /\
  bad_entry L max decode_chunk (Some e).
Proof.
  intros L max e Hn.
  assert (G : forall {T} (f : T -> bytes -> gj -> option T) zero, bad_entry L max (unmarshal f zero) (Some e)).
  { intros T f zero. cbn. do 4 right. destruct (unmarshal f zero (ce_content e)) eqn:Ed; [|reflexivity].
    elim Hn. eapply unmarshal_object_or_null. rewrite Ed. discriminate. }
  repeat split; apply G.
Qed.

(* an oversize core index file, stated directly (Safe.oversize_raw_rejected / oversize_decompressed_rejected on bytes);
   for the other files: bytes_bad_file_fails *)
Corollary bytes_oversize_core_index_rejected : forall L F C a n uri e,
  parse_anchor a = (true, n, uri) -> cas_get C uri = Some e ->
  ce_raw_size e > l_core_index L \/ blen (ce_content e) > l_core_index L * l_factor L ->
  get_txn_operations_bytes L F C a = None.
Proof.
  intros L F C a n uri e Ha He Hs. apply bytes_bad_file_fails. eapply bad_core_index; [exact Ha|]. rewrite He. cbn. tauto.
Qed.

Lemma ref_ids : forall I l, map or_sfx (map (op_ref_of I) l) = map I (map om_did l).
Proof. intros I l. rewrite !map_map. reflexivity. Qed.

(* the didSuffix STRINGS of the recover, deactivate and update references of the files of a transaction that reads
   successfully are pairwise distinct - whatever the interning [fx_id] is *)
Theorem bytes_ref_strings_distinct : forall L F C a ops,
  get_txn_operations_bytes L F C a = Some ops ->
  exists n uri e m,
    parse_anchor a = (true, n, uri) /\ cas_get C uri = Some e /\ decode_core_index (ce_content e) = Some m /\
    NoDup (map om_did (core_recovers m ++ core_deactivates m)) /\
    (cim_prov_uri m <> [] ->
       exists e' pi, cas_get C (cim_prov_uri m) = Some e' /\ decode_prov_index (ce_content e') = Some pi /\
                     NoDup (map om_did (core_recovers m ++ core_deactivates m ++ prov_updates pi))).
Proof.
  intros L F C a ops H.
  destruct (bytes_success_core _ _ _ _ _ H) as (uri & m & b & Ha & (e & He & _ & Hm) & _ & Hb & Has).
  exists (Z.of_nat (length ops)), uri, e, m. repeat (split; [assumption|]).
  destruct (get_batch_files_inv _ _ _ Hb) as (Hcore & _ & _ & Hpv). cbn [ci_prov core_index_of_m] in Hpv.
  unfold assemble in Has. rewrite Hcore in Has. cbn [ci_creates ci_recovers ci_deactivates core_index_of_m] in Has.
  match type of Has with (if has_dup [] ?l then _ else _) = _ => destruct (has_dup [] l) eqn:Ed; [discriminate|] end.
  apply has_dup_false_iff in Ed. destruct Ed as [Hnd _]. split.
  - apply NoDup_app_iff in Hnd. destruct Hnd as (_ & Hnd & _).
    rewrite !ref_ids, <- !map_app in Hnd. eapply NoDup_map_inv. exact Hnd.
  - intros Hne. rewrite (proj2 (present_ref_of _ _ _) Hne) in Hpv. destruct Hpv as ([[pi pp] ch] & Hg & Hbv).
    destruct (get_prov_files_inv _ _ _ _ _ Hg) as (Hrpi & _).
    apply ref_of_read in Hrpi. apply proj2, file_at_map in Hrpi. destruct Hrpi as (pim & (e' & He' & _ & Hpim) & ->).
    exists e', pim. repeat (split; [assumption|]). rewrite Hbv in Has.
    match type of Has with (if has_dup [] ?l then _ else _) = _ => destruct (has_dup [] l) eqn:Ed2; [discriminate|] end.
    apply has_dup_false_iff in Ed2. destruct Ed2 as [Hnd2 _]. cbn [pi_updates prov_index_of_m] in Hnd2.
    rewrite <- !app_assoc in Hnd2. apply NoDup_app_iff in Hnd2. destruct Hnd2 as (_ & Hnd2 & _).
    rewrite !ref_ids, <- !map_app in Hnd2. eapply NoDup_map_inv. exact Hnd2.
Qed.


(** * Round trip: the canonical text of a file struct decodes to that struct *)

(* The handler writes docutil.MarshalCanonical(file struct): json.Marshal and then the JCS transformation, i.e.
   [print_canonical] of the struct as a JSON value ([core_index_json] ... of Batch/FilesOfBytes.v).  Decoding that
   text gives the struct back, with (1) the backing arrays of its slices empty ([fresh]) and (2) the JSON values it
   embeds - anchor origins, patches - in canonical form ([cnorm]: members sorted, -0 as 0); an anchor origin that is
   the JSON null comes back as nil.  Side conditions: [text_ok] - the value has no duplicate member names, its strings
   are valid UTF-8, its numbers are printed as tokens that read back as the same double (checked by computation, see
   Json/GoJsonProofs.v), nesting depth at most 10000 - and the same well-formedness ([gwf]) for the embedded values. *)
Lemma std_parse_canonical : forall v,
  gwfb v = true -> top_shapeb v = true -> (jdepth v <=? 10000)%N = true -> std_parse (print_canonical v) = Some (ec v).
Proof.
  intros v H1 H2 H3. pose proof (gwfb_sound _ H1) as Hw. unfold std_parse, go_parse.
  pose proof (fsize_le_g v Hw) as Hf.
  assert (Hfuel : (fsize v <= go_fuel (print_canonical v))%nat) by (unfold go_fuel; lia).
  assert (Hd : depth_fits std_limit 0 v) by (cbn [std_limit depth_fits]; apply N.leb_le in H3; lia).
  assert (E : pvalue (go_fuel (print_canonical v)) std_limit 0 (print_canonical v ++ []) = Some (ec v, [])).
  { destruct (top_shapeb_sound _ H2) as [[l ->]|[m ->]].
    - pose proof (proj1 (gwf_arr l) Hw) as Hl. apply rt_arr; try assumption. eapply Forall_impl; [apply rt_all | exact Hl].
    - destruct (proj1 (gwf_obj m) Hw) as [_ Hall]. apply rt_obj; try assumption.
      eapply Forall_impl; [|exact Hall]. intros kv [_ Hk]. apply rt_all, Hk. }
  rewrite app_nil_r in E. rewrite E. reflexivity.
Qed.

Definition text_ok (v : json) : Prop := gwfb v = true /\ (jdepth v <=? 10000)%N = true.

Lemma unmarshal_canonical : forall {T} (f : T -> bytes -> gj -> option T) zero m,
  text_ok (JObj m) -> unmarshal f zero (print_canonical (JObj m)) = fold_members f (map em (sort_g m)) zero.
Proof.
  intros T f zero m [H1 H2]. unfold unmarshal. rewrite std_parse_canonical by (assumption || reflexivity).
  rewrite ec_obj. reflexivity.
Qed.

(* One case of a round trip, where the member list is concrete up to its values: the values are put aside, the list is
   sorted by evaluation, the fold over it is unrolled, and the name tests of the member function [f] are evaluated. *)
Ltac eval_members f :=
  repeat match goal with
  | |- context [@pair bytes json ?k ?v] => tryif is_var v then fail else (let j := fresh "jv" in remember v as j)
  end;
  try match goal with |- context [sort_g ?L] => let x := eval vm_compute in (sort_g L) in change (sort_g L) with x end;
  cbn [map em fst snd fold_members]; unfold f;
  repeat match goal with
  | |- context [is_field (fold_name ?k) ?n] =>
    let r := eval vm_compute in (is_field (fold_name k) n) in change (is_field (fold_name k) n) with r
  end;
  cbv iota; subst.

Lemma dec_slice_elems_map : forall {T U} (zero : T) (dec : gj -> T -> option T) (g : U -> gj) (h : U -> T) l acc,
  (forall x, In x l -> dec (g x) zero = Some (h x)) ->
  dec_slice_elems zero dec (map g l) [] acc = Some {| sl_elems := rev acc ++ map h l; sl_stale := [] |}.
Proof.
  intros T U zero dec g h l. induction l as [|x r IH]; intros acc H; cbn [map dec_slice_elems].
  - now rewrite rev'_rev, app_nil_r.
  - cbn [tl]. rewrite (H x (or_introl eq_refl)). rewrite IH by (intros y Hy; apply H; now right).
    cbn [rev]. now rewrite <- app_assoc.
Qed.

(* an array of encoded elements decodes, into a nil slice, to the decoded elements *)
Lemma dec_slice_rt : forall {T U} (zero : T) (dec : gj -> T -> option T) (j : U -> json) (h : U -> T) l,
  (forall x, In x l -> dec (ec (j x)) zero = Some (h x)) ->
  dec_slice zero dec (ec (JArr (map j l))) nil_slice = Some {| sl_elems := map h l; sl_stale := [] |}.
Proof.
  intros T U zero dec j h l H. rewrite ec_arr, map_map. destruct l as [|x r]; [reflexivity|].
  exact (dec_slice_elems_map zero dec (fun x => ec (j x)) h (x :: r) [] H).
Qed.

Lemma dec_strings_rt : forall l, dec_strings (ec (JArr (map JStr l))) nil_slice = Some {| sl_elems := l; sl_stale := [] |}.
Proof. intro l. unfold dec_strings. rewrite (dec_slice_rt _ _ _ (fun s => s)), map_id by reflexivity. reflexivity. Qed.

Definition fresh {T} (s : slice T) : slice T := {| sl_elems := sl_elems s; sl_stale := [] |}.

Lemma opt_arr_map : forall {U} name (f : U -> json) l,
  opt_arr name (map f l) = match l with [] => [] | _ => [(bs name, JArr (map f l))] end.
Proof. intros U name f [|x r]; reflexivity. Qed.

Theorem rt_core_proof : forall m,
  text_ok (core_proof_json m) ->
  decode_core_proof (print_canonical (core_proof_json m))
  = Some {| cpm_recover := fresh (cpm_recover m); cpm_deactivate := fresh (cpm_deactivate m) |}.
Proof.
  intros [[R Rs] [D Ds]] Hok. unfold decode_core_proof, core_proof_json, fresh in *. cbn [cpm_recover cpm_deactivate sl_elems] in *.
  rewrite unmarshal_canonical by exact Hok. eval_members core_proof_member. rewrite ec_obj, !opt_arr_map. cbn [dec_struct].
  destruct R as [|r0 R], D as [|d0 D]; cbn [app]; eval_members core_proof_ops_member;
    cbn [cpm_recover cpm_deactivate core_proof_zero];
    repeat (progress rewrite ?dec_strings_rt; cbn [option_map cpm_recover cpm_deactivate]); reflexivity.
Qed.

Theorem rt_prov_proof : forall m,
  text_ok (prov_proof_json m) ->
  decode_prov_proof (print_canonical (prov_proof_json m)) = Some {| ppm_update := fresh (ppm_update m) |}.
Proof.
  intros [[U Us]] Hok. unfold decode_prov_proof, prov_proof_json, fresh in *. cbn [ppm_update sl_elems] in *.
  rewrite unmarshal_canonical by exact Hok. eval_members prov_proof_member. rewrite ec_obj, opt_arr_map. cbn [dec_struct].
  destruct U as [|u0 U]; eval_members prov_proof_ops_member; [reflexivity|].
  cbn [ppm_update prov_proof_zero]. rewrite dec_strings_rt. reflexivity.
Qed.

Lemma op_ref_rt : forall o, dec_struct op_ref_member (ec (op_ref_json o)) op_ref_zero = Some o.
Proof. intros [d r]. vm_compute. reflexivity. Qed.

Lemma chunk_ref_rt : forall c, dec_struct chunk_ref_member (ec (chunk_ref_json c)) chunk_ref_zero = Some c.
Proof. intros [u]. vm_compute. reflexivity. Qed.

Lemma dec_op_refs_rt : forall l, dec_op_refs (ec (JArr (map op_ref_json l))) nil_slice = Some {| sl_elems := l; sl_stale := [] |}.
Proof.
  intro l. unfold dec_op_refs. rewrite (dec_slice_rt _ _ _ (fun o => o)), map_id by (intros; apply op_ref_rt). reflexivity.
Qed.

Lemma nil_or_arr_map : forall {U} (f : U -> json) l,
  nil_or_arr (map f l) = match l with [] => JNull | _ => JArr (map f l) end.
Proof. intros U f [|x r]; reflexivity. Qed.

Lemma dec_chunk_refs_rt' : forall l,
  dec_slice chunk_ref_zero (dec_struct chunk_ref_member) (ec (nil_or_arr (map chunk_ref_json l))) nil_slice
  = Some {| sl_elems := l; sl_stale := [] |}.
Proof.
  intros [|c r]; [reflexivity|]. rewrite nil_or_arr_map, (dec_slice_rt _ _ _ (fun c => c)), map_id by (intros; apply chunk_ref_rt).
  reflexivity.
Qed.

Lemma ec_str : forall s, ec (JStr s) = GStr s.
Proof. reflexivity. Qed.

Definition fresh_prov_ops (o : prov_ops_m) : prov_ops_m := {| pom_update := fresh (pom_update o) |}.

Lemma prov_ops_rt : forall o,
  dec_ptr prov_ops_zero prov_ops_member (ec (JObj (opt_arr "update" (map op_ref_json (sl_elems (pom_update o)))))) None
  = Some (Some (fresh_prov_ops o)).
Proof.
  intros [[U Us]]. unfold fresh_prov_ops, fresh. cbn [pom_update sl_elems]. rewrite ec_obj, opt_arr_map. cbn [dec_ptr].
  destruct U as [|u0 U]; eval_members prov_ops_member; [reflexivity|].
  cbn [pom_update prov_ops_zero]. rewrite dec_op_refs_rt. reflexivity.
Qed.

Theorem rt_prov_index : forall m,
  text_ok (prov_index_json m) ->
  decode_prov_index (print_canonical (prov_index_json m))
  = Some {| pim_proof_uri := pim_proof_uri m; pim_chunks := fresh (pim_chunks m); pim_ops := option_map fresh_prov_ops (pim_ops m) |}.
Proof.
  intros [u [Cs Css] ops] Hok. unfold decode_prov_index, prov_index_json, fresh in *. cbn [pim_proof_uri pim_chunks pim_ops sl_elems] in *.
  rewrite unmarshal_canonical by exact Hok. unfold opt_str.
  destruct u as [|u0 u], ops as [o|]; cbn [app option_map]; eval_members prov_index_member;
    cbn [pim_proof_uri pim_chunks pim_ops prov_index_zero];
    repeat (progress rewrite ?dec_chunk_refs_rt', ?prov_ops_rt; cbn [option_map pim_proof_uri pim_chunks pim_ops]); reflexivity.
Qed.

Definition norm_origin (o : option json) : option json :=
  match o with
  | Some j => match cnorm j with JNull => None | c => Some c end
  | None => None
  end.
Definition norm_suffix (s : suffix_m) : suffix_m :=
  Build_suffix_m (sm_delta_hash s) (sm_rec s) (norm_origin (sm_origin s)) (sm_type s).
Definition origin_ok (s : suffix_m) : Prop := match sm_origin s with Some j => gwf j | None => True end.

Lemma dec_any_ec : forall j, gwf j -> dec_any (ec j) = Some (norm_origin (Some j)).
Proof.
  intros j Hw. unfold dec_any, norm_origin. rewrite (to_iface_ec j Hw). unfold ec.
  destruct (cnorm j); reflexivity.
Qed.

Lemma suffix_rt : forall s, origin_ok s ->
  dec_ptr suffix_zero suffix_member (ec (suffix_json s)) None = Some (Some (norm_suffix s)).
Proof.
  intros [dh rc o ty] Hw. unfold origin_ok, norm_suffix, suffix_json, opt_str in *. cbn [sm_delta_hash sm_rec sm_origin sm_type] in *.
  rewrite ec_obj. cbn [dec_ptr].
  destruct dh as [|d0 dh], rc as [|r0 rc], o as [j|], ty as [|t0 ty]; cbn [app]; eval_members suffix_member;
    rewrite ?(dec_any_ec _ Hw); reflexivity.
Qed.

Definition norm_create (c : create_ref_m) : create_ref_m := Build_create_ref_m (option_map norm_suffix (crm_suffix c)).
Definition create_ok (c : create_ref_m) : Prop := match crm_suffix c with Some s => origin_ok s | None => True end.

Lemma create_ref_rt : forall c, create_ok c ->
  dec_struct create_ref_member (ec (create_ref_json c)) create_ref_zero = Some (norm_create c).
Proof.
  intros [[s|]] Hw; unfold create_ok, norm_create, create_ref_json in *; cbn [crm_suffix option_map] in *;
    rewrite ec_obj; cbn [dec_struct]; eval_members create_ref_member; cbn [crm_suffix create_ref_zero];
    rewrite ?(suffix_rt s Hw); reflexivity.
Qed.

Lemma dec_creates_rt : forall l, Forall create_ok l ->
  dec_slice create_ref_zero (dec_struct create_ref_member) (ec (JArr (map create_ref_json l))) nil_slice
  = Some {| sl_elems := map norm_create l; sl_stale := [] |}.
Proof.
  intros l Hw. apply dec_slice_rt. intros x Hx. apply create_ref_rt. rewrite Forall_forall in Hw. now apply Hw.
Qed.

Definition norm_core_ops (o : core_ops_m) : core_ops_m :=
  {| com_create := {| sl_elems := map norm_create (sl_elems (com_create o)); sl_stale := [] |};
     com_recover := fresh (com_recover o); com_deactivate := fresh (com_deactivate o) |}.

Lemma core_ops_rt : forall o, Forall create_ok (sl_elems (com_create o)) ->
  dec_ptr core_ops_zero core_ops_member (ec (core_ops_json o)) None = Some (Some (norm_core_ops o)).
Proof.
  intros [[Cs Css] [Rs Rss] [Ds Dss]] Hw. unfold norm_core_ops, core_ops_json, fresh in *.
  cbn [com_create com_recover com_deactivate sl_elems] in *. rewrite ec_obj, !opt_arr_map. cbn [dec_ptr].
  destruct Cs as [|c0 Cs], Rs as [|r0 Rs], Ds as [|d0 Ds]; cbn [app]; eval_members core_ops_member;
    cbn [com_create com_recover com_deactivate core_ops_zero];
    repeat (progress rewrite ?(dec_creates_rt _ Hw), ?dec_op_refs_rt; cbn [option_map com_create com_recover com_deactivate]);
    reflexivity.
Qed.

Definition norm_core_index (m : core_index_m) : core_index_m :=
  {| cim_prov_uri := cim_prov_uri m; cim_proof_uri := cim_proof_uri m; cim_ops := option_map norm_core_ops (cim_ops m) |}.

Theorem rt_core_index : forall m,
  text_ok (core_index_json m) -> Forall create_ok (core_creates m) ->
  decode_core_index (print_canonical (core_index_json m)) = Some (norm_core_index m).
Proof.
  intros [pu cu ops] Hok Hw. unfold decode_core_index, core_index_json, norm_core_index, core_creates in *.
  cbn [cim_prov_uri cim_proof_uri cim_ops] in *. rewrite unmarshal_canonical by exact Hok. unfold opt_str.
  destruct pu as [|p0 pu], cu as [|c0 cu], ops as [o|]; cbn [app option_map]; eval_members core_index_member;
    cbn [cim_prov_uri cim_proof_uri cim_ops core_index_zero];
    repeat (progress rewrite ?ec_str, ?(core_ops_rt _ Hw); cbn [dec_str option_map cim_prov_uri cim_proof_uri cim_ops]); reflexivity.
Qed.

Definition norm_patch (p : patchv) : patchv :=
  match p with Some m => Some (sort_g (map_snd cnorm m)) | None => None end.
Definition patch_ok (p : patchv) : Prop := match p with Some m => gwf (JObj m) | None => True end.
Definition norm_delta (d : delta_m) : delta_m := Build_delta_m (dm_upd d) (map norm_patch (dm_patches d)) [].

Lemma to_iface_obj_members : forall ms, to_iface (GObj ms) = option_map JObj (patch_members ms []).
Proof.
  intro ms. reflexivity.
Qed.

Lemma patch_rt : forall p, patch_ok p -> dec_patch (ec (patch_json p)) None = Some (norm_patch p).
Proof.
  intros [m|] Hw; [|reflexivity]. unfold patch_json, norm_patch.
  pose proof (to_iface_ec (JObj m) Hw) as H. rewrite ec_obj in *. rewrite to_iface_obj_members, cnorm_obj in H.
  cbn [dec_patch]. destruct (patch_members (map em (sort_g m)) []) as [x|]; cbn [option_map] in *; [|discriminate].
  inversion H. reflexivity.
Qed.

Lemma dec_elems_map : forall {U} (g : U -> gj) (h : U -> patchv) l acc,
  (forall x, In x l -> dec_patch (g x) None = Some (h x)) ->
  dec_elems (map g l) [] acc = Some (rev acc ++ map h l, []).
Proof.
  intros U g h l. induction l as [|x r IH]; intros acc H; cbn [map dec_elems].
  - now rewrite rev'_rev, app_nil_r.
  - rewrite (H x (or_introl eq_refl)). rewrite IH by (intros y Hy; apply H; now right).
    cbn [rev]. now rewrite <- app_assoc.
Qed.

Lemma delta_rt : forall d, Forall patch_ok (dm_patches d) ->
  dec_ptr delta_zero delta_member (ec (delta_json d)) None = Some (Some (norm_delta d)).
Proof.
  intros [upd ps st] Hw. unfold norm_delta, delta_json, opt_str in *. cbn [dm_upd dm_patches dm_stale] in *.
  rewrite ec_obj. cbn [dec_ptr].
  assert (Hel : forall x, In x ps -> dec_patch (ec (patch_json x)) None = Some (norm_patch x)).
  { intros x Hx. apply patch_rt. rewrite Forall_forall in Hw. now apply Hw. }
  destruct upd as [|u0 upd], ps as [|p0 ps]; cbn [app]; eval_members delta_member; cbn [dm_upd dm_patches dm_stale delta_zero];
    try reflexivity; rewrite ec_arr, map_map; cbn [map app];
    change (ec (patch_json p0) :: map (fun x => ec (patch_json x)) ps) with (map (fun x => ec (patch_json x)) (p0 :: ps));
    rewrite (dec_elems_map _ norm_patch (p0 :: ps) [] Hel); reflexivity.
Qed.

Definition delta_ok (d : option delta_m) : Prop := match d with Some x => Forall patch_ok (dm_patches x) | None => True end.
Definition delta_opt_json (d : option delta_m) : json := match d with Some x => delta_json x | None => JNull end.

Lemma delta_opt_rt : forall d, delta_ok d ->
  dec_ptr delta_zero delta_member (ec (delta_opt_json d)) None = Some (option_map norm_delta d).
Proof. intros [x|] Hw; [exact (delta_rt x Hw) | reflexivity]. Qed.

Theorem rt_chunk : forall m,
  text_ok (chunk_json m) -> Forall delta_ok (sl_elems (ckm_deltas m)) ->
  decode_chunk (print_canonical (chunk_json m))
  = Some {| ckm_deltas := {| sl_elems := map (option_map norm_delta) (sl_elems (ckm_deltas m)); sl_stale := [] |} |}.
Proof.
  intros [[Ds Dss]] Hok Hw. unfold decode_chunk, chunk_json in *. cbn [ckm_deltas sl_elems] in *.
  rewrite unmarshal_canonical by exact Hok. eval_members chunk_member. cbn [ckm_deltas chunk_zero].
  change (fun d : option delta_m => match d with Some x => delta_json x | None => JNull end) with delta_opt_json.
  destruct Ds as [|d0 Ds]; [reflexivity|]. rewrite nil_or_arr_map.
  rewrite (dec_slice_rt None (dec_ptr delta_zero delta_member) delta_opt_json (option_map norm_delta)); [reflexivity|].
  intros x Hx. apply delta_opt_rt. rewrite Forall_forall in Hw. now apply Hw.
Qed.

(* the side conditions as computable checks *)
Definition text_okb (v : json) : bool := gwfb v && (jdepth v <=? 10000)%N.
Lemma text_okb_sound : forall v, text_okb v = true -> text_ok v.
Proof. intros v H. apply andb_true_iff in H. exact H. Qed.

Definition create_okb (c : create_ref_m) : bool :=
  match crm_suffix c with Some s => match sm_origin s with Some j => gwfb j | None => true end | None => true end.
Lemma creates_okb_sound : forall l, forallb create_okb l = true -> Forall create_ok l.
Proof.
  intros l H. rewrite forallb_forall in H. apply Forall_forall. intros c Hc. specialize (H c Hc).
  unfold create_okb, create_ok, origin_ok in *. destruct (crm_suffix c) as [s|]; [|exact I].
  destruct (sm_origin s) as [j|]; [now apply gwfb_sound | exact I].
Qed.

Definition delta_okb (d : option delta_m) : bool :=
  match d with
  | Some x => forallb (fun p => match p with Some m => gwfb (JObj m) | None => true end) (dm_patches x)
  | None => true
  end.
Lemma deltas_okb_sound : forall l, forallb delta_okb l = true -> Forall delta_ok l.
Proof.
  intros l H. rewrite forallb_forall in H. apply Forall_forall. intros d Hd. specialize (H d Hd).
  unfold delta_okb, delta_ok in *. destruct d as [x|]; [|exact I].
  rewrite forallb_forall in H. apply Forall_forall. intros p Hp. specialize (H p Hp).
  unfold patch_ok. destruct p as [m|]; [now apply gwfb_sound | exact I].
Qed.

(* the [f_parsed] facts of Batch/Files.v for files the handler wrote: the projection of the struct *)
Corollary written_core_index_parsed : forall F C m,
  text_ok (core_index_json m) -> Forall create_ok (core_creates m) ->
  parse_core_index F C (print_canonical (core_index_json m)) = Some (core_index_of_m F C (norm_core_index m)).
Proof. intros F C m H1 H2. unfold parse_core_index. now rewrite rt_core_index. Qed.

Corollary written_core_proof_parsed : forall F m,
  text_ok (core_proof_json m) ->
  parse_core_proof F (print_canonical (core_proof_json m))
  = Some {| cp_recovers := proofs_of (fx_id F) (sl_elems (cpm_recover m)) (fx_cp_recover F);
            cp_deactivates := proofs_of (fx_id F) (sl_elems (cpm_deactivate m)) (fx_cp_deactivate F) |}.
Proof. intros F m H. unfold parse_core_proof. now rewrite rt_core_proof. Qed.

Corollary written_prov_proof_parsed : forall F m,
  text_ok (prov_proof_json m) ->
  parse_prov_proof F (print_canonical (prov_proof_json m))
  = Some {| pp_updates := proofs_of (fx_id F) (sl_elems (ppm_update m)) (fx_pp_update F) |}.
Proof. intros F m H. unfold parse_prov_proof. now rewrite rt_prov_proof. Qed.

Corollary written_prov_index_parsed : forall F C m,
  text_ok (prov_index_json m) ->
  parse_prov_index F C (print_canonical (prov_index_json m))
  = Some {| pi_proof := ref_of C (pim_proof_uri m) (parse_prov_proof F);
            pi_chunks := chunks_of F C (sl_elems (pim_chunks m));
            pi_updates := map (op_ref_of (fx_id F)) (prov_updates m) |}.
Proof.
  intros F C m H. unfold parse_prov_index. rewrite rt_prov_index by exact H. cbn [option_map]. f_equal.
  unfold prov_index_of_m, prov_updates. cbn [pim_proof_uri pim_chunks pim_ops fresh sl_elems]. f_equal.
  destruct (pim_ops m) as [o|]; reflexivity.
Qed.

Corollary written_chunk_parsed : forall F m,
  text_ok (chunk_json m) -> Forall delta_ok (sl_elems (ckm_deltas m)) ->
  parse_chunk F (print_canonical (chunk_json m))
  = Some {| ch_deltas := deltas_of (fx_id F) (map (option_map norm_delta) (sl_elems (ckm_deltas m))) (fx_deltas F) |}.
Proof. intros F m H1 H2. unfold parse_chunk. now rewrite rt_chunk. Qed.

(** * Examples on a real file set (harness/cmd/gen_files -seed 1: a batch of a create, a recover and an update written by
      the real OperationHandler; anchor string "3.cas0628") *)
Local Open Scope string_scope.

Definition ex_id (s : bytes) : Z := fold_left (fun h b => (h * 131 + bZ b + 1) mod 2305843009213693951) s 0.

Definition ex_core : bytes := unhex "7b22636f726550726f6f6646696c65557269223a2263617330363237222c226f7065726174696f6e73223a7b22637265617465223a5b7b2273756666697844617461223a7b22616e63686f724f726967696e223a7b2261223a2262222c226e223a317d2c2264656c746148617368223a2245694462487a48513879496171325f636d37674162424634336e6f776b355358774e68743461516c32636a725967222c227265636f76657279436f6d6d69746d656e74223a2245694376575f51484b5349746254337959414a4a36784239684441633241527036626f414d3375516f3348697667227d7d5d2c227265636f766572223a5b7b22646964537566666978223a22456944506f34776e58744d657165453958393848764a6275337641464e6a796631314b77374f4b67534465713667222c2272657665616c56616c7565223a2245694335415859664a566b39623161324559415865484f7a45703735746c74686a50326758414e61456d48674551227d5d7d2c2270726f766973696f6e616c496e64657846696c65557269223a2263617330363236227d".
Definition ex_cproof : bytes := unhex "7b226f7065726174696f6e73223a7b227265636f766572223a5b2265794a68624763694f694a465a45525451534a392e65794a6b5a57783059556868633267694f694a4661554e3461305a4d623234354c5735444d46467a51576733616d5274614751784d6e5a47613070534e55307a646a52355457463454305a6e5956425249697769636d566a62335a6c636e6c4462323174615852745a573530496a6f6952576c4552474531526d7845536d6c36644468765958424b4f5751324f45387a556e70366232354854324e4e5254524c4f55464f4e5759334d445a555a794973496e4a6c593239325a584a3553325635496a7037496d4e7964694936496b566b4d6a55314d546b694c434a7264486b694f694a50533141694c434a34496a6f694e305668576d314d64586472543251315a4656326256683554465676536b56345258457953476b745445783556475a6f616e4633587a633051534973496e6b694f6949696658302e4d326c7a6e6c30754649564d613561737568324c50513562786378354c32446e42596556484763506b31654e6846346a7a6d485165536b4d4256704c744b6b4e505155367771324945364e3555496538793477344251225d7d7d".
Definition ex_pindex : bytes := unhex "7b226368756e6b73223a5b7b226368756e6b46696c65557269223a2263617330363234227d5d2c226f7065726174696f6e73223a7b22757064617465223a5b7b22646964537566666978223a224569426a4b6a4c6241506e436f57673669435a574d4275693969624d303442516f6c70435f455f4f655236596377222c2272657665616c56616c7565223a224569444232373838634e503277776f3156456657744e7a52374764476e436375624263466d6a5f59586a75643977227d5d7d2c2270726f766973696f6e616c50726f6f6646696c65557269223a2263617330363235227d".
Definition ex_pproof : bytes := unhex "7b226f7065726174696f6e73223a7b22757064617465223a5b2265794a68624763694f694a46557a49314e694a392e65794a6b5a57783059556868633267694f694a4661554a75524577745755637762586836513278516543317064476f7956575a6f61485642545555315956564a643231765747526b5954424b63584e33496977696458426b5958526c53325635496a7037496d4e7964694936496c41744d6a55324969776961335235496a6f6952554d694c434a34496a6f69516e64324c546c4d4c575a7a5447787061586847545770434f485248533055356546527953444e456156397255455645546c51746557307962794973496e6b694f694a5365576c76513151326147787661574e4d524578425230785063557033626a4a334e586b785830316c536e565257556c464e32643161334642496e31392e423571744d5865387457307459715262686a774b6a4e4744756a6670794d56666f507354546b482d6676344c6d66574f6a376c542d7755414b6b6a6c37674f666f416c32312d6179355f544e64796b4d37646a635041225d7d7d".
Definition ex_chunk : bytes := unhex "7b2264656c746173223a5b7b2270617463686573223a5b7b22616374696f6e223a226164642d7075626c69632d6b657973222c227075626c69634b657973223a5b7b226964223a226b31303430222c227075626c69634b65794a776b223a7b22637276223a22502d323536222c226b7479223a224543222c2278223a225055796d49716474465f717861417150414253772d432d6f7754314b59595162734d4b464d2d4c39664a41222c2279223a226e4d38346a4448434d4f544754685f5a64487134644242646f345a35506b454f57396a41387a3849734763227d2c22707572706f736573223a5b2261757468656e7469636174696f6e225d2c2274797065223a224a736f6e5765624b657932303230227d5d7d5d2c22757064617465436f6d6d69746d656e74223a224569436c7459345a3155636c393961457a356f58415269516c5f46725f76675754723644516b674f306943526441227d2c7b2270617463686573223a5b7b22616374696f6e223a226164642d7075626c69632d6b657973222c227075626c69634b657973223a5b7b226964223a226b31303036222c227075626c69634b65794a776b223a7b22637276223a22502d323536222c226b7479223a224543222c2278223a225055796d49716474465f717861417150414253772d432d6f7754314b59595162734d4b464d2d4c39664a41222c2279223a226e4d38346a4448434d4f544754685f5a64487134644242646f345a35506b454f57396a41387a3849734763227d2c22707572706f736573223a5b2261757468656e7469636174696f6e225d2c2274797065223a224a736f6e5765624b657932303230227d5d7d2c7b22616374696f6e223a226164642d7365727669636573222c227365727669636573223a5b7b226964223a2273766331303036222c2273657276696365456e64706f696e74223a2268747470733a2f2f6578616d706c65313030362e636f6d222c2274797065223a224c696e6b6564446f6d61696e73227d5d7d5d2c22757064617465436f6d6d69746d656e74223a22456942507364765473377a376c47566a624171766d5635615a77557178424f315a784b307950744e766a794c6177227d2c7b2270617463686573223a5b7b22616374696f6e223a226164642d7075626c69632d6b657973222c227075626c69634b657973223a5b7b226964223a226b31303533222c227075626c69634b65794a776b223a7b22637276223a22502d323536222c226b7479223a224543222c2278223a225055796d49716474465f717861417150414253772d432d6f7754314b59595162734d4b464d2d4c39664a41222c2279223a226e4d38346a4448434d4f544754685f5a64487134644242646f345a35506b454f57396a41387a3849734763227d2c22707572706f736573223a5b2261757468656e7469636174696f6e225d2c2274797065223a224a736f6e5765624b657932303230227d5d7d5d2c22757064617465436f6d6d69746d656e74223a2245694147787843525a4d5444547559673865666734695a39364d666e576e53645845313275754850653444753577227d5d7d".
Definition ex_cas : cas := [(unhex "63617330363238", Build_cas_entry true 341 true ex_core); (unhex "63617330363237", Build_cas_entry true 395 true ex_cproof); (unhex "63617330363236", Build_cas_entry true 215 true ex_pindex); (unhex "63617330363235", Build_cas_entry true 365 true ex_pproof); (unhex "63617330363234", Build_cas_entry true 459 true ex_chunk)].
Definition ex_anchor : bytes := unhex "332e63617330363238".
Definition ex_facts : facts :=
  {| fx_id := ex_id; fx_creates := [(Build_create_fact true 8%Z 26%Z)]; fx_cp_recover := [(Build_proof_fact true 0%Z)]; fx_cp_deactivate := [];
     fx_pp_update := [(Build_proof_fact true 0%Z)]; fx_deltas := [true; true; true] |}.


Definition ex_limits : limits :=
  {| l_hash_len := 100; l_uri_len := 120; l_core_index := 5000; l_proof := 6000; l_prov_index := 4000; l_chunk := 9000; l_factor := 3 |}.

(* non-vacuity of the hypothesis of [bytes_success_structure]: the transaction reads, from bytes *)
Example ex_reads :
  option_map (map ro_ty) (get_txn_operations_bytes ex_limits ex_facts ex_cas ex_anchor) = Some [Create; Recover; Update].
Proof. vm_compute. reflexivity. Qed.

Example ex_anchor_text : parse_anchor ex_anchor = (true, 3, bs "cas0628").
Proof. vm_compute. reflexivity. Qed.

Definition or_zero {T} (zero : T) (o : option T) : T := match o with Some x => x | None => zero end.
Definition ex_core_m : core_index_m := or_zero core_index_zero (decode_core_index ex_core).
Definition ex_cproof_m : core_proof_m := or_zero core_proof_zero (decode_core_proof ex_cproof).
Definition ex_pindex_m : prov_index_m := or_zero prov_index_zero (decode_prov_index ex_pindex).
Definition ex_pproof_m : prov_proof_m := or_zero prov_proof_zero (decode_prov_proof ex_pproof).
Definition ex_chunk_m : chunk_m := or_zero chunk_zero (decode_chunk ex_chunk).

(* non-vacuity of the round trip: the bytes the real handler wrote ARE the canonical text of the struct they decode to, the side
   conditions hold, and the struct is in normal form *)
Example ex_core_index_written :
  decode_core_index ex_core = Some ex_core_m /\ print_canonical (core_index_json ex_core_m) = ex_core /\
  text_okb (core_index_json ex_core_m) = true /\ forallb create_okb (core_creates ex_core_m) = true /\
  norm_core_index ex_core_m = ex_core_m /\
  (length (core_creates ex_core_m), length (core_recovers ex_core_m), length (core_deactivates ex_core_m)) = (1, 1, 0)%nat.
Proof. vm_compute. repeat split; reflexivity. Qed.

Example ex_core_proof_written :
  decode_core_proof ex_cproof = Some ex_cproof_m /\ print_canonical (core_proof_json ex_cproof_m) = ex_cproof /\
  text_okb (core_proof_json ex_cproof_m) = true /\ length (sl_elems (cpm_recover ex_cproof_m)) = 1%nat.
Proof. vm_compute. repeat split; reflexivity. Qed.

Example ex_prov_index_written :
  decode_prov_index ex_pindex = Some ex_pindex_m /\ print_canonical (prov_index_json ex_pindex_m) = ex_pindex /\
  text_okb (prov_index_json ex_pindex_m) = true /\ length (prov_updates ex_pindex_m) = 1%nat.
Proof. vm_compute. repeat split; reflexivity. Qed.

Example ex_prov_proof_written :
  decode_prov_proof ex_pproof = Some ex_pproof_m /\ print_canonical (prov_proof_json ex_pproof_m) = ex_pproof /\
  text_okb (prov_proof_json ex_pproof_m) = true.
Proof. vm_compute. repeat split; reflexivity. Qed.

Example ex_chunk_written :
  decode_chunk ex_chunk = Some ex_chunk_m /\ print_canonical (chunk_json ex_chunk_m) = ex_chunk /\
  text_okb (chunk_json ex_chunk_m) = true /\ forallb delta_okb (sl_elems (ckm_deltas ex_chunk_m)) = true /\
  map (option_map norm_delta) (sl_elems (ckm_deltas ex_chunk_m)) = sl_elems (ckm_deltas ex_chunk_m) /\
  length (sl_elems (ckm_deltas ex_chunk_m)) = 3%nat.
Proof. vm_compute. repeat split; reflexivity. Qed.

(* [rt_core_index] instantiated: decoding what was written gives the struct back *)
Example ex_round_trip : decode_core_index (print_canonical (core_index_json ex_core_m)) = Some ex_core_m.
Proof.
  destruct ex_core_index_written as (_ & _ & H1 & H2 & H3 & _).
  rewrite rt_core_index; [now rewrite H3 | now apply text_okb_sound | now apply creates_okb_sound].
Qed.

(* non-vacuity of [bytes_bad_file_fails]: the same CAS with the chunk file replaced by bytes that are not an object *)
Definition ex_cas_bad_chunk : cas :=
  map (fun kv => if bytes_eqb (fst kv) (bs "cas0624") then (fst kv, Build_cas_entry true 30 true (bs "[{""deltas"":[]}]")) else kv) ex_cas.

Example ex_bad_chunk : bad_file ex_limits ex_cas_bad_chunk ex_anchor.
Proof.
  eapply bad_chunk; try (vm_compute; reflexivity).
  - discriminate.
  - vm_compute. tauto.
Qed.

Example ex_bad_chunk_fails : get_txn_operations_bytes ex_limits ex_facts ex_cas_bad_chunk ex_anchor = None.
Proof. apply bytes_bad_file_fails. exact ex_bad_chunk. Qed.

(* ... and its limit: a chunk file whose content is the four bytes "null" is accepted (observed on the real provider:
   gen_files, crafted:chunk-for-deactivate-only).  A batch of one deactivate, with a provisional index file that
   has no operations. *)
Definition ex_null_cas : cas :=
  [(bs "c", Build_cas_entry true 10 true
              (bs "{""coreProofFileUri"":""p"",""operations"":{""deactivate"":[{""didSuffix"":""EiA"",""revealValue"":""EiB""}]},""provisionalIndexFileUri"":""i""}"));
   (bs "p", Build_cas_entry true 10 true (bs "{""operations"":{""deactivate"":[""a.b.c""]}}"));
   (bs "i", Build_cas_entry true 10 true (bs "{""chunks"":[{""chunkFileUri"":""k""}]}"));
   (bs "k", Build_cas_entry true 4 true (bs "null"))].

Definition ex_null_facts : facts :=
  {| fx_id := ex_id; fx_creates := []; fx_cp_recover := []; fx_cp_deactivate := [Build_proof_fact true 0]; fx_pp_update := [];
     fx_deltas := [] |}.
Definition ex_null_anchor : bytes := bs "1.c".

Example ex_null_chunk_accepted :
  option_map (map ro_ty) (get_txn_operations_bytes ex_limits ex_null_facts ex_null_cas ex_null_anchor) = Some [Deactivate].
Proof. vm_compute. reflexivity. Qed.
