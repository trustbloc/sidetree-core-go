(* The batch-file view of Batch/Files.v computed from BYTES (C13, C14).  Definitions and examples.

   Batch/Files.v works on files "after JSON decoding": the [f_parsed] component of a [raw] is a fact.  Here that
   component is computed: for each of the five files, what encoding/json's Unmarshal (Json/GoJson.v) makes of the
   DECOMPRESSED bytes for the file's Go struct (pkg/versions/1_0/txnprovider/models), and for the anchor string what
   ParseAnchorData makes of its text.  What stays a fact:
     - the CAS and gzip: per URI, whether content could be read (locally or from an alternate source), its size as
       served, whether it decompressed, and the decompressed bytes                                     ([cas])
     - the verdicts of the operation parser on what is embedded in the files, in file order: ValidateSuffixData per
       create reference, ParseSignedDataFor<type> per compact JWS, ValidateDelta per delta             ([facts])
     - identities: [fx_id] interns strings (didSuffix, revealValue, compact JWS, canonical JSON of a delta or of
       suffix data) as numbers; the unique suffix of a create reference (a hash), the identity of anchor origins
       (a JSON value that the harness interns through json.Marshal when it is a scalar) come with the verdicts.

   Sections
   1-2. struct models and member functions for the five files ([core_index_m] ...), decoding INTO an existing value as
      encoding/json does: a repeated "operations" member decodes into the struct the first one allocated, a repeated
      array decodes element i into the element that is already at index i of the backing array - including the
      stale elements beyond the length an earlier, longer array left there ([slice], [dec_slice]); null is a no-op
      on strings and structs (so [null] as an array element keeps the stale element) and nil for pointers and slices.
      [decode_core_index] ... [decode_chunk]: json.Unmarshal(content, &File{}) == nil ? the struct : error
   3-4. the anchor string ([parse_anchor]); the facts ([cas], [facts])
   5. projection to the records of Batch/Files.v over a CAS, following the references as ViewBuilder does
      (harness/internal/world/batchview.go): [anchor_view_of_bytes]
   6. what json.Marshal writes for the structs ([core_index_json] ...): the writing half of the byte round trip of
      Batch/FilesOfBytesProofs.v
   7. examples.

   From Json/GoJson.v: [gj], [unmarshal], [dec_str], [dec_ptr], [dec_struct], [is_field], [is_digit_b], [digits_val],
   [opt_str], [canonical_of], and the structs shared with the operation parser ([suffix_m], [delta_m] with their
   [_zero], [_member], [_json]); [bs] is from Json/Ast.v, [bZ] and [two63] from Json/Num.v. *)
From Coq Require Import String List ZArith.
From Coq.Strings Require Import Byte.
From SV Require Import Base.Bytes Json.Ast Json.Num Json.GoJson Batch.Files.
Import ListNotations.
Local Open Scope Z_scope.

Definition blen (s : bytes) : Z := Z.of_nat (length s).

(** * 1. Slices *)

(* a Go slice: the elements, and the rest of the backing array (what an earlier, longer array left beyond len) *)
Record slice (T : Type) := { sl_elems : list T; sl_stale : list T }.
Arguments sl_elems {T}. Arguments sl_stale {T}.
Definition nil_slice {T} : slice T := {| sl_elems := []; sl_stale := [] |}.

(* decodeState.array on a slice: element i decodes into backing[i] (SetLen exposes it as it is); beyond the backing
   array the elements are fresh (zero).  SetLen(i) at the end leaves the rest of the backing array in place. *)
Fixpoint dec_slice_elems {T} (zero : T) (dec : gj -> T -> option T) (l : list gj) (backing acc : list T)
  : option (slice T) :=
  match l with
  | [] => Some {| sl_elems := rev' acc; sl_stale := backing |}
  | g :: r =>
    let old := match backing with o :: _ => o | [] => zero end in
    match dec g old with
    | Some x => dec_slice_elems zero dec r (tl backing) (x :: acc)
    | None => None
    end
  end.

Definition dec_slice {T} (zero : T) (dec : gj -> T -> option T) (g : gj) (old : slice T) : option (slice T) :=
  match g with
  | GNull => Some nil_slice                                   (* nil slice *)
  | GArr [] => Some nil_slice                                 (* reflect.MakeSlice(t, 0, 0) *)
  | GArr l => dec_slice_elems zero dec l (sl_elems old ++ sl_stale old) []
  | _ => None                                                 (* UnmarshalTypeError *)
  end.

(** * 2. The structs *)

(* models.OperationReference *)
Record op_ref_m := { om_did : bytes; om_reveal : bytes }.
Definition op_ref_zero : op_ref_m := Build_op_ref_m [] [].

Definition op_ref_member (st : op_ref_m) (fk : bytes) (v : gj) : option op_ref_m :=
  if is_field fk "DIDSUFFIX" then option_map (fun s => Build_op_ref_m s (om_reveal st)) (dec_str v (om_did st))
  else if is_field fk "REVEALVALUE" then option_map (fun s => Build_op_ref_m (om_did st) s) (dec_str v (om_reveal st))
  else Some st.

Definition dec_op_refs : gj -> slice op_ref_m -> option (slice op_ref_m) :=
  dec_slice op_ref_zero (dec_struct op_ref_member).

(* models.CreateReference *)
Record create_ref_m := { crm_suffix : option suffix_m }.
Definition create_ref_zero : create_ref_m := Build_create_ref_m None.

Definition create_ref_member (st : create_ref_m) (fk : bytes) (v : gj) : option create_ref_m :=
  if is_field fk "SUFFIXDATA" then option_map Build_create_ref_m (dec_ptr suffix_zero suffix_member v (crm_suffix st))
  else Some st.

(* models.CoreOperations *)
Record core_ops_m := { com_create : slice create_ref_m; com_recover : slice op_ref_m; com_deactivate : slice op_ref_m }.
Definition core_ops_zero : core_ops_m := Build_core_ops_m nil_slice nil_slice nil_slice.

Definition core_ops_member (st : core_ops_m) (fk : bytes) (v : gj) : option core_ops_m :=
  if is_field fk "CREATE" then
    option_map (fun s => Build_core_ops_m s (com_recover st) (com_deactivate st))
               (dec_slice create_ref_zero (dec_struct create_ref_member) v (com_create st))
  else if is_field fk "RECOVER" then
    option_map (fun s => Build_core_ops_m (com_create st) s (com_deactivate st)) (dec_op_refs v (com_recover st))
  else if is_field fk "DEACTIVATE" then
    option_map (fun s => Build_core_ops_m (com_create st) (com_recover st) s) (dec_op_refs v (com_deactivate st))
  else Some st.

(* models.CoreIndexFile *)
Record core_index_m := { cim_prov_uri : bytes; cim_proof_uri : bytes; cim_ops : option core_ops_m }.
Definition core_index_zero : core_index_m := Build_core_index_m [] [] None.

Definition core_index_member (st : core_index_m) (fk : bytes) (v : gj) : option core_index_m :=
  if is_field fk "PROVISIONALINDEXFILEURI" then
    option_map (fun s => Build_core_index_m s (cim_proof_uri st) (cim_ops st)) (dec_str v (cim_prov_uri st))
  else if is_field fk "COREPROOFFILEURI" then
    option_map (fun s => Build_core_index_m (cim_prov_uri st) s (cim_ops st)) (dec_str v (cim_proof_uri st))
  else if is_field fk "OPERATIONS" then
    option_map (fun p => Build_core_index_m (cim_prov_uri st) (cim_proof_uri st) p)
               (dec_ptr core_ops_zero core_ops_member v (cim_ops st))
  else Some st.

(* models.CoreProofFile { Operations CoreProofOperations } - a struct, not a pointer: null leaves it alone *)
Record core_proof_m := { cpm_recover : slice bytes; cpm_deactivate : slice bytes }.
Definition core_proof_zero : core_proof_m := Build_core_proof_m nil_slice nil_slice.

Definition dec_strings : gj -> slice bytes -> option (slice bytes) := dec_slice [] dec_str.

Definition core_proof_ops_member (st : core_proof_m) (fk : bytes) (v : gj) : option core_proof_m :=
  if is_field fk "RECOVER" then option_map (fun s => Build_core_proof_m s (cpm_deactivate st)) (dec_strings v (cpm_recover st))
  else if is_field fk "DEACTIVATE" then option_map (fun s => Build_core_proof_m (cpm_recover st) s) (dec_strings v (cpm_deactivate st))
  else Some st.

Definition core_proof_member (st : core_proof_m) (fk : bytes) (v : gj) : option core_proof_m :=
  if is_field fk "OPERATIONS" then dec_struct core_proof_ops_member v st else Some st.

(* models.ProvisionalProofFile { Operations ProvisionalProofOperations } *)
Record prov_proof_m := { ppm_update : slice bytes }.
Definition prov_proof_zero : prov_proof_m := Build_prov_proof_m nil_slice.

Definition prov_proof_ops_member (st : prov_proof_m) (fk : bytes) (v : gj) : option prov_proof_m :=
  if is_field fk "UPDATE" then option_map Build_prov_proof_m (dec_strings v (ppm_update st)) else Some st.

Definition prov_proof_member (st : prov_proof_m) (fk : bytes) (v : gj) : option prov_proof_m :=
  if is_field fk "OPERATIONS" then dec_struct prov_proof_ops_member v st else Some st.

(* models.ProvisionalIndexFile *)
Record chunk_ref_m := { chm_uri : bytes }.
Definition chunk_ref_zero : chunk_ref_m := Build_chunk_ref_m [].

Definition chunk_ref_member (st : chunk_ref_m) (fk : bytes) (v : gj) : option chunk_ref_m :=
  if is_field fk "CHUNKFILEURI" then option_map Build_chunk_ref_m (dec_str v (chm_uri st)) else Some st.

Record prov_ops_m := { pom_update : slice op_ref_m }.
Definition prov_ops_zero : prov_ops_m := Build_prov_ops_m nil_slice.

Definition prov_ops_member (st : prov_ops_m) (fk : bytes) (v : gj) : option prov_ops_m :=
  if is_field fk "UPDATE" then option_map Build_prov_ops_m (dec_op_refs v (pom_update st)) else Some st.

Record prov_index_m := { pim_proof_uri : bytes; pim_chunks : slice chunk_ref_m; pim_ops : option prov_ops_m }.
Definition prov_index_zero : prov_index_m := Build_prov_index_m [] nil_slice None.

Definition prov_index_member (st : prov_index_m) (fk : bytes) (v : gj) : option prov_index_m :=
  if is_field fk "PROVISIONALPROOFFILEURI" then
    option_map (fun s => Build_prov_index_m s (pim_chunks st) (pim_ops st)) (dec_str v (pim_proof_uri st))
  else if is_field fk "CHUNKS" then
    option_map (fun s => Build_prov_index_m (pim_proof_uri st) s (pim_ops st))
               (dec_slice chunk_ref_zero (dec_struct chunk_ref_member) v (pim_chunks st))
  else if is_field fk "OPERATIONS" then
    option_map (fun p => Build_prov_index_m (pim_proof_uri st) (pim_chunks st) p)
               (dec_ptr prov_ops_zero prov_ops_member v (pim_ops st))
  else Some st.

(* models.ChunkFile { Deltas []*model.DeltaModel } *)
Record chunk_m := { ckm_deltas : slice (option delta_m) }.
Definition chunk_zero : chunk_m := Build_chunk_m nil_slice.

Definition chunk_member (st : chunk_m) (fk : bytes) (v : gj) : option chunk_m :=
  if is_field fk "DELTAS" then
    option_map Build_chunk_m (dec_slice None (dec_ptr delta_zero delta_member) v (ckm_deltas st))
  else Some st.

(* models.Parse<File>: json.Unmarshal(content, &File{}); None = error *)
Definition decode_core_index (b : bytes) : option core_index_m := unmarshal core_index_member core_index_zero b.
Definition decode_core_proof (b : bytes) : option core_proof_m := unmarshal core_proof_member core_proof_zero b.
Definition decode_prov_index (b : bytes) : option prov_index_m := unmarshal prov_index_member prov_index_zero b.
Definition decode_prov_proof (b : bytes) : option prov_proof_m := unmarshal prov_proof_member prov_proof_zero b.
Definition decode_chunk (b : bytes) : option chunk_m := unmarshal chunk_member chunk_zero b.

(** * 3. Anchor string *)

(* strings.Split(s, ".") *)
Fixpoint split_dot (cur : bytes) (l : bytes) : list bytes :=
  match l with
  | [] => [rev' cur]
  | c :: r => if Byte.eqb c x2e then rev' cur :: split_dot [] r else split_dot (c :: cur) r
  end.

(* ^[1-9]\d*$ *)
Definition positive_int_text (s : bytes) : bool :=
  match s with
  | c :: r => (49 <=? bZ c) && (bZ c <=? 57) && forallb is_digit_b r
  | [] => false
  end.

Definition max_int : Z := two63 - 1.

(* ParseAnchorData: (ok, number of operations, core index URI).  When the digits do not fit an int, strconv.Atoi
   returns the largest int together with its error; the harness view records that number. *)
Definition parse_anchor (s : bytes) : bool * Z * bytes :=
  match split_dot [] s with
  | [n; uri] =>
    if positive_int_text n then
      match digits_val n 0 with
      | Some v => if v <? two63 then (true, v, uri) else (false, max_int, uri)
      | None => (false, 0, [])
      end
    else (false, 0, [])
  | _ => (false, 0, [])
  end.

(** * 4. Facts *)

(* what the layers below the provider say about one CAS address *)
Record cas_entry := {
  ce_read_ok : bool;          (* cas.Read, or an alternate source, returned content *)
  ce_raw_size : Z;            (* its size *)
  ce_decomp_ok : bool;        (* it decompressed *)
  ce_content : bytes }.       (* the decompressed bytes *)

Definition cas := list (bytes * cas_entry).                   (* no entry: nothing can be read there *)

Fixpoint cas_get (c : cas) (uri : bytes) : option cas_entry :=
  match c with
  | [] => None
  | (k, e) :: r => if bytes_eqb k uri then Some e else cas_get r uri
  end.

Record create_fact := {
  cf_valid : bool;            (* parser.ValidateSuffixData(suffixData) == nil *)
  cf_sfx : Z;                 (* identity of model.GetUniqueSuffix(suffixData) (0: it failed) *)
  cf_origin : Z }.            (* identity of suffixData.AnchorOrigin *)

Record proof_fact := {
  pf_ok : bool;               (* parser.ParseSignedDataFor<type>(compact JWS) == nil *)
  pf_origin : Z }.            (* recover, parsed: identity of the anchor origin inside the signed data *)

Record facts := {
  fx_id : bytes -> Z;                       (* interning of strings; "" is 0 *)
  fx_creates : list create_fact;            (* core index file, per create reference with suffix data *)
  fx_cp_recover : list proof_fact;          (* core proof file *)
  fx_cp_deactivate : list proof_fact;
  fx_pp_update : list proof_fact;           (* provisional proof file *)
  fx_deltas : list bool }.                  (* chunk file: parser.ValidateDelta(delta) == nil, per non-nil delta *)

Definition dflt_create_fact : create_fact := Build_create_fact false 0 0.
Definition dflt_proof_fact : proof_fact := Build_proof_fact false 0.

(** * 5. Projection to the records of Batch/Files.v *)

Definition op_ref_of (I : bytes -> Z) (o : op_ref_m) : op_ref :=
  {| or_sfx := I (om_did o); or_sfx_len := blen (om_did o); or_reveal := I (om_reveal o); or_reveal_len := blen (om_reveal o) |}.

(* facts are consumed by the create references that have suffix data, in order *)
Fixpoint creates_of (I : bytes -> Z) (l : list create_ref_m) (fs : list create_fact) : list create_ref :=
  match l with
  | [] => []
  | c :: r =>
    match crm_suffix c with
    | None => {| cc_sd_present := false; cc_sd_valid := false; cc_sfx := 0; cc_sdata := 0; cc_origin := 0 |} :: creates_of I r fs
    | Some s =>
      let f := hd dflt_create_fact fs in
      {| cc_sd_present := true; cc_sd_valid := cf_valid f; cc_sfx := cf_sfx f;
         cc_sdata := I (canonical_of (suffix_json s)); cc_origin := cf_origin f |} :: creates_of I r (tl fs)
    end
  end.

Fixpoint proofs_of (I : bytes -> Z) (l : list bytes) (fs : list proof_fact) : list proof_entry :=
  match l with
  | [] => []
  | s :: r =>
    let f := hd dflt_proof_fact fs in
    {| pe_signed := I s; pe_parse_ok := pf_ok f; pe_origin := pf_origin f |} :: proofs_of I r (tl fs)
  end.

(* ValidateDelta(nil) is an error ("missing delta"); verdicts are consumed by the non-nil deltas *)
Fixpoint deltas_of (I : bytes -> Z) (l : list (option delta_m)) (fs : list bool) : list delta_entry :=
  match l with
  | [] => []
  | None :: r => {| de_delta := 0; de_valid := false |} :: deltas_of I r fs
  | Some d :: r => {| de_delta := I (canonical_of (delta_json d)); de_valid := hd false fs |} :: deltas_of I r (tl fs)
  end.

Definition unreadable {A} : raw A :=
  {| f_read_ok := false; f_raw_size := 0; f_decomp_ok := false; f_size := 0; f_parsed := None |}.

(* ViewBuilder.raw: read, decompress, decode *)
Definition raw_of {A} (e : option cas_entry) (parse : bytes -> option A) : raw A :=
  match e with
  | None => unreadable
  | Some e =>
    if negb (ce_read_ok e) then unreadable
    else if negb (ce_decomp_ok e) then
      {| f_read_ok := true; f_raw_size := ce_raw_size e; f_decomp_ok := false; f_size := 0; f_parsed := None |}
    else {| f_read_ok := true; f_raw_size := ce_raw_size e; f_decomp_ok := true; f_size := blen (ce_content e);
            f_parsed := parse (ce_content e) |}
  end.

(* ViewBuilder.ref: an empty URI points nowhere (no CAS address is empty) *)
Definition ref_of {A} (C : cas) (uri : bytes) (parse : bytes -> option A) : ref A :=
  match uri with
  | [] => {| uri_len := 0; target := None |}
  | _ => {| uri_len := blen uri; target := Some (raw_of (cas_get C uri) parse) |}
  end.

Definition chunk_of_m (F : facts) (m : chunk_m) : chunk_file :=
  {| ch_deltas := deltas_of (fx_id F) (sl_elems (ckm_deltas m)) (fx_deltas F) |}.

Definition prov_proof_of_m (F : facts) (m : prov_proof_m) : prov_proof_file :=
  {| pp_updates := proofs_of (fx_id F) (sl_elems (ppm_update m)) (fx_pp_update F) |}.

Definition core_proof_of_m (F : facts) (m : core_proof_m) : core_proof_file :=
  {| cp_recovers := proofs_of (fx_id F) (sl_elems (cpm_recover m)) (fx_cp_recover F);
     cp_deactivates := proofs_of (fx_id F) (sl_elems (cpm_deactivate m)) (fx_cp_deactivate F) |}.

Definition parse_chunk (F : facts) (b : bytes) : option chunk_file := option_map (chunk_of_m F) (decode_chunk b).
Definition parse_prov_proof (F : facts) (b : bytes) : option prov_proof_file := option_map (prov_proof_of_m F) (decode_prov_proof b).
Definition parse_core_proof (F : facts) (b : bytes) : option core_proof_file := option_map (core_proof_of_m F) (decode_core_proof b).

(* only the first chunk reference is ever followed; the others are kept for their number *)
Definition chunks_of (F : facts) (C : cas) (l : list chunk_ref_m) : list (ref chunk_file) :=
  match l with
  | [] => []
  | c :: r => ref_of C (chm_uri c) (parse_chunk F) :: map (fun x => {| uri_len := blen (chm_uri x); target := None |}) r
  end.

Definition prov_updates (m : prov_index_m) : list op_ref_m :=
  match pim_ops m with Some o => sl_elems (pom_update o) | None => [] end.

Definition prov_index_of_m (F : facts) (C : cas) (m : prov_index_m) : prov_index_file :=
  {| pi_proof := ref_of C (pim_proof_uri m) (parse_prov_proof F);
     pi_chunks := chunks_of F C (sl_elems (pim_chunks m));
     pi_updates := map (op_ref_of (fx_id F)) (prov_updates m) |}.

Definition parse_prov_index (F : facts) (C : cas) (b : bytes) : option prov_index_file :=
  option_map (prov_index_of_m F C) (decode_prov_index b).

Definition core_creates (m : core_index_m) : list create_ref_m :=
  match cim_ops m with Some o => sl_elems (com_create o) | None => [] end.
Definition core_recovers (m : core_index_m) : list op_ref_m :=
  match cim_ops m with Some o => sl_elems (com_recover o) | None => [] end.
Definition core_deactivates (m : core_index_m) : list op_ref_m :=
  match cim_ops m with Some o => sl_elems (com_deactivate o) | None => [] end.

Definition core_index_of_m (F : facts) (C : cas) (m : core_index_m) : core_index_file :=
  {| ci_proof := ref_of C (cim_proof_uri m) (parse_core_proof F);
     ci_prov := ref_of C (cim_prov_uri m) (parse_prov_index F C);
     ci_creates := creates_of (fx_id F) (core_creates m) (fx_creates F);
     ci_recovers := map (op_ref_of (fx_id F)) (core_recovers m);
     ci_deactivates := map (op_ref_of (fx_id F)) (core_deactivates m) |}.

Definition parse_core_index (F : facts) (C : cas) (b : bytes) : option core_index_file :=
  option_map (core_index_of_m F C) (decode_core_index b).

(* ViewBuilder.Anchor *)
Definition anchor_view_of_bytes (F : facts) (C : cas) (anchor_string : bytes) : anchor :=
  let '(ok, n, uri) := parse_anchor anchor_string in
  {| a_syntax_ok := ok; a_count := n;
     a_core := if ok then raw_of (cas_get C uri) (parse_core_index F C) else unreadable |}.

(* GetTxnOperations on bytes *)
Definition get_txn_operations_bytes (L : limits) (F : facts) (C : cas) (anchor_string : bytes) : option (list rop) :=
  get_txn_operations L (anchor_view_of_bytes F C anchor_string).

(** * 6. What json.Marshal makes of the structs, as values (the handler writes the canonical text of these) *)

Definition op_ref_json (o : op_ref_m) : json := JObj [(bs "didSuffix", JStr (om_did o)); (bs "revealValue", JStr (om_reveal o))].

Definition opt_arr (name : String.string) (l : list json) : list (bytes * json) :=
  match l with [] => [] | _ => [(bs name, JArr l)] end.   (* slice field with omitempty *)

Definition create_ref_json (c : create_ref_m) : json :=
  JObj [(bs "suffixData", match crm_suffix c with Some s => suffix_json s | None => JNull end)].

Definition core_ops_json (o : core_ops_m) : json :=
  JObj (opt_arr "create" (map create_ref_json (sl_elems (com_create o)))
        ++ opt_arr "recover" (map op_ref_json (sl_elems (com_recover o)))
        ++ opt_arr "deactivate" (map op_ref_json (sl_elems (com_deactivate o)))).

Definition core_index_json (m : core_index_m) : json :=
  JObj (opt_str "provisionalIndexFileUri" (cim_prov_uri m) ++ opt_str "coreProofFileUri" (cim_proof_uri m)
        ++ match cim_ops m with Some o => [(bs "operations", core_ops_json o)] | None => [] end).

(* a struct-valued field is never "empty" for omitempty *)
Definition core_proof_json (m : core_proof_m) : json :=
  JObj [(bs "operations", JObj (opt_arr "recover" (map JStr (sl_elems (cpm_recover m)))
                               ++ opt_arr "deactivate" (map JStr (sl_elems (cpm_deactivate m)))))].

Definition prov_proof_json (m : prov_proof_m) : json :=
  JObj [(bs "operations", JObj (opt_arr "update" (map JStr (sl_elems (ppm_update m)))))].

Definition chunk_ref_json (c : chunk_ref_m) : json := JObj [(bs "chunkFileUri", JStr (chm_uri c))].

(* a slice field without omitempty: the handler builds its slices with append from nil, so a slice without elements is
   a nil slice, which json.Marshal writes as null (observed: {"deltas":null} for a batch whose included operations are
   all deactivates while other queued operations were deferred) *)
Definition nil_or_arr (l : list json) : json := match l with [] => JNull | _ => JArr l end.

(* "chunks" has no omitempty (the handler always writes one chunk) *)
Definition prov_index_json (m : prov_index_m) : json :=
  JObj (opt_str "provisionalProofFileUri" (pim_proof_uri m)
        ++ [(bs "chunks", nil_or_arr (map chunk_ref_json (sl_elems (pim_chunks m))))]
        ++ match pim_ops m with
           | Some o => [(bs "operations", JObj (opt_arr "update" (map op_ref_json (sl_elems (pom_update o)))))]
           | None => []
           end).

Definition chunk_json (m : chunk_m) : json :=
  JObj [(bs "deltas", nil_or_arr (map (fun d => match d with Some x => delta_json x | None => JNull end) (sl_elems (ckm_deltas m))))].

(** * 7. Examples: decoder behaviour observed on the real decoders (harness/cmd/gen_files) *)

(* a second "operations" decodes INTO the first; [{}] and [null] keep the element that is there *)
Example ex_merge_create :
  option_map (fun m => map (fun c => option_map sm_delta_hash (crm_suffix c)) (core_creates m))
    (decode_core_index (bs "{""operations"":{""create"":[{""suffixData"":{""deltaHash"":""A""}}]},""operations"":{""create"":[null]}}"))
  = Some [Some (bs "A")].
Proof. vm_compute. reflexivity. Qed.

(* stale elements of the backing array come back *)
Example ex_stale_refs :
  option_map (fun m => map (fun o => (om_did o, om_reveal o)) (core_recovers m))
    (decode_core_index (bs ("{""operations"":{""recover"":[{""didSuffix"":""a"",""revealValue"":""b""},{""didSuffix"":""c"",""revealValue"":""d""}]},"
                           ++ """operations"":{""recover"":[{""didSuffix"":""x""}]},""operations"":{""recover"":[null,null]}}")))
  = Some [(bs "x", bs "b"); (bs "c", bs "d")].
Proof. vm_compute. reflexivity. Qed.

Example ex_stale_strings :
  option_map (fun m => sl_elems (cpm_recover m))
    (decode_core_proof (bs "{""operations"":{""recover"":[""a"",""b"",""c""]},""operations"":{""recover"":[""x""]},""operations"":{""recover"":[null,null,null]}}"))
  = Some [bs "x"; bs "b"; bs "c"].
Proof. vm_compute. reflexivity. Qed.

(* null after an array makes the slice nil and drops the backing array; so does [] *)
Example ex_null_resets :
  option_map (fun m => map (fun o => (om_did o, om_reveal o)) (core_recovers m))
    (decode_core_index (bs "{""operations"":{""recover"":[{""didSuffix"":""a"",""revealValue"":""b""}]},""operations"":{""recover"":null},""operations"":{""recover"":[{}]}}"))
  = Some [([], [])].
Proof. vm_compute. reflexivity. Qed.

(* the top-level value null is accepted by every file decoder: an empty struct *)
Example ex_null_file :
  (decode_core_index (bs "null"), decode_chunk (bs " null "), decode_core_index (bs "[]"), decode_chunk (bs "{""deltas"":{}}"))
  = (Some core_index_zero, Some chunk_zero, None, None).
Proof. vm_compute. reflexivity. Qed.

Example ex_anchor :
  map parse_anchor [bs "12.uri"; bs "0.uri"; bs "1.a.b"; bs "1"; bs "01.u"; bs "9223372036854775807.u"; bs "9223372036854775808.u"; bs "3."]
  = [(true, 12, bs "uri"); (false, 0, []); (false, 0, []); (false, 0, []); (false, 0, []); (true, 9223372036854775807, bs "u");
     (false, 9223372036854775807, bs "u"); (true, 3, [])].
Proof. vm_compute. reflexivity. Qed.
