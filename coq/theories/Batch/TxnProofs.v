(* C15: effect of transactions and intake on the stores. *)
From Coq Require Import List ZArith Bool.
From SV Require Import Base.Split3 Resolve.Op Resolve.Chain Batch.Files Batch.TxnProc.
Import ListNotations.
Local Open Scope Z_scope.

Lemma first_per_suffix_split3 l : forall seen,
  first_per_suffix seen l = s3_in (split3 (fun _ => false) ro_sfx memZ seen l).
Proof.
  induction l as [|o r IH]; intros seen; cbn [first_per_suffix split3]; [reflexivity|].
  rewrite !IH. destruct (memZ (ro_sfx o) seen); reflexivity.
Qed.

Lemma first_per_suffix_nodup : forall l seen,
  NoDup (map ro_sfx (first_per_suffix seen l)) /\
  (forall o, In o (first_per_suffix seen l) -> ~ In (ro_sfx o) seen /\ In o l).
Proof.
  intros l seen. rewrite first_per_suffix_split3.
  destruct (split3_in (fun _ => false) ro_sfx memZ memZ_In l seen) as [Hn Hi].
  split; [exact Hn | intros o Ho; split; apply (Hi o Ho)].
Qed.

(* the store is left as it was or extended by the whole transaction (the latter also when DeleteAll fails and the result
   is PErr); one operation per suffix, every stored operation stamped with the transaction *)
Theorem txn_store_effect store put_ok del_ok t store' res :
  process_txn store put_ok del_ok t = (store', res) ->
  (store' = store \/
   exists ops, tx_ops t = Some ops /\ put_ok = true /\
     store' = store ++ map (stamp t) (first_per_suffix [] ops) /\
     NoDup (map ro_sfx (first_per_suffix [] ops))) /\
  (tx_ops t = None \/ put_ok = false -> store' = store /\ res = PErr) /\
  (forall n, res = POk n -> exists ops, tx_ops t = Some ops /\ store' = store ++ map (stamp t) (first_per_suffix [] ops)
                                        /\ n = length (first_per_suffix [] ops)).
Proof.
  unfold process_txn. destruct (tx_ops t) as [ops|]; [destruct put_ok; cbn [negb]|].
  - pose proof (proj1 (first_per_suffix_nodup ops [])) as Hn.
    destruct del_ok; cbn [negb]; intros [= <- <-]; (split; [eauto 8|]); (split; [intros [?|?]; discriminate|]);
      intros n [= <-]. rewrite map_length. eauto.
  - intros [= <- <-]. repeat split; auto; discriminate.
  - intros [= <- <-]. repeat split; auto; discriminate.
Qed.

Theorem stamped_fields t o :
  let s := stamp t o in
  so_time s = tx_time t /\ so_num s = tx_num t /\ so_pver s = tx_pver t /\ so_cref s = tx_cref t /\ so_eqv s = tx_eqv t
  /\ so_ty s = ro_ty o /\ so_sfx s = ro_sfx o /\ so_req s = o.
Proof. cbn. auto 10. Qed.

(* the observer goes on with the later transactions from whatever store the first one left (the defining equation);
   that a transaction which cannot be processed leaves the store as it was is [failing_txn_contributes_nothing] *)
Theorem observer_isolation store t put_ok del_ok rest :
  observe store ((t, put_ok, del_ok) :: rest) = observe (observe_one store put_ok del_ok t) rest.
Proof. reflexivity. Qed.

Theorem failing_txn_contributes_nothing store t put_ok del_ok :
  tx_ns_ok t = false \/ tx_version_ok t = false \/ tx_ops t = None \/ put_ok = false ->
  observe_one store put_ok del_ok t = store.
Proof.
  unfold observe_one, process_txn. intros H.
  destruct (tx_ns_ok t); [|reflexivity]. destruct (tx_version_ok t); [|reflexivity]. cbn [andb].
  destruct (tx_ops t); [|reflexivity]. destruct put_ok; [|reflexivity].
  destruct H as [H|[H|[H|H]]]; discriminate.
Qed.

Lemma observe_app store a b : observe store (a ++ b) = observe (observe store a) b.
Proof. revert store. induction a as [|[[t p] d] r IH]; intros store; cbn [observe app]; [reflexivity | apply IH]. Qed.

(* the store is only appended to: what a transaction adds does not depend on what is there *)
Lemma observe_one_from_empty store p d t : observe_one store p d t = store ++ observe_one [] p d t.
Proof.
  unfold observe_one, process_txn.
  destruct (tx_ns_ok t && tx_version_ok t), (tx_ops t), p, d; cbn; rewrite ?app_nil_r; reflexivity.
Qed.

Lemma observe_from_empty : forall txns store, observe store txns = store ++ observe [] txns.
Proof.
  induction txns as [|[[t p] d] r IH]; intros store; cbn [observe]; [symmetry; apply app_nil_r|].
  rewrite IH, (IH (observe_one [] p d t)), observe_one_from_empty, app_assoc. reflexivity.
Qed.

Theorem observe_extends store txns : exists added, observe store txns = store ++ added.
Proof. exists (observe [] txns). apply observe_from_empty. Qed.

Lemma remove_one_snoc x l : ~ In x l -> remove_one x (l ++ [x]) = l.
Proof.
  induction l as [|y r IH]; intros Hn; cbn.
  - rewrite Z.eqb_refl. reflexivity.
  - destruct (y =? x) eqn:E; [apply Z.eqb_eq in E; subst; elim Hn; left; reflexivity|].
    f_equal. apply IH. intros Hi. apply Hn. right. exact Hi.
Qed.

(* DocumentHandler.ProcessOperation: a refused or failed submission leaves no trace.  [remove_one] takes out the first
   occurrence, hence the identity must not be in the unpublished store already. *)
Theorem intake_no_trace s r s' :
  process_operation s r = (s', false) -> ~ In (ir_id r) (i_unpub s) ->
  i_queue s' = i_queue s /\ i_unpub s' = i_unpub s.
Proof.
  unfold process_operation. intros H Hfresh.
  destruct (ir_accepted r), (ir_unpub_type r), (ir_put_ok r), (ir_add_ok r); cbn in H; inversion H; auto.
  cbn. split; [reflexivity | apply remove_one_snoc; exact Hfresh].
Qed.

Theorem intake_accept_effect s r s' :
  process_operation s r = (s', true) ->
  ir_accepted r = true /\ ir_add_ok r = true /\ i_queue s' = i_queue s ++ [ir_id r] /\
  i_unpub s' = if ir_unpub_type r then i_unpub s ++ [ir_id r] else i_unpub s.
Proof.
  unfold process_operation.
  destruct (ir_accepted r), (ir_unpub_type r), (ir_put_ok r), (ir_add_ok r); cbn; intros H; inversion H; auto.
Qed.
