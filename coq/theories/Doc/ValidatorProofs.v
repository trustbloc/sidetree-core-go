(* C18, validation half: what acceptance by ValidateDelta / patchvalidator.Validate guarantees
   (model: SV.Doc.Validator): [validated_rules], in readable predicates ([key_rules], [service_rules], [patch_rules]).
   The examples at the end are the inputs of F9, F12 and F10, which the code rejects since their repairs. *)
From Coq Require Import String List ZArith Bool Lia.
From SV Require Import Base.Bytes Base.BytesFacts Json.Ast Doc.JsonPatch Doc.Validator.
Import ListNotations.

Lemma mem_bytes_In : forall x l, mem_bytes x l = true -> In x l.
Proof. intros x l. apply existsb_bytes_eqb. Qed.

Lemma In_mem_bytes : forall x l, In x l -> mem_bytes x l = true.
Proof. intros x l. apply existsb_bytes_eqb. Qed.

Lemma nodup_bytes_NoDup : forall l, nodup_bytes l = true -> NoDup l.
Proof.
  induction l as [|x l IH]; intros H; cbn in H.
  - constructor.
  - apply andb_true_iff in H. destruct H as [Hx Hl]. constructor; auto.
    intros Hin. apply In_mem_bytes in Hin. rewrite Hin in Hx. discriminate.
Qed.

(* ids: 1 to 50 bytes of [A-Za-z0-9_-] *)
Lemma id_ok_spec : forall id,
  id_ok id = true <-> (1 <= length id <= 50)%nat /\ Forall (fun b => urlsafe_byte b = true) id.
Proof.
  intros id. unfold id_ok, max_id_length. split.
  - intros H. rewrite !andb_true_iff in H. destruct H as [[Hle Hne] Hall].
    apply Nat.leb_le in Hle. apply negb_true_iff in Hne. apply Nat.eqb_neq in Hne.
    split; [lia|]. apply Forall_forall. apply forallb_forall. exact Hall.
  - intros [[Hlo Hhi] Hall]. apply andb_true_iff. split.
    + apply andb_true_iff. split.
      * apply Nat.leb_le. exact Hhi.
      * apply negb_true_iff. apply Nat.eqb_neq. lia.
    + apply forallb_forall. apply Forall_forall. exact Hall.
Qed.

(* a key entry: id rule, type permitted for every declared purpose, exactly one key-material member *)
Definition key_rules (m : list (bytes * json)) : Prop :=
  id_ok (entry_id m) = true
  /\ (forall p, In p (key_purposes m) -> In p allowed_purposes /\ In (entry_type m) (key_types_for p))
  /\ key_material_count m = 1%nat.

(* a service entry; [eps] selects the endpoints the statement speaks about *)
Definition service_rules (uri_ok : bytes -> bool) (eps : list (bytes * json) -> list bytes)
  (m : list (bytes * json)) : Prop :=
  id_ok (entry_id m) = true
  /\ (1 <= length (entry_type m) <= 30)%nat
  /\ Forall (fun u => uri_ok u = true) (eps m).

Definition patch_rules (uri_ok : bytes -> bool) (eps : list (bytes * json) -> list bytes)
  (enabled : list bytes) (p : json) : Prop :=
  (exists a, patch_action p = Some a /\ In a enabled)
  /\ Forall key_rules (patch_keys p) /\ NoDup (map entry_id (patch_keys p))
  /\ Forall (service_rules uri_ok eps) (patch_services p) /\ NoDup (map entry_id (patch_services p))
  /\ (forall ops, patch_jsonpatch p = Some ops -> jsonpatch_paths_ok ops = true)
  (* no element escapes: the raw arrays consist of exactly the validated object entries, and the
     sections of a replace document are absent, null or arrays *)
  /\ patch_key_elems p = map JObj (patch_keys p)
  /\ patch_service_elems p = map JObj (patch_services p)
  /\ patch_sections_typed p = true.

Lemma key_entry_rules : forall m, key_entry_ok m = true -> key_rules m.
Proof.
  intros m H. unfold key_entry_ok in H. rewrite !andb_true_iff in H. destruct H as [[[[Hprop Hid] Hpur] Htp] Hmat].
  split; [exact Hid|]. split.
  - intros p Hp. split.
    + unfold key_purposes_ok in Hpur. apply andb_true_iff in Hpur. destruct Hpur as [_ Hall].
      apply mem_bytes_In. eapply forallb_forall in Hall; eauto.
    + unfold key_type_purpose_ok in Htp. apply andb_true_iff in Htp. destruct Htp as [_ Hall].
      apply mem_bytes_In. eapply forallb_forall in Hall; eauto.
  - unfold key_properties_ok in Hprop.
    apply andb_true_iff in Hprop. destruct Hprop as [Hprop _].
    apply andb_true_iff in Hprop. destruct Hprop as [_ Hx].
    unfold key_material_count.
    destruct (has_member "publicKeyJwk" m), (has_member "publicKeyBase58" m); cbn in Hx; try discriminate; reflexivity.
Qed.

Lemma forallb_nodup_rules : forall (A : Type) (f : A -> bool) (P : A -> Prop) (g : A -> bytes) l,
  (forall x, f x = true -> P x) -> forallb f l && nodup_bytes (map g l) = true -> Forall P l /\ NoDup (map g l).
Proof.
  intros A f P g l HfP H. apply andb_true_iff in H. destruct H as [Hall Hnd]. split.
  - apply Forall_forall. intros x Hx. apply HfP. exact (proj1 (forallb_forall f l) Hall x Hx).
  - apply nodup_bytes_NoDup. exact Hnd.
Qed.

Lemma public_keys_rules : forall keys,
  public_keys_ok keys = true -> Forall key_rules keys /\ NoDup (map entry_id keys).
Proof. intro keys. apply forallb_nodup_rules. exact key_entry_rules. Qed.

Section Oracles.
Variable uri_ok : bytes -> bool.
Variable uri_parse : bytes -> option bytes.

Definition strings_of (l : list json) : list bytes :=
  flat_map (fun e => match e with JStr s => [s] | _ => [] end) l.

Lemma endpoint_objects_all : forall l,
  endpoint_objects_ok uri_ok l = true -> Forall (fun u => uri_ok u = true) (strings_of l).
Proof.
  unfold strings_of.
  induction l as [|e l IH]; intros H.
  - constructor.
  - destruct e as [| b | n | s | l' | m']; simpl in H; simpl; try (apply IH; exact H).
    apply andb_true_iff in H. destruct H as [Hu Hr].
    unfold validate_uri in Hu. apply andb_true_iff in Hu. destruct Hu as [_ Hu].
    constructor; auto.
Qed.

Lemma service_entry_rules : forall m,
  service_entry_ok uri_ok m = true -> service_rules uri_ok service_endpoints m.
Proof.
  intros m H. unfold service_entry_ok, max_service_type_length in H.
  rewrite !andb_true_iff in H. destruct H as [[[Hid Hne] Hle] Hep].
  apply Nat.leb_le in Hle. apply negb_true_iff in Hne. apply Nat.eqb_neq in Hne.
  split; [exact Hid|]. split; [lia|].
  unfold service_endpoints.
  unfold service_endpoint_ok in Hep.
  destruct (member "serviceEndpoint" m) as [e|]; [|constructor].
  destruct e; try constructor.
  - unfold validate_uri in Hep. apply andb_true_iff in Hep. apply Hep.
  - constructor.
  - apply endpoint_objects_all in Hep. exact Hep.
Qed.

Lemma services_rules : forall svcs,
  services_ok uri_ok svcs = true ->
  Forall (service_rules uri_ok service_endpoints) svcs /\ NoDup (map entry_id svcs).
Proof. intro svcs. apply forallb_nodup_rules. exact service_entry_rules. Qed.

Lemma vbool_accept : forall b, vbool b = VAccept -> b = true.
Proof. intros [|] H; [reflexivity|discriminate]. Qed.

Lemma all_objects_map : forall l,
  all_objects l = true -> l = map JObj (object_entries (Some (JArr l))).
Proof.
  unfold object_entries. induction l as [|e l IH]; intros H; [reflexivity|].
  cbn [all_objects forallb] in H. apply andb_true_iff in H. destruct H as [He Hl].
  destruct e; try discriminate. cbn [flat_map app map]. f_equal. apply IH. exact Hl.
Qed.

Lemma optional_section : forall j,
  optional_object_array j = true ->
  array_elems j = map JObj (object_entries j)
  /\ match j with None | Some JNull | Some (JArr _) => true | _ => false end = true.
Proof.
  intros [[| | | |l|]|] H; cbn in H; try discriminate; try (split; reflexivity).
  split; [apply all_objects_map; exact H|reflexivity].
Qed.

(* what an accepted patch carries obeys the rules; nothing in a publicKeys / services array escapes validation
   (validateObjectEntries, commit a4ab443, F12) *)
Lemma validate_patch_rules : forall p,
  validate_patch_out uri_ok uri_parse p = VAccept ->
  Forall key_rules (patch_keys p) /\ NoDup (map entry_id (patch_keys p))
  /\ Forall (service_rules uri_ok service_endpoints) (patch_services p)
  /\ NoDup (map entry_id (patch_services p))
  /\ (forall ops, patch_jsonpatch p = Some ops -> jsonpatch_paths_ok ops = true)
  /\ patch_key_elems p = map JObj (patch_keys p)
  /\ patch_service_elems p = map JObj (patch_services p)
  /\ patch_sections_typed p = true.
Proof.
  intros p H. unfold validate_patch_out in H.
  unfold patch_keys, patch_services, patch_jsonpatch, patch_key_elems, patch_service_elems, patch_sections_typed.
  destruct (patch_action p) as [a|]; [|discriminate].
  destruct (patch_value p) as [v|]; [|discriminate].
  destruct (bytes_eqb a (B "replace")) eqn:Erep.
  { apply bytes_eqb_eq in Erep. subst a. cbn.
    destruct v; try discriminate.
    apply vbool_accept in H. rewrite !andb_true_iff in H. destruct H as [[[[_ Hok] Hos] Hk] Hs].
    apply public_keys_rules in Hk. apply services_rules in Hs. apply optional_section in Hok, Hos.
    destruct Hk as [Hk1 Hk2], Hs as [Hs1 Hs2], Hok as [Ek1 Ek2], Hos as [Es1 Es2].
    rewrite Ek2, Es2. repeat split; auto. intros ops Hops. discriminate. }
  destruct (bytes_eqb a (B "ietf-json-patch")) eqn:Ejp.
  { apply bytes_eqb_eq in Ejp. subst a. cbn.
    repeat split; try constructor; [|destruct v; reflexivity].
    intros ops Hops. inversion Hops. subst ops.
    destruct (required_array v); [|discriminate].
    unfold jsonpatch_paths_ok. rewrite H. reflexivity. }
  destruct (bytes_eqb a (B "add-public-keys")) eqn:Eak.
  { apply vbool_accept in H. rewrite !andb_true_iff in H. destruct H as [[Hreq Hobj] Hk].
    apply public_keys_rules in Hk. destruct Hk as [Hk1 Hk2].
    apply bytes_eqb_eq in Eak. subst a. cbn.
    destruct v; try discriminate. cbn in Hobj. apply all_objects_map in Hobj.
    repeat split; auto; try constructor. intros ops Hops. discriminate. }
  destruct (bytes_eqb a (B "add-services")) eqn:Eas.
  { apply bytes_eqb_eq in Eas. subst a. cbn.
    apply vbool_accept in H. rewrite !andb_true_iff in H. destruct H as [[Hreq Hobj] Hs].
    apply services_rules in Hs. destruct Hs as [Hs1 Hs2].
    destruct v; try discriminate. cbn in Hobj. apply all_objects_map in Hobj.
    repeat split; auto; try constructor. intros ops Hops. discriminate. }
  cbn.
  repeat split; try constructor; [|destruct v; reflexivity]. intros ops Hops. discriminate.
Qed.

Lemma validate_patches_rules : forall enabled ps,
  validate_patches_out uri_ok uri_parse enabled ps = VAccept ->
  Forall (patch_rules uri_ok service_endpoints enabled) ps.
Proof.
  intros enabled ps. induction ps as [|p ps IH]; intros H.
  - constructor.
  - cbn in H. destruct (patch_action p) as [a|] eqn:Ea; [|discriminate].
    destruct (mem_bytes a enabled) eqn:Een; [|discriminate].
    destruct (validate_patch_out uri_ok uri_parse p) eqn:Ev; cbn in H; try discriminate.
    constructor; auto.
    unfold patch_rules. split.
    + exists a. split; auto. apply mem_bytes_In. exact Een.
    + exact (validate_patch_rules p Ev).
Qed.

(* C18, validation clause.  An accepted delta has at least one patch, and for every patch: its action is configured and enabled;
   every key entry has a 1-50 byte URL-safe id, a type permitted for each declared purpose (each purpose
   being one of the five allowed ones) and exactly one key-material member; key ids are pairwise
   distinct within the patch; every service entry has a 1-50 byte URL-safe id, a type of 1-30 bytes,
   and ALL its endpoints (a string endpoint, or every string element of an endpoint array) are valid
   URIs; service ids are pairwise distinct; every operation of a JSON patch passed the pointer check
   on "path" and "from"; the raw publicKeys / services arrays consist of exactly these object entries
   (nothing is skipped, commit a4ab443) and the sections of a replace document are absent, null or
   arrays; see also [validated_rules_elems].  (The code checks every string of an endpoint array since commit e1e5aec,
   F9; before, only the first: [old_bad_endpoint_now_rejected].) *)
Theorem validated_rules : forall enabled ps,
  validate_delta_patches uri_ok uri_parse enabled ps = true ->
  ps <> [] /\ Forall (patch_rules uri_ok service_endpoints enabled) ps.
Proof.
  intros enabled ps H. unfold validate_delta_patches, validate_delta_patches_out in H.
  destruct ps as [|p ps]; [discriminate|].
  split; [discriminate|].
  apply validate_patches_rules.
  destruct (validate_patches_out uri_ok uri_parse enabled (p :: ps)); try discriminate. reflexivity.
Qed.

(* the same rules stated over the RAW arrays: every element of a carried publicKeys / services array
   (add-public-keys, add-services, replace) is an object satisfying the key / service rules *)
Definition elem_rules (R : list (bytes * json) -> Prop) (e : json) : Prop := exists m, e = JObj m /\ R m.

Corollary validated_rules_elems : forall enabled ps,
  validate_delta_patches uri_ok uri_parse enabled ps = true ->
  Forall (fun p => Forall (elem_rules key_rules) (patch_key_elems p)
                   /\ Forall (elem_rules (service_rules uri_ok service_endpoints)) (patch_service_elems p)) ps.
Proof.
  intros enabled ps H. apply validated_rules in H. destruct H as [_ H].
  eapply Forall_impl; [|exact H]. intros p Hp.
  destruct Hp as [_ [Hk [_ [Hs [_ [_ [Ek [Es _]]]]]]]]. rewrite Ek, Es. split.
  - apply Forall_forall. intros e He. apply in_map_iff in He. destruct He as [m [Em Hin]].
    exists m. split; [auto|]. eapply Forall_forall in Hk; eauto.
  - apply Forall_forall. intros e He. apply in_map_iff in He. destruct He as [m [Em Hin]].
    exists m. split; [auto|]. eapply Forall_forall in Hs; eauto.
Qed.

End Oracles.

(* The inputs of F9, F12 and F10, each confirmed against the code. *)

(* decidable stand-in for url.ParseRequestURI, exact on the two URIs used here *)
Definition uri_ok_demo (u : bytes) : bool := has_prefix (B "https://") u.
Definition uri_parse_demo (u : bytes) : option bytes := Some u.

(* {"action":"add-services","services":[{"id":"s","type":"t","serviceEndpoint":["https://ok","not a uri"]}]}
   F9: accepted by the code before commit e1e5aec, rejected since *)
Definition bad_endpoint_patch : json :=
  JObj [(B "action", JStr (B "add-services"));
        (B "services", JArr [JObj [(B "id", JStr (B "s")); (B "type", JStr (B "t"));
                                   (B "serviceEndpoint", JArr [JStr (B "https://ok"); JStr (B "not a uri")])]])].

Example old_bad_endpoint_now_rejected :
  validate_delta_patches uri_ok_demo uri_parse_demo all_actions [bad_endpoint_patch] = false.
Proof. reflexivity. Qed.

(* F12: {"action":"add-public-keys","publicKeys":["junk"]} was accepted by the code before commit a4ab443 (the entry
   was skipped, so it escaped every rule); it is rejected since, as are ill-typed replace sections *)
Definition replace_patch (doc : json) : json := JObj [(B "action", JStr (B "replace")); (B "document", doc)].

Example non_object_entries_now_rejected :
  validate_patch uri_ok_demo uri_parse_demo
    (JObj [(B "action", JStr (B "add-public-keys")); (B "publicKeys", JArr [JStr (B "junk")])]) = false
  /\ validate_patch uri_ok_demo uri_parse_demo
    (JObj [(B "action", JStr (B "add-public-keys")); (B "publicKeys", JArr [ex_key; JNum 1])]) = false
  /\ validate_patch uri_ok_demo uri_parse_demo
    (JObj [(B "action", JStr (B "add-services")); (B "services", JArr [JNull])]) = false
  /\ validate_patch uri_ok_demo uri_parse_demo (replace_patch (JObj [(B "publicKeys", JArr [JStr (B "junk")])])) = false
  /\ validate_patch uri_ok_demo uri_parse_demo (replace_patch (JObj [(B "services", JArr [JNum 1])])) = false
  /\ validate_patch uri_ok_demo uri_parse_demo (replace_patch (JObj [(B "publicKeys", JStr (B "oops"))])) = false.
Proof. repeat split; reflexivity. Qed.

(* {"action":"replace","document":{"publicKeys":null}}: a nil entry passes validateOptionalObjectArray,
   and so do an absent section and an empty array (confirmed on the real code) *)
Example replace_null_or_empty_sections_accepted :
  validate_patch uri_ok_demo uri_parse_demo (replace_patch (JObj [(B "publicKeys", JNull)])) = true
  /\ validate_patch uri_ok_demo uri_parse_demo (replace_patch (JObj [])) = true
  /\ validate_patch uri_ok_demo uri_parse_demo (replace_patch (JObj [(B "publicKeys", JArr []); (B "services", JNull)])) = true.
Proof. repeat split; reflexivity. Qed.

(* F10: {"action":"ietf-json-patch","patches":[{"op":"add","path":null,"value":1}]} made the validator panic
   before commit cb19e9e; since then it is an ordinary rejection, and the JSON-patch path check of the model never
   yields VPanic *)
Example null_path_now_rejected :
  validate_patch_out uri_ok_demo uri_parse_demo
    (JObj [(B "action", JStr (B "ietf-json-patch"));
           (B "patches", JArr [JObj [(B "op", JStr (B "add")); (B "path", JNull); (B "value", JNum 1)]])]) = VReject.
Proof. reflexivity. Qed.

Lemma jsonpatch_ops_never_panic : forall l, jsonpatch_ops_out l <> VPanic.
Proof.
  induction l as [|o l IH]; cbn [jsonpatch_ops_out]; [discriminate|].
  assert (Ho : jsonpatch_op_out o = VAccept \/ jsonpatch_op_out o = VReject).
  { unfold jsonpatch_op_out. destruct o; auto.
    destruct (jlast (B "path") m); auto.
    destruct (pointer_ok _ && _); cbn; auto. }
  destruct Ho as [Ho|Ho]; rewrite Ho; cbn; [exact IH|discriminate].
Qed.

Lemma jsonpatch_paths_never_panic : forall ops, jsonpatch_paths_out ops <> VPanic.
Proof.
  intros ops. unfold jsonpatch_paths_out. destruct ops; try discriminate.
  destruct (forallb _ l); [apply jsonpatch_ops_never_panic|discriminate].
Qed.

(* hypotheses of [validated_rules] hold for a non-trivial delta *)
Example validated_rules_nonvacuous :
  validate_delta_patches uri_ok_demo uri_parse_demo all_actions
    [JObj [(B "action", JStr (B "add-public-keys")); (B "publicKeys", JArr [ex_key])];
     JObj [(B "action", JStr (B "add-services"));
           (B "services", JArr [JObj [(B "id", JStr (B "s")); (B "type", JStr (B "t"));
                                      (B "serviceEndpoint", JArr [JStr (B "https://ok"); JStr (B "https://also-ok")])]])];
     JObj [(B "action", JStr (B "ietf-json-patch"));
           (B "patches", JArr [JObj [(B "op", JStr (B "move")); (B "from", JStr (B "/x")); (B "path", JStr (B "/y"))]])]] = true.
Proof. reflexivity. Qed.

Example validated_rules_elems_nonvacuous :
  patch_key_elems (JObj [(B "action", JStr (B "add-public-keys")); (B "publicKeys", JArr [ex_key])]) = [ex_key]
  /\ patch_key_elems (replace_patch (JObj [(B "publicKeys", JArr [ex_key])])) = [ex_key]
  /\ validate_delta_patches uri_ok_demo uri_parse_demo all_actions
       [replace_patch (JObj [(B "publicKeys", JArr [ex_key])])] = true.
Proof. repeat split; reflexivity. Qed.
