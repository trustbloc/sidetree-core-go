(* C17, round trip over the MODELLED JSON-patch engine.

   Doc/ComposerProofs.v proves  PatchesFromDocument ; ApplyPatches(empty document) = identity  under an assumption
   on the engine ([jp_add_fresh_members]).  Here the assumption is discharged for the model of json-patch v4.1.0
   (Doc/JsonPatch.v, [jp_apply]) as the composer calls it ([ComposerSafety.jp_engine]): a list of
     {"op":"add","path":"/k","value":v}
   with pairwise distinct names k free of '/' and '~' that are not members of the object document m yields exactly
   the members of m followed by the new members, in this order ([engine_add_fresh_members], an equality, stronger than
   the Permutation the round trip needs; the order is the model's - [unfold] emits the slots as they stand, json.Marshal
   of the library's Go map sorts the names - and nothing rests on it).

   ONE CONDITION IS ADDED to [wf_document]: [deep_distinct m], member names are pairwise distinct inside every
   object nested in the document.  The engine decodes the document and the operation values into Go maps (the model:
   [load], last occurrence of a name wins) and encodes them again, so an AST that carries a name twice inside a
   nested object does not come back ([deep_distinct_needed]).  Such ASTs do not denote Go documents
   (document.Document and everything below it are Go maps), so this is a condition on the representation, not a
   gap of the code.  The unrestricted assumption [jp_add_fresh_members] of ComposerProofs is therefore FALSE for the
   engine model ([jp_add_fresh_members_false_for_engine]) and [from_document_roundtrip] cannot be instantiated as
   it stands; the round trip with the assumption restricted to such values is
   [ComposerProofs.from_document_roundtrip_on], restated here as [from_document_roundtrip_Q].

   [wf_document] already excludes the member names for which the round trip fails in the real code and in the model
   ('/' and '~' are not escaped by PatchesFromDocument): [name_plain_needed]. *)
From Coq Require Import List NArith Bool String Lia Permutation PeanoNat.
From SV Require Import Base.Bytes Json.Ast Doc.JsonPatch Doc.JsonPatchProofs Doc.Validator Doc.ValidatorProofs
  Doc.Composer Doc.ComposerProofs Doc.ComposerSafety.
Import ListNotations.

Lemma name_plain_cons : forall c k, name_plain (c :: k) = true ->
  Byte.eqb c slash = false /\ Byte.eqb c b_tilde = false /\ name_plain k = true.
Proof.
  intros c k H. unfold name_plain in H. cbn [forallb] in H. apply andb_true_iff in H. destruct H as [H1 H2].
  apply andb_true_iff in H1. destruct H1 as [Hs Ht]. apply negb_true_iff in Hs. apply negb_true_iff in Ht.
  split; [exact Hs|]. split; [exact Ht|exact H2].
Qed.

Lemma split_slash_plain : forall k, name_plain k = true -> split_slash k = [k].
Proof.
  induction k as [|c k IH]; intro H; [reflexivity|].
  destruct (name_plain_cons c k H) as [Hs [_ Hk]]. cbn [split_slash]. rewrite Hs, (IH Hk). reflexivity.
Qed.

Lemma decode_key_name_plain : forall k, name_plain k = true -> decode_key k = k.
Proof.
  induction k as [|c k IH]; intro H; [reflexivity|].
  destruct (name_plain_cons c k H) as [_ [Ht Hk]]. rewrite (decode_key_plain c k Ht), (IH Hk). reflexivity.
Qed.

Lemma decode_pointer_plain : forall k, name_plain k = true -> decode_pointer (bs "/" ++ k) = Some [k].
Proof.
  intros k H. unfold decode_pointer. change (bs "/" ++ k) with (slash :: k). cbn [split_slash].
  change (Byte.eqb slash slash) with true. cbv iota. rewrite (split_slash_plain k H). cbn [map].
  rewrite (decode_key_name_plain k H). reflexivity.
Qed.

Lemma find_object_top : forall h root k, name_plain k = true ->
  find_object h root (bs "/" ++ k) = JsonPatch.ROk (root, k).
Proof. intros h root k H. unfold find_object. rewrite (decode_pointer_plain k H). reflexivity. Qed.

(* the decoded form of [jp_add_op k v] *)
Definition add_op (kv : bytes * json) : op :=
  {| o_kind := bs "add"; o_path := bs "/" ++ fst kv; o_from := unknown_str; o_value := Some (snd kv) |}.

Lemma decode_op_add : forall kv, decode_op (jp_op kv) = Some (add_op kv).
Proof. intros [k v]. reflexivity. Qed.

Lemma decode_ops_adds : forall kvs, decode_ops (map jp_op kvs) = Some (map add_op kvs).
Proof.
  induction kvs as [|kv r IH]; [reflexivity|]. cbn [map decode_ops]. rewrite decode_op_add, IH. reflexivity.
Qed.

Lemma unfold_members_nil : forall f h, unfold_members f h [] = Some [].
Proof. reflexivity. Qed.

Lemma unfold_members_cons : forall f h k x rest,
  unfold_members f h ((k, x) :: rest) =
  match unfold f h x, unfold_members f h rest with
  | Some j, Some js => Some ((k, j) :: js)
  | _, _ => None
  end.
Proof. reflexivity. Qed.

Lemma unfold_members_app : forall f h a b ja jb,
  unfold_members f h a = Some ja -> unfold_members f h b = Some jb -> unfold_members f h (a ++ b) = Some (ja ++ jb).
Proof.
  induction a as [|[k x] a IH]; intros b ja jb Ha Hb.
  - rewrite unfold_members_nil in Ha. inversion Ha. exact Hb.
  - cbn [app]. rewrite unfold_members_cons in *. destruct (unfold f h x) as [j|]; [|discriminate Ha].
    destruct (unfold_members f h a) as [ja'|] eqn:Ea; [|discriminate Ha]. inversion Ha; subst ja.
    rewrite (IH b ja' jb eq_refl Hb). reflexivity.
Qed.

Lemma unfold_members_frame : forall S h h', closed S h -> (forall r, S r = true -> node_at h' r = node_at h r) ->
  forall f l, Forall (vprot S) (map snd l) -> unfold_members f h' l = unfold_members f h l.
Proof.
  intros S h h' Hcl Hsame f. induction l as [|[k x] l IH]; intro HF; [reflexivity|].
  cbn [map snd] in HF. inversion HF as [|? ? Hx Hl]; subst.
  rewrite !unfold_members_cons. rewrite (unfold_frame S h h' Hcl Hsame f x Hx), (IH Hl). reflexivity.
Qed.

(* a name that is absent from the marshalled members is absent from the node *)
Lemma hget_none_unfold : forall f h rm js k,
  unfold_members f h rm = Some js -> jget k js = None -> hget k rm = None.
Proof.
  induction rm as [|[k0 x] rm IH]; intros js k Hu Hj; [reflexivity|].
  rewrite unfold_members_cons in Hu. destruct (unfold f h x) as [j|]; [|discriminate Hu].
  destruct (unfold_members f h rm) as [js'|] eqn:E; [|discriminate Hu]. inversion Hu; subst js.
  cbn [jget hget] in *. destruct (bytes_eqb k k0); [discriminate Hj|]. exact (IH js' k eq_refl Hj).
Qed.

Lemma hset_absent : forall k v m, hget k m = None -> hset k v m = m ++ [(k, v)].
Proof.
  induction m as [|[k' v'] m IH]; intro H; cbn [hset hget app] in *; [reflexivity|].
  destruct (bytes_eqb k k'); [discriminate H|]. rewrite (IH H). reflexivity.
Qed.

Lemma NoDup_nodup_bytes : forall l, NoDup l -> nodup_bytes l = true.
Proof.
  induction l as [|x r IH]; intro H; [reflexivity|]. inversion H as [|? ? Hx Hr]; subst.
  cbn [nodup_bytes]. rewrite (IH Hr). destruct (mem_bytes x r) eqn:E; [|reflexivity].
  exfalso. apply Hx. apply mem_bytes_In. exact E.
Qed.

Lemma wf_members_Forall : forall m, wf_members m = true <-> Forall (fun kv => wf (snd kv) = true) m.
Proof.
  induction m as [|[k x] m IH]; cbn [wf_members]; [split; [constructor|reflexivity]|].
  rewrite andb_true_iff, IH, Forall_cons_iff. reflexivity.
Qed.

Section Adds.
Variable root : nat.

(* every container node but the root, below [n] *)
Definition Sn (n r : nat) : bool := Nat.ltb r n && negb (Nat.eqb r root).

Lemma Sn_true : forall n r, Sn n r = true <-> (r < n)%nat /\ r <> root.
Proof.
  intros n r. unfold Sn. rewrite andb_true_iff, negb_true_iff, Nat.ltb_lt, Nat.eqb_neq. tauto.
Qed.

Lemma vprot_mono : forall n n' v, (n <= n')%nat -> vprot (Sn n) v -> vprot (Sn n') v.
Proof.
  intros n n' [| | |r] Hle H; cbn [vprot] in *; auto. apply Sn_true in H. apply Sn_true. lia.
Qed.

Lemma vfresh_vprot : forall lo hi n v,
  (root < lo \/ hi <= root)%nat -> (hi <= n)%nat -> vfresh lo hi v -> vprot (Sn n) v.
Proof. intros lo hi n [| | |r] Hlo Hn H; cbn [vprot vfresh] in *; auto. apply Sn_true. lia. Qed.

(* [rm]: the slots of the root object; [js]: what they marshal to.  No other node refers to the root, so the root
   can be rewritten without changing what the other nodes marshal to. *)
Record RInv (h : heap) (rm : list (bytes * hval)) (js : list (bytes * json)) : Prop := {
  ri_root : (root < List.length h)%nat;
  ri_node : node_at h root = CDoc rm;
  ri_closed : closed (Sn (List.length h)) h;
  ri_slots : Forall (vprot (Sn (List.length h))) (map snd rm);
  ri_unfold : forall f, (List.length h <= f)%nat -> unfold_members f h rm = Some js }.

Lemma closed_extend : forall h ext,
  (root < List.length h)%nat -> closed (Sn (List.length h)) h ->
  ext_ok (List.length h) (List.length (h ++ ext)) ext ->
  closed (Sn (List.length (h ++ ext))) (h ++ ext).
Proof.
  intros h ext Hroot Hcl Hext r Hr. apply Sn_true in Hr. destruct Hr as [Hlt Hne].
  assert (Hlen : (List.length h <= List.length (h ++ ext))%nat) by (rewrite app_length; lia).
  apply children_app.
  - intro Hr. eapply Forall_impl; [|exact (Hcl r (proj2 (Sn_true _ r) (conj Hr Hne)))].
    intros v. apply vprot_mono. exact Hlen.
  - exact (ext_ok_impl _ _ _ _ (fun v => vfresh_vprot _ _ _ v (or_introl Hroot) (Nat.le_refl _)) Hext).
Qed.

(* the node the operation value becomes *)
Lemma value_node_add : forall h kv hv h1,
  value_node (add_op kv) h = (hv, h1) -> wf (snd kv) = true ->
  exists ext, h1 = h ++ ext /\ vfresh (List.length h) (List.length h1) hv
              /\ ext_ok (List.length h) (List.length h1) ext
              /\ forall f, (List.length h1 <= f)%nat -> unfold f h1 hv = Some (snd kv).
Proof.
  intros h [k v] hv h1 Hv Hwf. destruct (value_node_spec _ h hv h1 Hv) as [ext [He [Hf Hext]]].
  exists ext. split; [exact He|]. split; [exact (Forall_inv Hf)|]. split; [exact Hext|]. intros f Hle.
  unfold value_node in Hv. cbn [o_value add_op snd] in *.
  destruct v; try (apply (RT_all _ Hwf h hv h1 Hv h1 f); [exists []; rewrite app_nil_r; reflexivity|exact Hle]).
  inversion Hv. destruct f; reflexivity.
Qed.

(* one  {"op":"add","path":"/k","value":v}  with a fresh plain name appends the member *)
Lemma add_step : forall h rm js kv,
  RInv h rm js -> name_plain (fst kv) = true -> jget (fst kv) js = None -> wf (snd kv) = true ->
  exists h' hv, apply_op h root (add_op kv) = JsonPatch.ROk h' /\ RInv h' (rm ++ [(fst kv, hv)]) (js ++ [kv]).
Proof.
  intros h rm js kv HI Hplain Hfresh Hwf.
  destruct HI as [Hroot Hnode Hcl Hslots Hunf].
  destruct (value_node (add_op kv) h) as [hv h1] eqn:Ev.
  destruct (value_node_add h kv hv h1 Ev Hwf) as [ext [He [Hfr [Hext Hunfv]]]].
  assert (Hlen : (List.length h <= List.length h1)%nat) by (subst h1; rewrite app_length; lia).
  assert (Hnode1 : node_at h1 root = CDoc rm) by (subst h1; rewrite node_at_app_old by exact Hroot; exact Hnode).
  assert (Habs : hget (fst kv) rm = None).
  { exact (hget_none_unfold _ h rm js (fst kv) (Hunf _ (Nat.le_refl _)) Hfresh). }
  set (c := CDoc (rm ++ [(fst kv, hv)])).
  exists (put h1 root c), hv. split.
  - unfold apply_op. change (kind_is (add_op kv) "add") with true. cbv iota.
    unfold op_add. change (o_path (add_op kv)) with (bs "/" ++ fst kv).
    rewrite (find_object_top h root (fst kv) Hplain). cbn [rbind]. rewrite Ev. rewrite Hnode1.
    cbn [c_add rbind]. rewrite (hset_absent _ _ _ Habs). reflexivity.
  - assert (Hcl1 : closed (Sn (List.length h1)) h1).
    { subst h1. apply closed_extend; assumption. }
    assert (Hsame : forall r, Sn (List.length h1) r = true -> node_at (put h1 root c) r = node_at h1 r).
    { intros r Hr. apply Sn_true in Hr. apply node_at_put_neq. intro E. apply (proj2 Hr). symmetry. exact E. }
    assert (Hslots1 : Forall (vprot (Sn (List.length h1))) (map snd (rm ++ [(fst kv, hv)]))).
    { rewrite map_app. apply Forall_app. split.
      - eapply Forall_impl; [|exact Hslots]. intro v. apply vprot_mono. exact Hlen.
      - cbn [map snd]. constructor; [|constructor]. exact (vfresh_vprot _ _ _ _ (or_introl Hroot) (Nat.le_refl _) Hfr). }
    constructor; rewrite ?length_put.
    + lia.
    + apply node_at_put_eq. lia.
    + intros r Hr. rewrite (Hsame r Hr). exact (Hcl1 r Hr).
    + exact Hslots1.
    + intros f Hf.
      rewrite (unfold_members_frame _ h1 (put h1 root c) Hcl1 Hsame f _ Hslots1).
      apply unfold_members_app.
      * assert (Hsame0 : forall r, Sn (List.length h) r = true -> node_at h1 r = node_at h r).
        { intros r Hr. apply Sn_true in Hr. subst h1. apply node_at_app_old. lia. }
        rewrite (unfold_members_frame _ h h1 Hcl Hsame0 f rm Hslots). apply Hunf. lia.
      * rewrite unfold_members_cons. rewrite (Hunfv f Hf). rewrite unfold_members_nil.
        destruct kv as [k v]. reflexivity.
Qed.

Lemma add_steps : forall kvs h rm js,
  RInv h rm js ->
  Forall (fun kv => name_plain (fst kv) = true) kvs -> NoDup (map fst kvs) ->
  (forall k, In k (map fst kvs) -> jget k js = None) ->
  Forall (fun kv => wf (snd kv) = true) kvs ->
  exists h' rm', apply_ops h root (map add_op kvs) = JsonPatch.ROk h' /\ RInv h' rm' (js ++ kvs).
Proof.
  induction kvs as [|kv r IH]; intros h rm js HI Hpl Hnd Hfresh Hwf.
  - exists h, rm. rewrite app_nil_r. split; [reflexivity|exact HI].
  - inversion Hpl as [|? ? Hp1 Hpr]; subst. inversion Hwf as [|? ? Hw1 Hwr]; subst.
    cbn [map fst] in Hnd. inversion Hnd as [|? ? Hk Hndr]; subst.
    destruct (add_step h rm js kv HI Hp1 (Hfresh _ (or_introl eq_refl)) Hw1) as [h1 [hv [Hop HI1]]].
    destruct (IH h1 _ _ HI1 Hpr Hndr) as [h' [rm' [Hops HI']]].
    + intros k Hin. destruct kv as [k0 v0]. apply jget_none_app.
      * apply Hfresh. right. exact Hin.
      * intro E. subst k0. contradiction.
    + exact Hwr.
    + exists h', rm'. cbn [map apply_ops]. rewrite Hop. cbn [rbind]. split; [exact Hops|].
      rewrite <- app_assoc in HI'. exact HI'.
Qed.
End Adds.

(* the freshly loaded object document satisfies the invariant *)
Lemma loaded_RInv : forall m ms H,
  load_members m [] = (ms, H) -> NoDup (map fst m) -> Forall (fun kv => wf (snd kv) = true) m ->
  RInv (List.length H) (H ++ [CDoc ms]) ms m.
Proof.
  intros m ms H Hl Hnd Hwf.
  destruct (load_members_spec m [] ms H Hl) as [ext [He [Hvs Hext]]]. cbn [app List.length] in He, Hvs, Hext.
  subst ext.
  assert (Hlen : List.length (H ++ [CDoc ms]) = S (List.length H)) by (rewrite app_length; cbn; lia).
  constructor; rewrite ?Hlen.
  - lia.
  - apply node_at_app_last.
  - intros r Hr. apply Sn_true in Hr. rewrite node_at_app_old by lia.
    change H with ([] ++ H). apply children_app; [cbn; lia|].
    exact (ext_ok_impl _ _ _ _ (fun v => vfresh_vprot _ _ _ _ v (or_intror (Nat.le_refl _)) (Nat.le_succ_diag_r _)) Hext).
  - eapply Forall_impl; [|exact Hvs]. intro v. apply vfresh_vprot; lia.
  - intros f Hf.
    apply (RT_members m) with (h := []) (ha := H).
    + apply Forall_forall. intros kv _. apply RT_all.
    + apply NoDup_nodup_bytes. exact Hnd.
    + apply wf_members_Forall. exact Hwf.
    + exact Hl.
    + exists [CDoc ms]. reflexivity.
    + lia.
Qed.

(* values whose nested objects have pairwise distinct member names *)
Definition deep_distinct (m : list (bytes * json)) : Prop := Forall (fun kv => wf (snd kv) = true) m.

Theorem jp_apply_add_fresh_members : forall kvs m,
  NoDup (map fst m) -> deep_distinct m -> deep_distinct kvs ->
  Forall (fun kv => name_plain (fst kv) = true) kvs -> NoDup (map fst kvs) ->
  (forall k, In k (map fst kvs) -> jget k m = None) ->
  jp_apply (JArr (map jp_op kvs)) (JObj m) = Ok (JObj (m ++ kvs)).
Proof.
  intros kvs m Hndm Hwfm Hwfk Hpl Hndk Hfresh.
  destruct (load_root_obj m) as [ms [H [Hl Hroot]]].
  unfold jp_apply. cbn [decode_patch]. rewrite decode_ops_adds, Hroot.
  pose proof (loaded_RInv m ms H Hl Hndm Hwfm) as HI.
  destruct (add_steps (List.length H) kvs _ _ _ HI Hpl Hndk Hfresh Hwfk) as [h' [rm' [Hops HI']]].
  rewrite Hops. rewrite unfold_ref. rewrite (ri_node _ _ _ _ HI').
  rewrite (ri_unfold _ _ _ _ HI' (List.length h') (Nat.le_refl _)). reflexivity.
Qed.

(* the composer's view of the engine *)
Theorem engine_add_fresh_members : forall kvs m,
  NoDup (map fst m) -> deep_distinct m -> deep_distinct kvs ->
  Forall (fun kv => name_plain (fst kv) = true) kvs -> NoDup (map fst kvs) ->
  (forall k, In k (map fst kvs) -> jget k m = None) ->
  jp_engine (JArr (map jp_op kvs)) (JObj m) = Some (JObj (m ++ kvs)).
Proof.
  intros kvs m H1 H2 H3 H4 H5 H6. unfold jp_engine, apply_json_outcome.
  rewrite (jp_apply_add_fresh_members kvs m H1 H2 H3 H4 H5 H6). reflexivity.
Qed.

Section RoundTripQ.
  Variable jp : json -> json -> option json.
  Variable Q : json -> Prop.

  Definition allQ (m : list (bytes * json)) : Prop := Forall (fun kv => Q (snd kv)) m.

  (* [jp_add_fresh_members] of ComposerProofs, for documents and values in [Q] with distinct top-level names *)
  Hypothesis jp_add_fresh_members_Q : forall kvs m,
    NoDup (map fst m) -> allQ m -> allQ kvs ->
    Forall (fun kv => name_plain (fst kv) = true) kvs -> NoDup (map fst kvs) ->
    (forall k, In k (map fst kvs) -> jget k m = None) ->
    exists m', jp (JArr (map jp_op kvs)) (JObj m) = Some (JObj m') /\ Permutation m' (m ++ kvs).

  Theorem from_document_roundtrip_Q : forall m,
    wf_document m -> allQ m ->
    exists ps m', patches_from_document (JObj m) = Some ps
                  /\ apply_patches jp (JObj []) ps = Some (JObj m') /\ Permutation m' m.
  Proof. exact (from_document_roundtrip_on jp Q jp_add_fresh_members_Q). Qed.
End RoundTripQ.

(* A well-formed document whose nested objects have pairwise distinct member names, converted to patches and
   applied to the empty document by the composer over the modelled engine, gives back a document with exactly the
   same members.  No assumption on the engine is left. *)
Theorem from_document_roundtrip_engine : forall m,
  wf_document m -> deep_distinct m ->
  exists ps m', patches_from_document (JObj m) = Some ps
                /\ apply_patches jp_engine (JObj []) ps = Some (JObj m') /\ Permutation m' m.
Proof.
  intros m Hwf Hdd. apply (from_document_roundtrip_Q jp_engine (fun v => wf v = true)); [|exact Hwf|exact Hdd].
  intros kvs acc H1 H2 H3 H4 H5 H6. exists (acc ++ kvs). split; [|apply Permutation_refl].
  exact (engine_add_fresh_members kvs acc H1 H2 H3 H4 H5 H6).
Qed.

Theorem from_document_roundtrip_equiv_engine : forall m,
  wf_document m -> deep_distinct m ->
  exists ps d', patches_from_document (JObj m) = Some ps
                /\ apply_patches jp_engine (JObj []) ps = Some d' /\ json_equiv d' (JObj m) = true.
Proof.
  intros m Hwf Hdd. destruct (from_document_roundtrip_engine m Hwf Hdd) as [ps [m' [H1 [H2 H3]]]].
  exists ps, (JObj m'). split; [exact H1|]. split; [exact H2|].
  apply perm_members_equiv; [exact (proj1 Hwf)|exact H3].
Qed.

(* the three-valued run does not panic on the way and agrees *)
Corollary from_document_roundtrip_engine_r : forall m,
  wf_document m -> deep_distinct m ->
  exists ps m', patches_from_document (JObj m) = Some ps
                /\ apply_patches_r jp_engine (JObj []) ps = Composer.ROk (JObj m') /\ Permutation m' m.
Proof.
  intros m Hwf Hdd. destruct (from_document_roundtrip_engine m Hwf Hdd) as [ps [m' [H1 [H2 H3]]]].
  exists ps, m'. split; [exact H1|]. split; [|exact H3].
  rewrite apply_patches_res in H2. destruct (apply_patches_r jp_engine (JObj []) ps) as [d| |]; try discriminate H2.
  inversion H2. reflexivity.
Qed.

(* the bool [wf] of JsonPatchProofs on the whole document gives [deep_distinct] *)
Lemma wf_deep_distinct : forall m, wf (JObj m) = true -> deep_distinct m.
Proof. intros m H. rewrite wf_obj in H. apply andb_true_iff in H. apply wf_members_Forall, H. Qed.

Definition ex_k (id : string) : json := JObj [(k_id, JStr (bs id)); (bs "type", JStr (bs "t"))].

Definition ex_m : list (bytes * json) :=
  [(bs "zeta", JObj [(bs "n", JNull); (bs "l", JArr [jn 1; JObj [(bs "q", JStr (bs "v"))]])]);
   (d_service, JArr [ex_k "s1"]);
   (bs "", JBool true);
   (d_alsoKnownAs, JArr [JStr (bs "u1"); JStr (bs "u2")]);
   (bs "alpha", JNull);
   (d_publicKey, JArr [ex_k "k1"; ex_k "k2"])].

Example ex_m_wf : wf_document ex_m /\ deep_distinct ex_m.
Proof.
  split; [|apply wf_deep_distinct; vm_compute; reflexivity].
  split; [apply nodup_bytes_NoDup; vm_compute; reflexivity|]. split; [vm_compute; reflexivity|].
  unfold ex_m. repeat constructor.
  - exists [ex_k "s1"]. split; [reflexivity|]. split; [discriminate|]. split; [repeat constructor|].
    apply nodup_bytes_NoDup. vm_compute. reflexivity.
  - exists [bs "u1"; bs "u2"]. split; [reflexivity|]. split; [discriminate|].
    apply nodup_bytes_NoDup. vm_compute. reflexivity.
  - exists [ex_k "k1"; ex_k "k2"]. split; [reflexivity|]. split; [discriminate|]. split; [repeat constructor|].
    apply nodup_bytes_NoDup. vm_compute. reflexivity.
Qed.

(* the round trip computed: sections first (sorted), then the other members in sorted order *)
Example ex_m_roundtrip :
  match patches_from_document (JObj ex_m) with
  | Some ps =>
    apply_patches jp_engine (JObj []) ps
    = Some (JObj [(d_alsoKnownAs, JArr [JStr (bs "u1"); JStr (bs "u2")]);
                  (d_publicKey, JArr [ex_k "k1"; ex_k "k2"]);
                  (d_service, JArr [ex_k "s1"]);
                  (bs "", JBool true);
                  (bs "alpha", JNull);
                  (bs "zeta", JObj [(bs "n", JNull); (bs "l", JArr [jn 1; JObj [(bs "q", JStr (bs "v"))]])])])
    /\ List.length ps = 4%nat
  | None => False
  end.
Proof. vm_compute. split; reflexivity. Qed.

(* [deep_distinct] is needed: a name twice inside a nested object; the engine keeps the last occurrence *)
Definition ex_dup : list (bytes * json) := [(bs "x", JObj [(bs "a", jn 1); (bs "a", jn 2)])].

Example deep_distinct_needed :
  wf_document ex_dup
  /\ match patches_from_document (JObj ex_dup) with
     | Some ps => apply_patches jp_engine (JObj []) ps = Some (JObj [(bs "x", JObj [(bs "a", jn 2)])])
     | None => False
     end
  /\ json_equiv (JObj [(bs "x", JObj [(bs "a", jn 2)])]) (JObj ex_dup) = false.
Proof.
  split; [|split; vm_compute; reflexivity].
  split; [apply nodup_bytes_NoDup; vm_compute; reflexivity|]. split; [vm_compute; reflexivity|].
  unfold ex_dup. repeat constructor.
Qed.

(* so the unrestricted assumption of ComposerProofs.from_document_roundtrip does not hold for the engine model *)
Example jp_add_fresh_members_false_for_engine :
  ~ (forall kvs m,
       Forall (fun kv => name_plain (fst kv) = true) kvs -> NoDup (map fst kvs) ->
       (forall k, In k (map fst kvs) -> jget k m = None) ->
       exists m', jp_engine (JArr (map jp_op kvs)) (JObj m) = Some (JObj m') /\ Permutation m' (m ++ kvs)).
Proof.
  intro H. destruct (H ex_dup []) as [m' [H1 H2]].
  - repeat constructor.
  - apply nodup_bytes_NoDup. vm_compute. reflexivity.
  - intros k _. reflexivity.
  - assert (E : jp_engine (JArr (map jp_op ex_dup)) (JObj []) = Some (JObj [(bs "x", JObj [(bs "a", jn 2)])]))
      by (vm_compute; reflexivity).
    rewrite E in H1. inversion H1; subst m'. cbn [app] in H2.
    apply Permutation_length_1_inv in H2. unfold ex_dup in H2. discriminate H2.
Qed.

(* [name_plain] (part of [wf_document]) is needed: PatchesFromDocument does not escape '/' and '~', so the engine
   reads "/a/b" as member b of member a (absent: error) and "/a~1b" as the member "a/b" *)
Example name_plain_needed :
  match patches_from_document (JObj [(bs "a/b", jn 1)]) with
  | Some ps => apply_patches jp_engine (JObj []) ps = None
  | None => False
  end
  /\ match patches_from_document (JObj [(bs "a~1b", jn 1)]) with
     | Some ps => apply_patches jp_engine (JObj []) ps = Some (JObj [(bs "a/b", jn 1)])
     | None => False
     end.
Proof. split; vm_compute; reflexivity. Qed.

Print Assumptions jp_apply_add_fresh_members.
Print Assumptions from_document_roundtrip_engine.
Print Assumptions from_document_roundtrip_equiv_engine.
Print Assumptions from_document_roundtrip_engine_r.
