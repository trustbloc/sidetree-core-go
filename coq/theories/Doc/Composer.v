(* Patch application (property C17): executable model of
     pkg/versions/1_0/doccomposer/composer.go   (ApplyPatches, applyPatch and the applyXxx functions),
     pkg/patch/patch.go                         (GetAction, GetValue, PatchesFromDocument),
     pkg/document/{document,diddocument,publickey,service,replace}.go (accessor helpers).
   Definitions and examples; proofs are in Doc/ComposerProofs.v.

   Representation
   - a document (Go: document.Document = map[string]interface{}) is a [json]; [JObj m] is a map, [JNull] is the
     nil map (what deepCopy returns for a nil Document and what document.FromBytes returns for the text "null").
     Any other constructor is not representable in Go and is treated like the nil map.
     Member order is not observable in Go; results are compared with [json_equiv].
   - a patch (Go: patch.Patch = map[Key]interface{}) is a [json] object; anything else has no members.
   - a nil []interface{} stored in the document marshals to JSON null and behaves like null for every accessor
     (ParsePublicKeys / ParseServices / StringArray return nil on it), so it is modelled as [JNull]:
     see [arr_or_null].  This is how the code behaves: an add/remove that leaves a section empty stores null, not [].
   - deepCopy is a round trip through encoding/json (numbers are float64 = [JNum bits] already): identity on [json].
   - the ietf-json-patch engine (github.com/evanphx/json-patch) is the section variable [jp_apply].
   - outcomes: [ROk d] (document, nil error), [RErr] (nil, error), [RPanic] (Go run-time panic: assignment to an
     entry of a nil map).  The public [apply_patch]/[apply_patches] map both [RErr] and [RPanic] to [None]. *)
From Coq Require Import List NArith Bool String.
From Coq.Strings Require Import Byte.
From SV Require Import Base.Bytes Json.Ast.
Import ListNotations.

(* ---- constants ---- *)
Definition k_action : bytes := bs "action".
Definition k_id : bytes := bs "id".

Definition a_replace : bytes := bs "replace".
Definition a_add_pk : bytes := bs "add-public-keys".
Definition a_rem_pk : bytes := bs "remove-public-keys".
Definition a_add_svc : bytes := bs "add-services".
Definition a_rem_svc : bytes := bs "remove-services".
Definition a_json : bytes := bs "ietf-json-patch".
Definition a_add_aka : bytes := bs "add-also-known-as".
Definition a_rem_aka : bytes := bs "remove-also-known-as".

(* patch value keys *)
Definition pk_document : bytes := bs "document".
Definition pk_patches : bytes := bs "patches".
Definition pk_publicKeys : bytes := bs "publicKeys".
Definition pk_services : bytes := bs "services".
Definition pk_ids : bytes := bs "ids".
Definition pk_uris : bytes := bs "uris".

(* document member names *)
Definition d_publicKey : bytes := bs "publicKey".
Definition d_service : bytes := bs "service".
Definition d_alsoKnownAs : bytes := bs "alsoKnownAs".

(* patch.actionConfig *)
Definition action_key (a : bytes) : option bytes :=
  if bytes_eqb a a_add_pk then Some pk_publicKeys
  else if bytes_eqb a a_rem_pk then Some pk_ids
  else if bytes_eqb a a_add_svc then Some pk_services
  else if bytes_eqb a a_rem_svc then Some pk_ids
  else if bytes_eqb a a_json then Some pk_patches
  else if bytes_eqb a a_replace then Some pk_document
  else if bytes_eqb a a_add_aka then Some pk_uris
  else if bytes_eqb a a_rem_aka then Some pk_uris
  else None.

Definition members (j : json) : list (bytes * json) :=
  match j with JObj m => m | _ => [] end.

(* Patch.GetAction: missing member, non-string value, or action not in actionConfig -> error *)
Definition patch_action (p : json) : option bytes :=
  match jget k_action (members p) with
  | Some (JStr a) => match action_key a with Some _ => Some a | None => None end
  | _ => None
  end.

(* Patch.GetValue: the member named by actionConfig must be present (its value may be anything, null included) *)
Definition patch_value (p : json) : option json :=
  match patch_action p with
  | None => None
  | Some a =>
    match action_key a with
    | None => None
    | Some k => jget k (members p)
    end
  end.

(* ---- accessor helpers of pkg/document ---- *)

(* stringEntry(m["id"]) : "" when missing or not a string *)
Definition jid (e : json) : bytes :=
  match jget k_id (members e) with
  | Some (JStr s) => s
  | _ => []
  end.

Definition is_obj (j : json) : bool := match j with JObj _ => true | _ => false end.

(* ParsePublicKeys / ParseServices: nil unless a list; elements that are not objects are skipped *)
Definition parse_entries (v : json) : list json :=
  match v with
  | JArr l => filter is_obj l
  | _ => []
  end.

(* StringArray: nil unless a list; elements that are not strings are skipped *)
Fixpoint strings_of (l : list json) : list bytes :=
  match l with
  | [] => []
  | JStr s :: r => s :: strings_of r
  | _ :: r => strings_of r
  end.

Definition string_array (v : json) : list bytes :=
  match v with
  | JArr l => strings_of l
  | _ => []
  end.

Definition bmem (x : bytes) (l : list bytes) : bool := existsb (bytes_eqb x) l.

(* doc[k] ; a missing member reads as nil, i.e. like null *)
Definition doc_get (k : bytes) (d : json) : json :=
  match jget k (members d) with Some v => v | None => JNull end.

Inductive res := ROk (d : json) | RErr | RPanic.

Definition res_opt (r : res) : option json :=
  match r with ROk d => Some d | _ => None end.

(* doc[k] = v ; panics on the nil map *)
Definition doc_set (k : bytes) (v : json) (d : json) : res :=
  match d with
  | JObj m => ROk (JObj (jset k v m))
  | _ => RPanic
  end.

(* a nil slice ([var values []interface{}] never appended to) marshals to null *)
Definition arr_or_null (l : list json) : json :=
  match l with [] => JNull | _ => JArr l end.

(* ---- add / remove on lists of entries ---- *)

(* updateKey / updateService: every element with the same id is overwritten *)
Definition update_entry (cur : list json) (e : json) : list json :=
  map (fun x => if bytes_eqb (jid x) (jid e) then e else x) cur.

(* the loop of applyAddPublicKeys / applyAddServiceEndpoints; [ids] is the key set of existingPublicKeysMap: the ids
   of the entries that were in the document before the patch, plus (since commit 94b5572) the id of every entry
   appended so far by this patch, so an id repeated within one patch overwrites the entry appended earlier *)
Fixpoint add_entries_go (ids : list bytes) (cur : list json) (adds : list json) : list json :=
  match adds with
  | [] => cur
  | e :: r =>
    if bmem (jid e) ids then add_entries_go ids (update_entry cur e) r
    else add_entries_go (ids ++ [jid e]) (cur ++ [e]) r
  end.

Definition add_entries (existing adds : list json) : list json :=
  add_entries_go (map jid existing) existing adds.

Definition remove_entries (existing : list json) (ids : list bytes) : list json :=
  filter (fun e => negb (bmem (jid e) ids)) existing.

(* the loop of applyAddAlsoKnownAs: [ex] is the key set of existingURIs, extended with every URI appended *)
Fixpoint add_uris_go (ex : list bytes) (cur : list bytes) (adds : list bytes) : list bytes :=
  match adds with
  | [] => cur
  | u :: r => if bmem u ex then add_uris_go ex cur r else add_uris_go (ex ++ [u]) (cur ++ [u]) r
  end.

Definition add_uris (existing adds : list bytes) : list bytes := add_uris_go existing existing adds.

Definition remove_uris (existing rem : list bytes) : list bytes :=
  filter (fun u => negb (bmem u rem)) existing.

(* ---- the apply* functions ---- *)

(* applyAddPublicKeys (k = "publicKey") and applyAddServiceEndpoints (k = "service") *)
Definition apply_add_entries (k : bytes) (doc v : json) : res :=
  doc_set k (arr_or_null (add_entries (parse_entries (doc_get k doc)) (parse_entries v))) doc.

(* applyRemovePublicKeys / applyRemoveServiceEndpoints *)
Definition apply_remove_entries (k : bytes) (doc v : json) : res :=
  doc_set k (arr_or_null (remove_entries (parse_entries (doc_get k doc)) (string_array v))) doc.

Definition apply_add_aka (doc v : json) : res :=
  doc_set d_alsoKnownAs
    (arr_or_null (map JStr (add_uris (string_array (doc_get d_alsoKnownAs doc)) (string_array v)))) doc.

Definition apply_remove_aka (doc v : json) : res :=
  doc_set d_alsoKnownAs
    (arr_or_null (map JStr (remove_uris (string_array (doc_get d_alsoKnownAs doc)) (string_array v)))) doc.

(* applyRecover: the value is marshalled and unmarshalled into a map (ReplaceDocumentFromBytes): fails unless it is
   an object or null (null gives the nil map, reading it gives nil).  The new document has exactly the two members
   publicKey and service; absent ones are nil, i.e. null.  Nothing is validated. *)
Definition apply_replace (v : json) : res :=
  match v with
  | JObj m => ROk (JObj [(d_publicKey, doc_get pk_publicKeys v); (d_service, doc_get pk_services v)])
  | JNull => ROk (JObj [(d_publicKey, JNull); (d_service, JNull)])
  | _ => RErr
  end.

Section WithJsonPatch.
  (* ORACLE: github.com/evanphx/json-patch.  [jp_apply patches doc] = DecodePatch(marshal patches) followed by
     Apply(canonical bytes of doc), decoded; [None] when either step fails OR PANICS: since commit 9f6d729 applyJSON
     recovers a panic of the library and returns it as an error. *)
  Variable jp_apply : json (* patch array *) -> json (* doc *) -> option json.

  (* applyJSON: the patched bytes go through document.FromBytes (Unmarshal into a map): object -> that map,
     null -> nil map without error, anything else -> error *)
  Definition apply_json (doc v : json) : res :=
    match jp_apply v doc with
    | Some (JObj m) => ROk (JObj m)
    | Some JNull => ROk JNull
    | _ => RErr
    end.

  Definition apply_patch_r (doc p : json) : res :=
    match patch_action p with
    | None => RErr
    | Some a =>
      match patch_value p with
      | None => RErr
      | Some v =>
        if bytes_eqb a a_replace then apply_replace v
        else if bytes_eqb a a_json then apply_json doc v
        else if bytes_eqb a a_add_pk then apply_add_entries d_publicKey doc v
        else if bytes_eqb a a_rem_pk then apply_remove_entries d_publicKey doc v
        else if bytes_eqb a a_add_svc then apply_add_entries d_service doc v
        else if bytes_eqb a a_rem_svc then apply_remove_entries d_service doc v
        else if bytes_eqb a a_add_aka then apply_add_aka doc v
        else if bytes_eqb a a_rem_aka then apply_remove_aka doc v
        else RErr
      end
    end.

  (* ApplyPatches: deepCopy (identity) then the patches in order; the first failure aborts *)
  Fixpoint apply_patches_r (doc : json) (ps : list json) : res :=
    match ps with
    | [] => ROk doc
    | p :: r =>
      match apply_patch_r doc p with
      | ROk d => apply_patches_r d r
      | e => e
      end
    end.

  Definition apply_patch (doc p : json) : option json := res_opt (apply_patch_r doc p).

  Fixpoint apply_patches (doc : json) (ps : list json) : option json :=
    match ps with
    | [] => Some doc
    | p :: r =>
      match apply_patch doc p with
      | Some d => apply_patches d r
      | None => None
      end
    end.
End WithJsonPatch.

(* ---- patch.PatchesFromDocument, on the decoded document ---- *)

Definition mk_patch (action key : bytes) (v : json) : json :=
  JObj [(k_action, JStr action); (key, v)].

(* one element of the combined JSON patch:  { "op": "add", "path": "/<member>", "value": <v> } *)
Definition jp_add_op (k : bytes) (v : json) : json :=
  JObj [(bs "op", JStr (bs "add")); (bs "path", JStr (bs "/" ++ k)); (bs "value", v)].

(* top-level members sorted bytewise by name (sort.Strings) *)
Fixpoint sort_members (m : list (bytes * json)) : list (bytes * json) :=
  match m with
  | [] => []
  | (k, v) :: r => insert_member k v (sort_members r)
  end.

(* getStringArray: json.Unmarshal into []string.  A list whose elements are strings or null (null leaves the zero
   value "") ; anything else is an error.  NewAddAlsoKnownAs also rejects the empty result. *)
Fixpoint uris_of_list (l : list json) : option (list bytes) :=
  match l with
  | [] => Some []
  | JStr s :: r => match uris_of_list r with Some x => Some (s :: x) | None => None end
  | JNull :: r => match uris_of_list r with Some x => Some ([] :: x) | None => None end
  | _ => None
  end.

Definition uris_of (v : json) : option (list bytes) :=
  match v with
  | JArr l =>
    match uris_of_list l with
    | Some [] => None
    | o => o
    end
  | _ => None      (* null: empty -> "missing also known as uris"; other types: unmarshal error *)
  end.

(* The member name becomes the JSON-pointer path "/" ++ name of an "add" operation; it is written into the JSON text of the
   generated patch as a JSON STRING (json.Marshal) and parsed again, so every name denotes itself there.  (Until the repair
   5d68dd6, defect F17, the name was pasted unescaped between double quotes: a name with a quote, a backslash or a control
   byte made the call fail or - injection - build a DIFFERENT patch.)  [key_plain] says that a name has none of those
   bytes, i.e. is one that the code before 5d68dd6 handled as well; nothing in the model tests it.  '/' and '~' are not
   JSON-pointer-escaped ([name_plain] in ComposerProofs.v - the property's own premise). *)
Definition key_plain (k : bytes) : bool :=
  forallb (fun b => let n := Byte.to_N b in (32 <=? n)%N && negb (n =? 34)%N && negb (n =? 92)%N) k.

(* returns (document patches, json patch elements) for the members in the given order *)
Fixpoint pfd_go (ms : list (bytes * json)) : option (list json * list json) :=
  match ms with
  | [] => Some ([], [])
  | (k, v) :: r =>
    match pfd_go r with
    | None => None
    | Some (dps, jps) =>
      if bytes_eqb k d_publicKey then Some (mk_patch a_add_pk pk_publicKeys v :: dps, jps)
      else if bytes_eqb k d_service then Some (mk_patch a_add_svc pk_services v :: dps, jps)
      else if bytes_eqb k d_alsoKnownAs then
        match uris_of v with
        | Some us => Some (mk_patch a_add_aka pk_uris (JArr (map JStr us)) :: dps, jps)
        | None => None
        end
      else Some (dps, jp_add_op k v :: jps)
    end
  end.

(* validateDocument: doc.ID() != "" is rejected *)
Definition has_id (d : json) : bool :=
  match jid d with [] => false | _ => true end.

Definition patches_from_document (d : json) : option (list json) :=
  match d with
  | JObj m =>
    if has_id d then None
    else
      match pfd_go (sort_members m) with
      | None => None
      | Some (dps, []) => Some dps
      | Some (dps, jps) => Some (dps ++ [mk_patch a_json pk_patches (JArr jps)])
      end
  | JNull => Some []          (* "null" decodes to the nil map: no members, no patches *)
  | _ => None                 (* document.FromBytes fails *)
  end.

(* ---- specification: ordered maps keyed by id ---- *)

Definition omap (V : Type) := list (bytes * V).

Fixpoint omap_mem {V} (k : bytes) (m : omap V) : bool :=
  match m with
  | [] => false
  | (k', _) :: r => bytes_eqb k k' || omap_mem k r
  end.

(* replace in place when the key is present, append otherwise *)
Fixpoint omap_add {V} (k : bytes) (v : V) (m : omap V) : omap V :=
  match m with
  | [] => [(k, v)]
  | (k', v') :: r => if bytes_eqb k k' then (k, v) :: r else (k', v') :: omap_add k v r
  end.

Fixpoint omap_remove {V} (k : bytes) (m : omap V) : omap V :=
  match m with
  | [] => []
  | (k', v') :: r => if bytes_eqb k k' then omap_remove k r else (k', v') :: omap_remove k r
  end.

Definition omap_add_all (es : list json) (m : omap json) : omap json :=
  fold_left (fun m e => omap_add (jid e) e m) es m.

Definition omap_add_uris (us : list bytes) (m : omap unit) : omap unit :=
  fold_left (fun m u => omap_add u tt m) us m.

Definition omap_remove_all {V} (ks : list bytes) (m : omap V) : omap V :=
  fold_left (fun m k => omap_remove k m) ks m.

(* abstraction of the three sections *)
Definition abs_entries (section : json) : omap json := map (fun e => (jid e, e)) (parse_entries section).
Definition abs_uris (section : json) : omap unit := map (fun u => (u, tt)) (string_array section).

Record doc_abs := { da_keys : omap json; da_services : omap json; da_aka : omap unit }.

Definition abs_doc (d : json) : doc_abs :=
  {| da_keys := abs_entries (doc_get d_publicKey d);
     da_services := abs_entries (doc_get d_service d);
     da_aka := abs_uris (doc_get d_alsoKnownAs d) |}.

(* ---- examples ---- *)
Definition jp_none (p d : json) : option json := None.

Definition ex_key (id : string) (t : string) : json := JObj [(k_id, JStr (bs id)); (bs "type", JStr (bs t))].

Example ex_add_append :
  apply_patches jp_none (JObj [])
    [mk_patch a_add_pk pk_publicKeys (JArr [ex_key "k1" "a"; ex_key "k2" "b"])]
  = Some (JObj [(d_publicKey, JArr [ex_key "k1" "a"; ex_key "k2" "b"])]).
Proof. vm_compute. reflexivity. Qed.

Example ex_add_replace_in_place :
  apply_patches jp_none (JObj [(d_publicKey, JArr [ex_key "k1" "a"; ex_key "k2" "b"])])
    [mk_patch a_add_pk pk_publicKeys (JArr [ex_key "k1" "c"; ex_key "k3" "d"])]
  = Some (JObj [(d_publicKey, JArr [ex_key "k1" "c"; ex_key "k2" "b"; ex_key "k3" "d"])]).
Proof. vm_compute. reflexivity. Qed.

(* removing the last key leaves null, not [] *)
Example ex_remove_all :
  apply_patches jp_none (JObj [(d_publicKey, JArr [ex_key "k1" "a"])])
    [mk_patch a_rem_pk pk_ids (JArr [JStr (bs "k1"); JStr (bs "zz")])]
  = Some (JObj [(d_publicKey, JNull)]).
Proof. vm_compute. reflexivity. Qed.

(* the same id twice in one patch: the later entry replaces the one appended earlier, at its position *)
Example ex_dup_in_patch :
  apply_patches jp_none (JObj [])
    [mk_patch a_add_pk pk_publicKeys (JArr [ex_key "k1" "a"; ex_key "k2" "x"; ex_key "k1" "b"])]
  = Some (JObj [(d_publicKey, JArr [ex_key "k1" "b"; ex_key "k2" "x"])]).
Proof. vm_compute. reflexivity. Qed.

Example ex_atomic_fail :
  apply_patches jp_none (JObj [])
    [mk_patch a_add_pk pk_publicKeys (JArr [ex_key "k1" "a"]); JObj [(k_action, JStr (bs "nope"))]] = None.
Proof. vm_compute. reflexivity. Qed.

(* nil document: the first write panics *)
Example ex_nil_doc_panics :
  apply_patches_r jp_none JNull [mk_patch a_add_pk pk_publicKeys (JArr [])] = RPanic.
Proof. vm_compute. reflexivity. Qed.
