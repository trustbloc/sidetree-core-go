(* C18: applying any accepted delta to any reachable document returns a document or an error; the composer never
   panics.

   What the model of doccomposer.ApplyPatches (Doc/Composer.v) needs in order not to panic.  The only panic of the
   composer model is [doc_set] on something that is not an object: "assignment to entry in nil map" on the nil
   document.  The accessors (ParsePublicKeys / ParseServices / StringArray = [parse_entries] / [string_array]) are
   total: a section that is absent, null, not a list, or a list with elements of the wrong type is read as the
   list of its well-typed elements.  So NOTHING about the shape of the sections is needed, only that the document is
   an object ([is_obj]).  The set-actions and replace always return an object; the one way to get the nil document
   is the ietf-json-patch action when the engine hands back the text "null" ([apply_json]: [Some JNull] -> [ROk
   JNull]).  Hence the hypothesis on an abstract engine is [jp_keeps_obj]: on an object document the engine never
   answers null (a panic of the engine is already an error in the model: [None]).  It is needed
   ([engine_hypothesis_needed]) and it holds for the modelled engine ([jp_engine_keeps_obj]): json-patch v4.1.0
   cannot replace the root (a pointer without "/" is an error), so an object stays an object.

   The validation hypothesis of the statements is not used by the proofs: panic freedom holds for every list of
   patches ([apply_patches_r_safe]); the statements in the requested form are corollaries. *)
From Coq Require Import List NArith String.
From SV Require Import Base.Bytes Json.Ast Doc.JsonPatch Doc.JsonPatchProofs Doc.JsonPatchExtra
  Doc.Validator Doc.ValidatorProofs Doc.Composer Doc.ComposerProofs Base.BytesFacts.
Import ListNotations.

(* the patch is not an ietf-json-patch (as the composer reads its action) *)
Definition not_json_patch (p : json) : Prop := Composer.patch_action p <> Some a_json.

(* on an object document the engine answers an object (or fails) *)
Definition jp_keeps_obj (jp : json -> json -> option json) : Prop :=
  forall ops m d', jp ops (JObj m) = Some d' -> is_obj d' = true.

(* "document or error, and the document is an object" *)
Definition safe_res (r : Composer.res) : Prop :=
  match r with Composer.ROk d' => is_obj d' = true | Composer.RErr => True | Composer.RPanic => False end.

Lemma doc_set_obj : forall k v m, safe_res (doc_set k v (JObj m)).
Proof. intros. reflexivity. Qed.

Lemma apply_replace_safe : forall v, safe_res (apply_replace v).
Proof. intros v. destruct v; cbn [apply_replace safe_res is_obj]; auto. Qed.

Section AnyEngine.
  Variable jp : json -> json -> option json.

  Lemma apply_json_safe : forall m v,
    jp_keeps_obj jp -> safe_res (apply_json jp (JObj m) v).
  Proof.
    intros m v Hjp. unfold apply_json. destruct (jp v (JObj m)) as [d'|] eqn:E; [|exact I].
    pose proof (Hjp _ _ _ E) as Hobj. destruct d'; try discriminate Hobj. reflexivity.
  Qed.

  (* one patch: on an object document the outcome is an object document or an error *)
  Lemma apply_patch_r_safe : forall d p,
    is_obj d = true -> (not_json_patch p \/ jp_keeps_obj jp) -> safe_res (apply_patch_r jp d p).
  Proof.
    intros d p Hd Hp. destruct d as [| | | | |m]; try discriminate Hd.
    unfold apply_patch_r. destruct (Composer.patch_action p) as [a|] eqn:Ea; [|exact I].
    destruct (Composer.patch_value p) as [v|]; [|exact I].
    destruct (bytes_eqb a a_replace); [apply apply_replace_safe|].
    destruct (bytes_eqb a a_json) eqn:Ej.
    - destruct Hp as [Hn|Hjp]; [|apply apply_json_safe; exact Hjp].
      exfalso. apply Hn. unfold not_json_patch. apply bytes_eqb_eq in Ej. rewrite Ea, Ej. reflexivity.
    - destruct (bytes_eqb a a_add_pk); [apply doc_set_obj|].
      destruct (bytes_eqb a a_rem_pk); [apply doc_set_obj|].
      destruct (bytes_eqb a a_add_svc); [apply doc_set_obj|].
      destruct (bytes_eqb a a_rem_svc); [apply doc_set_obj|].
      destruct (bytes_eqb a a_add_aka); [apply doc_set_obj|].
      destruct (bytes_eqb a a_rem_aka); [apply doc_set_obj|exact I].
  Qed.

  (* for every list of patches, validated or not; the statements with a validation hypothesis are its corollaries *)
  Theorem apply_patches_r_safe : forall ps d,
    is_obj d = true -> (Forall not_json_patch ps \/ jp_keeps_obj jp) -> safe_res (apply_patches_r jp d ps).
  Proof.
    induction ps as [|p r IH]; intros d Hd Hps; cbn [apply_patches_r]; [exact Hd|].
    assert (Hpr : (not_json_patch p \/ jp_keeps_obj jp) /\ (Forall not_json_patch r \/ jp_keeps_obj jp)).
    { destruct Hps as [Hf|Hj]; [inversion Hf; tauto|tauto]. }
    destruct Hpr as [Hp Hr].
    pose proof (apply_patch_r_safe d p Hd Hp) as H1.
    destruct (apply_patch_r jp d p) as [d1| |]; [|exact I|contradiction H1].
    apply IH; assumption.
  Qed.

  Section Validated.
    (* ORACLES of the validator model (net/url): see Doc/Validator.v *)
    Variable uri_ok : bytes -> bool.
    Variable uri_parse : bytes -> option bytes.
    Variable enabled : list bytes.

    (* with ietf-json-patch patches: the engine must keep objects objects *)
    Theorem validated_never_panics : forall ps d,
      validate_delta_patches uri_ok uri_parse enabled ps = true -> is_obj d = true -> (Forall not_json_patch ps \/ jp_keeps_obj jp) ->
      apply_patches_r jp d ps <> Composer.RPanic.
    Proof.
      intros ps d _ Hd Hs E. pose proof (apply_patches_r_safe ps d Hd Hs) as H. rewrite E in H. exact H.
    Qed.

    (* C18, panic-freedom clause: an accepted delta whose patches are all set-actions / replace never panics on an
       object document, whatever the engine does *)
    Theorem set_actions_never_panic : forall ps d,
      validate_delta_patches uri_ok uri_parse enabled ps = true -> is_obj d = true -> Forall not_json_patch ps -> apply_patches_r jp d ps <> Composer.RPanic.
    Proof.
      intros ps d Hv Hd Hs. exact (validated_never_panics ps d Hv Hd (or_introl Hs)).
    Qed.

    Theorem validated_preserves_obj : forall ps d d',
      validate_delta_patches uri_ok uri_parse enabled ps = true -> is_obj d = true -> (Forall not_json_patch ps \/ jp_keeps_obj jp) ->
      apply_patches_r jp d ps = Composer.ROk d' -> is_obj d' = true.
    Proof.
      intros ps d d' _ Hd Hs E. pose proof (apply_patches_r_safe ps d Hd Hs) as H. rewrite E in H. exact H.
    Qed.

    (* documents reachable from the empty document by deltas that satisfy [P] and that the validator accepts *)
    Inductive reachable_by (P : list json -> Prop) : json -> Prop :=
    | reach_empty : reachable_by P (JObj [])
    | reach_step : forall d ps d',
        reachable_by P d -> validate_delta_patches uri_ok uri_parse enabled ps = true -> P ps -> apply_patches_r jp d ps = Composer.ROk d' -> reachable_by P d'.

    (* every accepted delta *)
    Definition reachable : json -> Prop := reachable_by (fun _ => True).
    (* accepted deltas without ietf-json-patch *)
    Definition reachable_set : json -> Prop := reachable_by (Forall not_json_patch).

    (* the invariant: a reachable document is an object (that is all [apply_patch_r] needs, see the header) *)
    Lemma reachable_by_obj : forall P : list json -> Prop,
      (forall ps, P ps -> Forall not_json_patch ps \/ jp_keeps_obj jp) -> forall d, reachable_by P d -> is_obj d = true.
    Proof.
      intros P HP d H. induction H as [|d ps d' _ IH Hv Hp Happ]; [reflexivity|].
      exact (validated_preserves_obj ps d d' Hv IH (HP ps Hp) Happ).
    Qed.

    Theorem reachable_obj : jp_keeps_obj jp -> forall d, reachable d -> is_obj d = true.
    Proof. intro Hjp. apply reachable_by_obj. intros ps _. right. exact Hjp. Qed.

    Theorem reachable_set_obj : forall d, reachable_set d -> is_obj d = true.
    Proof. apply reachable_by_obj. intros ps H. left. exact H. Qed.

    Theorem reachable_never_panics : jp_keeps_obj jp -> forall d ps,
      reachable d -> validate_delta_patches uri_ok uri_parse enabled ps = true -> apply_patches_r jp d ps <> Composer.RPanic.
    Proof.
      intros Hjp d ps Hd Hv. exact (validated_never_panics ps d Hv (reachable_obj Hjp d Hd) (or_intror Hjp)).
    Qed.

    Theorem reachable_set_never_panics : forall d ps,
      reachable_set d -> validate_delta_patches uri_ok uri_parse enabled ps = true -> Forall not_json_patch ps -> apply_patches_r jp d ps <> Composer.RPanic.
    Proof.
      intros d ps Hd Hv Hs. exact (set_actions_never_panic ps d Hv (reachable_set_obj d Hd) Hs).
    Qed.

    (* the result is reachable again, so the invariant carries over to the next delta *)
    Theorem reachable_closed : forall d ps d',
      reachable d -> validate_delta_patches uri_ok uri_parse enabled ps = true -> apply_patches_r jp d ps = Composer.ROk d' -> reachable d'.
    Proof. intros d ps d' Hd Hv Happ. exact (reach_step _ d ps d' Hd Hv I Happ). Qed.
  End Validated.
End AnyEngine.

(* What the sections of a document look like after a set-action (not needed for safety; recorded because it is
   what "well-formed section" can mean for this composer): the touched section is null or a non-empty list whose
   elements all have the right type.  An ietf-json-patch may put anything into alsoKnownAs and into members other
   than publicKey* / service*; the accessors skip what they cannot read. *)

Definition entries_section (v : json) : Prop :=
  v = JNull \/ exists l, v = JArr l /\ l <> [] /\ Forall (fun e => is_obj e = true) l.

Definition strings_section (v : json) : Prop :=
  v = JNull \/ exists us, v = JArr (map JStr us) /\ us <> [].

Lemma arr_or_null_entries : forall l, Forall (fun e => is_obj e = true) l -> entries_section (arr_or_null l).
Proof.
  intros l H. destruct l as [|x r]; [left; reflexivity|]. right. exists (x :: r). split; [reflexivity|].
  split; [discriminate|exact H].
Qed.

Lemma arr_or_null_strings : forall us, strings_section (arr_or_null (map JStr us)).
Proof.
  intros us. destruct us as [|x r]; [left; reflexivity|]. right. exists (x :: r). split; [reflexivity|discriminate].
Qed.

Theorem set_action_section_shape : forall m v d',
  (forall k, (k = d_publicKey \/ k = d_service) ->
     (apply_add_entries k (JObj m) v = Composer.ROk d' \/ apply_remove_entries k (JObj m) v = Composer.ROk d') ->
     entries_section (doc_get k d'))
  /\ ((apply_add_aka (JObj m) v = Composer.ROk d' \/ apply_remove_aka (JObj m) v = Composer.ROk d') ->
      strings_section (doc_get d_alsoKnownAs d')).
Proof.
  intros m v d'. split.
  - intros k _ [H|H]; unfold apply_add_entries, apply_remove_entries, doc_set in H; inversion H; subst d';
      rewrite doc_get_set_same; apply arr_or_null_entries.
    + unfold add_entries. apply add_go_objs; apply parse_entries_objs.
    + apply remove_objs. apply parse_entries_objs.
  - intros [H|H]; unfold apply_add_aka, apply_remove_aka, doc_set in H; inversion H; subst d';
      rewrite doc_get_set_same; apply arr_or_null_strings.
Qed.

Definition jp_answers_null (ops d : json) : option json := Some JNull.

Definition ex_jwk_key (id : string) : json :=
  JObj [(bs "id", JStr (bs id)); (bs "type", JStr (bs "JsonWebKey2020"));
        (bs "purposes", JArr [JStr (bs "authentication")]);
        (bs "publicKeyJwk", JObj [(bs "kty", JStr (bs "EC")); (bs "crv", JStr (bs "P-256")); (bs "x", JStr (bs "abc"))])].

Definition ex_json_then_add : list json :=
  [mk_patch a_json pk_patches (JArr [jp_add_op (bs "note") (JStr (bs "x"))]);
   mk_patch a_add_pk pk_publicKeys (JArr [ex_jwk_key "key-1"])].

(* an accepted delta, the empty document, an engine that answers "null": the add-public-keys that follows the
   ietf-json-patch writes into the nil map *)
Example engine_hypothesis_needed :
  validate_delta_patches uri_ok_demo uri_parse_demo all_actions ex_json_then_add = true
  /\ apply_patches_r jp_answers_null (JObj []) ex_json_then_add = Composer.RPanic.
Proof. split; vm_compute; reflexivity. Qed.

(* doccomposer.applyJSON over the model of json-patch v4.1.0: a recovered panic (Crash) and an error are [None];
   Fatal (the process dies inside the library) is [None] as well at this level and is told apart in [run] *)
Definition jp_engine (ops d : json) : option json :=
  match apply_json_outcome ops d with Ok d' => Some d' | _ => None end.

Lemma jp_engine_eq_opt : forall ops d, jp_engine ops d = jp_apply_opt ops d.
Proof.
  intros ops d. unfold jp_engine, jp_apply_opt, apply_json_outcome. destruct (jp_apply ops d); reflexivity.
Qed.

Definition noprot (k : bytes) : bool := false.

Lemma all_unprot : forall os, Forall (op_unprot noprot) os.
Proof.
  intros os. apply Forall_forall. intros o _. split.
  - unfold unprot. destruct (decode_pointer (o_path o)) as [[|t ts]|]; try exact I. reflexivity.
  - intros _. unfold unprot. destruct (decode_pointer (o_from o)) as [[|t ts]|]; try exact I. reflexivity.
Qed.

(* the root container of an object document stays a partialDoc: the library marshals an object *)
Theorem jp_apply_obj : forall ops m d', jp_apply ops (JObj m) = Ok d' -> is_obj d' = true.
Proof.
  intros ops m d' Happ.
  destruct (load_root_obj m) as [ms [H [Hl Hroot]]].
  unfold jp_apply in Happ. destruct (decode_patch ops) as [os|]; [|discriminate Happ]. rewrite Hroot in Happ.
  destruct (apply_ops (H ++ [CDoc ms]) (List.length H) os) as [h'| | |] eqn:Eops; try discriminate Happ.
  destruct (loaded_root_inv noprot m ms H Hl) as [HI _].
  destruct (apply_ops_frame noprot _ _ os _ h' HI (all_unprot os) Eops) as [_ [_ [_ Hrootf]]].
  destruct (Hrootf ms (node_at_app_last H (CDoc ms))) as [rm' [Hrm' _]].
  rewrite unfold_ref in Happ. rewrite Hrm' in Happ.
  destruct (unfold_members (List.length h') h' rm') as [js|]; [|discriminate Happ].
  inversion Happ. reflexivity.
Qed.

Theorem jp_engine_keeps_obj : jp_keeps_obj jp_engine.
Proof.
  intros ops m d' H. unfold jp_engine, apply_json_outcome in H.
  destruct (jp_apply ops (JObj m)) as [d1| | |] eqn:E; try discriminate H.
  inversion H; subst d1. exact (jp_apply_obj ops m d' E).
Qed.

(* [EPanic]: a Go panic leaves ApplyPatches; [EFatal]: the process died inside the json-patch library *)
Inductive eres := EDoc (d : json) | EErr | EPanic | EFatal.

Definition lift_res (r : Composer.res) : eres :=
  match r with Composer.ROk d => EDoc d | Composer.RErr => EErr | Composer.RPanic => EPanic end.

(* applyJSON, outcome by outcome.  [Crash] is what the library's panic would be if applyJSON let it through: the
   composer model says it does not ([apply_json_outcome] has already turned it into [Err]), and [apply_patch_e_erase]
   uses [apply_json_never_panics] to show this branch is dead. *)
Definition apply_json_e (doc v : json) : eres :=
  match apply_json_outcome v doc with
  | Ok (JObj m) => EDoc (JObj m)
  | Ok JNull => EDoc JNull
  | Ok _ => EErr
  | Err => EErr
  | Crash => EPanic
  | Fatal => EFatal
  end.

Definition apply_patch_e (doc p : json) : eres :=
  match Composer.patch_action p, Composer.patch_value p with
  | Some a, Some v =>
    if bytes_eqb a a_json then apply_json_e doc v else lift_res (apply_patch_r jp_engine doc p)
  | _, _ => lift_res (apply_patch_r jp_engine doc p)
  end.

Fixpoint run (doc : json) (ps : list json) : eres :=
  match ps with
  | [] => EDoc doc
  | p :: r =>
    match apply_patch_e doc p with
    | EDoc d => run d r
    | e => e
    end
  end.

(* forgetting the difference between an error and the death of the process gives back the composer model *)
Definition erase (e : eres) : Composer.res :=
  match e with EDoc d => Composer.ROk d | EErr => Composer.RErr | EPanic => Composer.RPanic | EFatal => Composer.RErr end.

Lemma erase_lift : forall r, erase (lift_res r) = r.
Proof. intros [d| |]; reflexivity. Qed.

Lemma a_replace_not_json : bytes_eqb a_json a_replace = false.
Proof. reflexivity. Qed.

Lemma apply_patch_e_erase : forall d p, erase (apply_patch_e d p) = apply_patch_r jp_engine d p.
Proof.
  intros d p. unfold apply_patch_e.
  destruct (Composer.patch_action p) as [a|] eqn:Ea; [|apply erase_lift].
  destruct (Composer.patch_value p) as [v|] eqn:Ev; [|apply erase_lift].
  destruct (bytes_eqb a a_json) eqn:Ej; [|apply erase_lift].
  unfold apply_patch_r. rewrite Ea, Ev.
  apply bytes_eqb_eq in Ej. subst a. rewrite a_replace_not_json. rewrite bytes_eqb_refl.
  unfold apply_json_e, apply_json, jp_engine.
  pose proof (apply_json_never_panics v d) as Hnc.
  destruct (apply_json_outcome v d) as [d1| | |]; try reflexivity.
  - destruct d1; reflexivity.
  - exfalso. apply Hnc. reflexivity.
Qed.

Lemma run_erase : forall ps d, erase (run d ps) = apply_patches_r jp_engine d ps.
Proof.
  induction ps as [|p r IH]; intro d; cbn [run apply_patches_r]; [reflexivity|].
  rewrite <- (apply_patch_e_erase d p).
  destruct (apply_patch_e d p) as [d1| | |]; cbn [erase]; [apply IH|reflexivity|reflexivity|reflexivity].
Qed.

Lemma lift_res_not_fatal : forall r, lift_res r <> EFatal.
Proof. intros [d| |]; discriminate. Qed.

(* one step dies exactly when it is an ietf-json-patch on which the engine dies *)
Lemma apply_patch_e_fatal : forall d p,
  apply_patch_e d p = EFatal <->
  exists v, Composer.patch_action p = Some a_json /\ Composer.patch_value p = Some v
            /\ apply_json_outcome v d = Fatal /\ jp_apply v d = Fatal.
Proof.
  intros d p. unfold apply_patch_e. split.
  - destruct (Composer.patch_action p) as [a|]; [|intro E; destruct (lift_res_not_fatal _ E)].
    destruct (Composer.patch_value p) as [v|]; [|intro E; destruct (lift_res_not_fatal _ E)].
    destruct (bytes_eqb a a_json) eqn:Ej; [|intro E; destruct (lift_res_not_fatal _ E)].
    apply bytes_eqb_eq in Ej. subst a. intro E. exists v. split; [reflexivity|]. split; [reflexivity|].
    unfold apply_json_e in E.
    destruct (apply_json_outcome_cases v d) as [[d1 H1]|[H1|[H1 H2]]].
    + rewrite H1 in E. destruct d1; discriminate E.
    + rewrite H1 in E. discriminate E.
    + split; assumption.
  - intros [v [Ha [Hv [Ho _]]]]. rewrite Ha, Hv, bytes_eqb_refl. unfold apply_json_e. rewrite Ho. reflexivity.
Qed.

(* the process dies exactly when the engine dies on some ietf-json-patch of the delta, applied to the result of
   the patches before it *)
Theorem run_fatal_iff : forall ps d,
  run d ps = EFatal <->
  exists k dk p v, nth_error ps k = Some p /\ run d (firstn k ps) = EDoc dk
                   /\ Composer.patch_action p = Some a_json /\ Composer.patch_value p = Some v
                   /\ apply_json_outcome v dk = Fatal /\ jp_apply v dk = Fatal.
Proof.
  induction ps as [|p r IH]; intro d.
  - cbn [run]. split; [discriminate|]. intros [k [dk [p [v [Hn _]]]]]. destruct k; discriminate Hn.
  - cbn [run]. split.
    + intro H. destruct (apply_patch_e d p) as [d1| | |] eqn:E; try discriminate H.
      * apply IH in H. destruct H as [k [dk [q [v [Hn [Hf Hq]]]]]].
        exists (S k), dk, q, v. cbn [nth_error firstn run]. rewrite E. tauto.
      * apply apply_patch_e_fatal in E. destruct E as [v Hq].
        exists 0, d, p, v. cbn [nth_error firstn run]. tauto.
    + intros [k [dk [q [v [Hn [Hf Hq]]]]]]. destruct k as [|k]; cbn [nth_error firstn run] in Hn, Hf.
      * inversion Hn; subst q. inversion Hf; subst dk.
        rewrite (proj2 (apply_patch_e_fatal d p) (ex_intro _ v Hq)). reflexivity.
      * destruct (apply_patch_e d p) as [d1| | |]; try discriminate Hf. apply IH. exists k, dk, q, v. tauto.
Qed.

Section EngineReach.
  Variable uri_ok : bytes -> bool.
  Variable uri_parse : bytes -> option bytes.
  Variable enabled : list bytes.

  Definition reachable_engine : json -> Prop := reachable jp_engine uri_ok uri_parse enabled.

  Theorem reachable_engine_obj : forall d, reachable_engine d -> is_obj d = true.
  Proof. intros d H. exact (reachable_obj jp_engine uri_ok uri_parse enabled jp_engine_keeps_obj d H). Qed.

  (* C18 for the composer over the modelled engine, no hypothesis left *)
  Theorem engine_never_panics : forall d ps,
    reachable_engine d -> validate_delta_patches uri_ok uri_parse enabled ps = true -> apply_patches_r jp_engine d ps <> Composer.RPanic.
  Proof.
    intros d ps Hd Hv. exact (reachable_never_panics jp_engine uri_ok uri_parse enabled jp_engine_keeps_obj d ps Hd Hv).
  Qed.

  (* a validated delta applied to a reachable document yields a document (an object, which is
     reachable again), an error, or the death of the process inside the engine - never a composer panic *)
  Theorem engine_run_outcomes : forall d ps,
    reachable_engine d -> validate_delta_patches uri_ok uri_parse enabled ps = true ->
    (exists d', run d ps = EDoc d' /\ apply_patches_r jp_engine d ps = Composer.ROk d'
                /\ is_obj d' = true /\ reachable_engine d')
    \/ run d ps = EErr
    \/ (run d ps = EFatal /\
        exists k dk p v, nth_error ps k = Some p /\ run d (firstn k ps) = EDoc dk
                         /\ Composer.patch_action p = Some a_json /\ Composer.patch_value p = Some v
                         /\ apply_json_outcome v dk = Fatal /\ jp_apply v dk = Fatal).
  Proof.
    intros d ps Hd Hv.
    pose proof (engine_never_panics d ps Hd Hv) as Hnp.
    pose proof (run_erase ps d) as He.
    destruct (run d ps) as [d'| | |] eqn:Er; cbn [erase] in He.
    - left. exists d'. split; [reflexivity|]. split; [symmetry; exact He|].
      assert (Hr : reachable_engine d').
      { apply (reachable_closed jp_engine uri_ok uri_parse enabled d ps d' Hd Hv). symmetry. exact He. }
      split; [apply reachable_engine_obj; exact Hr|exact Hr].
    - right. left. reflexivity.
    - exfalso. apply Hnp. symmetry. exact He.
    - right. right. split; [reflexivity|]. apply run_fatal_iff. exact Er.
  Qed.

  Corollary engine_run_never_panics : forall d ps,
    reachable_engine d -> validate_delta_patches uri_ok uri_parse enabled ps = true -> run d ps <> EPanic.
  Proof.
    intros d ps Hd Hv E. destruct (engine_run_outcomes d ps Hd Hv) as [[d' [H _]]|[H|[H _]]]; rewrite E in H; discriminate H.
  Qed.
End EngineReach.

Definition ex_delta1 : list json :=
  [mk_patch a_add_pk pk_publicKeys (JArr [ex_jwk_key "key-1"; ex_jwk_key "key-2"]);
   mk_patch a_add_aka pk_uris (JArr [JStr (bs "https://a.example")]);
   mk_patch a_json pk_patches (JArr [jp_add_op (bs "a") (JArr [jn 1; jn 2])])].

Definition ex_doc1 : json :=
  JObj [(d_publicKey, JArr [ex_jwk_key "key-1"; ex_jwk_key "key-2"]);
        (d_alsoKnownAs, JArr [JStr (bs "https://a.example")]);
        (bs "a", JArr [jn 1; jn 2])].

Definition ex_delta2 : list json :=
  [mk_patch a_rem_pk pk_ids (JArr [JStr (bs "key-1"); JStr (bs "key-2")]);
   mk_patch a_json pk_patches (JArr [mk_op "remove" "/alsoKnownAs" []])].

Definition ex_doc2 : json := JObj [(d_publicKey, JNull); (bs "a", JArr [jn 1; jn 2])].

(* accepted by the validator, kills the process: the copy makes the array its own element *)
Definition ex_delta_fatal : list json :=
  [mk_patch a_json pk_patches (JArr [mk_op "copy" "/a/-" [(bs "from", JStr (bs "/a"))]])].

(* accepted, the library panics (negative index in replace), applyJSON recovers: an error *)
Definition ex_delta_crash : list json :=
  [mk_patch a_json pk_patches (JArr [mk_op "replace" "/a/-1" [(bs "value", jn 9)]])].

Example ex_validated :
  validate_delta_patches uri_ok_demo uri_parse_demo all_actions ex_delta1 = true
  /\ validate_delta_patches uri_ok_demo uri_parse_demo all_actions ex_delta2 = true
  /\ validate_delta_patches uri_ok_demo uri_parse_demo all_actions ex_delta_fatal = true
  /\ validate_delta_patches uri_ok_demo uri_parse_demo all_actions ex_delta_crash = true.
Proof. repeat split; vm_compute; reflexivity. Qed.

Example ex_reachable : reachable_engine uri_ok_demo uri_parse_demo all_actions ex_doc2.
Proof.
  apply (reach_step _ _ _ _ _ ex_doc1 ex_delta2); [|vm_compute; reflexivity|exact I|vm_compute; reflexivity].
  apply (reach_step _ _ _ _ _ (JObj []) ex_delta1); [|vm_compute; reflexivity|exact I|vm_compute; reflexivity].
  apply reach_empty.
Qed.

(* the three outcomes of [engine_run_outcomes] all occur on a reachable document *)
Example ex_outcomes :
  run ex_doc2 [mk_patch a_add_pk pk_publicKeys (JArr [ex_jwk_key "key-3"])]
    = EDoc (JObj [(d_publicKey, JArr [ex_jwk_key "key-3"]); (bs "a", JArr [jn 1; jn 2])])
  /\ run ex_doc2 ex_delta_crash = EErr
  /\ run ex_doc2 ex_delta_fatal = EFatal
  /\ apply_patches_r jp_engine ex_doc2 ex_delta_fatal = Composer.RErr.
Proof. repeat split; vm_compute; reflexivity. Qed.

(* the set-action-only statement is not vacuous either *)
Example ex_set_only :
  Forall not_json_patch (firstn 2 ex_delta1)
  /\ validate_delta_patches uri_ok_demo uri_parse_demo all_actions (firstn 2 ex_delta1) = true
  /\ apply_patches_r jp_none (JObj []) (firstn 2 ex_delta1)
     = Composer.ROk (JObj [(d_publicKey, JArr [ex_jwk_key "key-1"; ex_jwk_key "key-2"]);
                           (d_alsoKnownAs, JArr [JStr (bs "https://a.example")])]).
Proof.
  split; [|split; vm_compute; reflexivity].
  cbn [firstn ex_delta1]. repeat constructor; unfold not_json_patch; vm_compute; discriminate.
Qed.

Print Assumptions apply_patches_r_safe.
Print Assumptions reachable_never_panics.
Print Assumptions jp_engine_keeps_obj.
Print Assumptions engine_run_outcomes.
Print Assumptions engine_run_never_panics.
