(* Document metadata (property C19, second half): model of
     pkg/versions/1_0/doctransformer/metadata/metadata.go  (Metadata.CreateDocumentMetadata)
     pkg/dochandler/handler.go  (GetTransformationInfoForPublished / ForUnpublished / GetHint)
   and of time.Unix(t,0).UTC().Format(time.RFC3339).  Definitions and examples.

   The records shared with the DID transformer (tinfo, topts, rmodel) live here because the transformer calls
   CreateDocumentMetadata first; Doc/Transformer.v re-exports this file.

   Conventions
   - strings are UTF-8 byte strings; the model does not describe what json.Marshal does with invalid UTF-8
     (it substitutes U+FFFD), inputs are assumed valid UTF-8;
   - objects ([JObj]) given as input stand for Go maps: member names are assumed pairwise distinct. *)
From Coq Require Import List ZArith Bool String.
From Coq.Strings Require Import Byte.
From SV Require Import Base.Bytes Json.Ast.
Import ListNotations.

(* protocol.TransformationInfo is a map[string]interface{}; the four keys that the code reads.
   [None] = key absent.  (A present key of another dynamic type is outside this record:
   published of non-bool type makes CreateDocumentMetadata panic at published.(bool); an id of non-string type
   panics at id.(string) when the @base option is on, see Corr/Transformer.v.) *)
Record tinfo := {
  ti_id : option bytes;                 (* info["id"] *)
  ti_published : option bool;           (* info["published"] *)
  ti_canonical : option bytes;          (* info["canonicalId"] *)
  ti_equivalent : option (list bytes)   (* info["equivalentId"], a non-nil []string *) }.

(* didtransformer.Transformer fields (metadata.Metadata has only the last two) *)
Record topts := {
  o_base : bool;                        (* WithBase *)
  o_method_ctx : list bytes;            (* WithMethodContext *)
  o_key_ctx : list (bytes * bytes);     (* WithKeyContext: key type -> context; [] = not given = default map *)
  o_incl_published : bool;              (* WithIncludePublishedOperations *)
  o_incl_unpublished : bool             (* WithIncludeUnpublishedOperations *) }.

(* the fields of protocol.ResolutionModel that transformer and metadata read *)
Record rmodel := {
  rm_doc : json;                        (* Doc: JObj m = a map; JNull = nil map; anything else is not a Go value *)
  rm_created : Z;                       (* CreatedTime *)
  rm_updated : Z;                       (* UpdatedTime *)
  rm_update_commitment : bytes;
  rm_recovery_commitment : bytes;
  rm_deactivated : bool;
  rm_anchor_origin : json;              (* interface{}; JNull = nil *)
  rm_equivalent_refs : list bytes;      (* read by GetTransformationInfoForPublished only *)
  rm_canonical_ref : bytes;             (* read by GetTransformationInfoForPublished only *)
  rm_version_id : bytes;
  (* operation lists: every element is the JSON image of the *operation.AnchoredOperation
     (json.Marshal of it: type, uniqueSuffix, operation (base64), transactionTime, transactionNumber,
      protocolVersion, and canonicalReference / equivalentReferences / anchorOrigin when non-empty) *)
  rm_published_ops : list json;
  rm_unpublished_ops : list json }.

(* ---------- RFC 3339 (UTC, whole seconds) ---------- *)
Local Open Scope Z_scope.

Definition digit (n : Z) : byte := byte_of_N (Z.to_N (48 + n mod 10)).
Definition dec2 (n : Z) : bytes := [digit (n / 10); digit n].
Definition dec4 (n : Z) : bytes := [digit (n / 1000); digit (n / 100); digit (n / 10); digit n].

(* time's appendInt(year, 4): at least four digits (years from 10000 on take more) *)
Fixpoint dec_digits (fuel : nat) (n : Z) (acc : bytes) : bytes :=
  match fuel with
  | O => acc
  | S f => if n <? 10 then digit n :: acc else dec_digits f (n / 10) (digit n :: acc)
  end.
Definition dec_year (y : Z) : bytes := if y <? 10000 then dec4 y else dec_digits 24 y [].

(* civil date from the number of days since 1970-01-01 (proleptic Gregorian calendar) *)
Definition civil_from_days (days : Z) : Z * Z * Z :=
  let z := days + 719468 in
  let era := z / 146097 in
  let doe := z - era * 146097 in
  let yoe := (doe - doe / 1460 + doe / 36524 - doe / 146096) / 365 in
  let doy := doe - (365 * yoe + yoe / 4 - yoe / 100) in
  let mp := (5 * doy + 2) / 153 in
  let d := doy - (153 * mp + 2) / 5 + 1 in
  let m := if mp <? 10 then mp + 3 else mp - 9 in
  let y := yoe + era * 400 + (if m <=? 2 then 1 else 0) in
  (y, m, d).

(* time.Unix(t,0).UTC().Format(time.RFC3339); meant for t >= 0 *)
Definition rfc3339 (t : Z) : bytes :=
  let days := t / 86400 in
  let s := t mod 86400 in
  let '(y, m, d) := civil_from_days days in
  dec_year y ++ [x2d] ++ dec2 m ++ [x2d] ++ dec2 d ++ [x54]
  ++ dec2 (s / 3600) ++ [x3a] ++ dec2 (s mod 3600 / 60) ++ [x3a] ++ dec2 (s mod 60) ++ [x5a].

Example rfc3339_epoch : rfc3339 0 = bs "1970-01-01T00:00:00Z". Proof. reflexivity. Qed.
Example rfc3339_leap : rfc3339 951782400 = bs "2000-02-29T00:00:00Z". Proof. reflexivity. Qed.
Example rfc3339_year_10000 : rfc3339 253402300800 = bs "10000-01-01T00:00:00Z". Proof. reflexivity. Qed.
Example rfc3339_last : rfc3339 253402300799 = bs "9999-12-31T23:59:59Z". Proof. reflexivity. Qed.

Local Close Scope Z_scope.

(* ---------- small helpers ---------- *)
Definition nonempty {A} (l : list A) : bool := match l with [] => false | _ => true end.
Definition jstrs (l : list bytes) : json := JArr (map JStr l).
Definition member_if (c : bool) (k : bytes) (v : json) : list (bytes * json) := if c then [(k, v)] else [].
Definition member_opt (k : bytes) (o : option json) : list (bytes * json) :=
  match o with Some v => [(k, v)] | None => [] end.
Fixpoint mem_bytes (x : bytes) (l : list bytes) : bool :=
  match l with [] => false | y :: r => bytes_eqb x y || mem_bytes x r end.

(* ---------- operations in the method metadata ---------- *)
Definition op_member (k : bytes) (op : json) : option json :=
  match op with JObj m => jget k m | _ => None end.

(* uint64 fields arrive as doubles; for non-negative doubles the order of the bit patterns is the numeric order *)
Definition op_num (k : bytes) (op : json) : N :=
  match op_member k op with Some (JNum b) => b | _ => 0%N end.
Definition op_str (k : bytes) (op : json) : bytes :=
  match op_member k op with Some (JStr s) => s | _ => [] end.

(* the less function of sortOperations *)
Definition op_ltb (a b : json) : bool :=
  let ta := op_num (bs "transactionTime") a in
  let tb := op_num (bs "transactionTime") b in
  if negb (N.eqb ta tb) then N.ltb ta tb
  else N.ltb (op_num (bs "transactionNumber") a) (op_num (bs "transactionNumber") b).

(* sort.Slice is an insertion sort (stable) for at most 12 elements; for longer lists with ties the order of
   tied elements produced by pdqsort is not described by this model *)
Fixpoint insert_op (x : json) (l : list json) : list json :=
  match l with
  | [] => [x]
  | y :: r => if op_ltb x y then x :: l else y :: insert_op x r
  end.
Definition sort_ops (l : list json) : list json := fold_left (fun acc x => insert_op x acc) l [].

(* copy of the named members that are present, in the given order *)
Definition project_members (names : list bytes) (op : json) : json :=
  JObj (flat_map (fun k => member_opt k (op_member k op)) names).

Definition unpublished_fields : list bytes :=
  [bs "type"; bs "operation"; bs "transactionTime"; bs "protocolVersion"; bs "anchorOrigin"].
Definition published_fields : list bytes :=
  [bs "type"; bs "operation"; bs "transactionTime"; bs "transactionNumber"; bs "protocolVersion";
   bs "canonicalReference"; bs "equivalentReferences"; bs "anchorOrigin"].

(* getUnpublishedOperations *)
Definition unpublished_operations (ops : list json) : list json :=
  map (project_members unpublished_fields) (sort_ops ops).

(* getPublishedOperations: sort, then keep the first operation of every canonical reference *)
Fixpoint dedup_ops (seen : list bytes) (l : list json) : list json :=
  match l with
  | [] => []
  | op :: r =>
    let c := op_str (bs "canonicalReference") op in
    if mem_bytes c seen then dedup_ops seen r
    else project_members published_fields op :: dedup_ops (c :: seen) r
  end.
Definition published_operations (ops : list json) : list json := dedup_ops [] (sort_ops ops).

(* ---------- CreateDocumentMetadata ---------- *)
Definition method_metadata (opts : topts) (rm : rmodel) (published : bool) : list (bytes * json) :=
  [(bs "published", JBool published)]
  ++ member_if (nonempty (rm_recovery_commitment rm)) (bs "recoveryCommitment") (JStr (rm_recovery_commitment rm))
  ++ member_if (nonempty (rm_update_commitment rm)) (bs "updateCommitment") (JStr (rm_update_commitment rm))
  ++ member_if (negb (json_eqb (rm_anchor_origin rm) JNull)) (bs "anchorOrigin") (rm_anchor_origin rm)
  ++ member_if (o_incl_unpublished opts && nonempty (rm_unpublished_ops rm))
       (bs "unpublishedOperations") (JArr (unpublished_operations (rm_unpublished_ops rm)))
  ++ member_if (o_incl_published opts && nonempty (rm_published_ops rm))
       (bs "publishedOperations") (JArr (published_operations (rm_published_ops rm))).

(* None = error *)
Definition document_metadata (opts : topts) (rm : rmodel) (info : tinfo) : option json :=
  match rm_doc rm with
  | JObj _ =>
    match ti_published info with
    | None => None                                       (* "published is required ..." *)
    | Some published =>
      Some (JObj (
        [(bs "method", JObj (method_metadata opts rm published))]
        ++ member_if (rm_deactivated rm) (bs "deactivated") (JBool true)
        ++ member_opt (bs "canonicalId") (option_map JStr (ti_canonical info))
        ++ member_opt (bs "equivalentId") (option_map jstrs (ti_equivalent info))
        ++ member_if published (bs "created") (JStr (rfc3339 (rm_created rm)))
        ++ member_if (nonempty (rm_version_id rm)) (bs "versionId") (JStr (rm_version_id rm))
        ++ member_if (nonempty (rm_version_id rm) && (0 <? rm_updated rm)%Z)
             (bs "updated") (JStr (rfc3339 (rm_updated rm)))))
    end
  | _ => None                                            (* rm.Doc == nil *)
  end.

(* ---------- transformation info (pkg/dochandler/handler.go) ---------- *)
Definition colon : bytes := [x3a].

(* GetTransformationInfoForPublished(namespace, id, suffix, internalResult) *)
Definition tinfo_published (namespace id suffix : bytes) (rm : rmodel) : tinfo :=
  let cref := if nonempty (rm_canonical_ref rm) then colon ++ rm_canonical_ref rm else [] in
  let canonical := namespace ++ cref ++ colon ++ suffix in
  {| ti_id := Some id;
     ti_published := Some true;
     ti_canonical := Some canonical;
     ti_equivalent :=
       Some (canonical :: map (fun r => namespace ++ colon ++ r ++ colon ++ suffix) (rm_equivalent_refs rm)) |}.

Fixpoint is_prefix (p s : bytes) : bool :=
  match p, s with
  | [], _ => true
  | _ :: _, [] => false
  | a :: p', b :: s' => Byte.eqb a b && is_prefix p' s'
  end.
(* strings.Contains *)
Fixpoint contains_bytes (s sub : bytes) : bool :=
  is_prefix sub s || match s with [] => false | _ :: s' => contains_bytes s' sub end.

(* GetTransformationInfoForUnpublished(namespace, domain, label, suffix, createRequestJCS) *)
Definition tinfo_unpublished (namespace domain label suffix jcs : bytes) : tinfo :=
  let id := if nonempty label then namespace ++ colon ++ label ++ colon ++ suffix
            else namespace ++ colon ++ suffix in
  let eq1 := if nonempty jcs then [id] else [] in
  let eq2 := if nonempty label && nonempty domain
             then [if negb (contains_bytes label domain)
                   then namespace ++ colon ++ domain ++ colon ++ label ++ colon ++ suffix else id]
             else [] in
  let eqs := eq1 ++ eq2 in
  {| ti_id := Some (if nonempty jcs then id ++ colon ++ jcs else id);
     ti_published := Some false;
     ti_canonical := None;
     ti_equivalent := if nonempty eqs then Some eqs else None |}.

(* GetHint(id, namespace, suffix): None = error; strings.LastIndex *)
Fixpoint last_index_from (i : Z) (s sub : bytes) : option Z :=
  let here := if is_prefix sub s then Some i else None in
  match s with
  | [] => here
  | _ :: s' => match last_index_from (i + 1)%Z s' sub with Some j => Some j | None => here end
  end.
Fixpoint drop (n : nat) (s : bytes) : bytes :=
  match n, s with O, _ => s | S n', _ :: s' => drop n' s' | S _, [] => [] end.
Definition get_hint (id namespace suffix : bytes) : option bytes :=
  match last_index_from 0%Z id suffix with
  | None => None
  | Some pos =>
    let lo := (Z.of_nat (List.length namespace) + 1)%Z in
    let hi := (pos - 1)%Z in
    if (hi <? lo)%Z then Some []
    else Some (firstn (Z.to_nat (hi - lo)) (drop (Z.to_nat lo) id))
  end.
