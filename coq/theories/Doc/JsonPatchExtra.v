(* C18: composer-level facts about the JSON-patch engine model that hold for every patch and document. *)
From SV Require Import Doc.JsonPatch.

(* doccomposer.applyJSON never lets a recoverable panic of the engine escape: it becomes an error *)
Theorem apply_json_never_panics ops d : apply_json_outcome ops d <> Crash.
Proof. unfold apply_json_outcome. destruct (jp_apply ops d); discriminate. Qed.

(* what remains is process death inside the engine itself *)
Theorem apply_json_outcome_cases ops d :
  (exists d', apply_json_outcome ops d = Ok d') \/ apply_json_outcome ops d = Err \/
  (apply_json_outcome ops d = Fatal /\ jp_apply ops d = Fatal).
Proof.
  unfold apply_json_outcome. destruct (jp_apply ops d) as [d'| | |]; [left; eexists; reflexivity | right; left; reflexivity .. | right; right; split; reflexivity].
Qed.
