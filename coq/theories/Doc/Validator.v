(* Executable model of patch validation:
     pkg/patch/patch.go                      GetAction, GetValue, actionConfig
     pkg/versions/1_0/operationparser/patchvalidator/*.go   Validate and the per-action validators
     pkg/versions/1_0/operationparser/create.go             ValidateDelta, up to and including
                                                             patchvalidator.Validate
   Definitions and examples.  A patch is the decoded JSON object (patch.Patch is a Go map); member lookup
   takes the LAST occurrence of a name, as Go's map decoding does.

   Oracles (Section variables; behaviour of net/url, not modelled):
     uri_ok s    = true  iff  url.ParseRequestURI(s) succeeds              (service endpoints)
     uri_parse s = Some t iff url.Parse(s) succeeds and t = its String()   (also-known-as URIs)

   Outcomes are three-valued ([vout]) because the validator used to panic on  {"op":"add","path":null}
   (nil dereference in validateJSONPatches); since commit cb19e9e it returns an error and [VPanic] is
   no longer produced by the model.  It stays in the type so that the correspondence check would notice
   a panic of the real validator.  [validate_patch] = "accepted". *)
From Coq Require Import String List NArith ZArith Bool.
From Coq.Strings Require Import Byte.
From SV Require Import Base.Bytes Json.Ast Doc.JsonPatch.
Import ListNotations.

Inductive vout := VAccept | VReject | VPanic.

Definition vout_ok (v : vout) : bool := match v with VAccept => true | _ => false end.
Definition vand (a : vout) (b : vout) : vout := match a with VAccept => b | _ => a end.
Definition vbool (b : bool) : vout := if b then VAccept else VReject.

Definition B (s : string) : bytes := bs s.

(* ---------- tables (document.go) ---------- *)

Definition max_id_length : nat := 50.
Definition max_service_type_length : nat := 30.

(* asciiRegex = ^[A-Za-z0-9_-]+$ *)
Definition urlsafe_byte (b : byte) : bool :=
  let n := Byte.to_N b in
  ((65 <=? n) && (n <=? 90) || (97 <=? n) && (n <=? 122) || (48 <=? n) && (n <=? 57)
   || (n =? 95) || (n =? 45))%N.

(* validateID: at most 50 bytes, at least one, all URL-safe *)
Definition id_ok (id : bytes) : bool :=
  (length id <=? max_id_length)%nat && negb (Nat.eqb (length id) 0) && forallb urlsafe_byte id.

Definition mem_bytes (x : bytes) (l : list bytes) : bool := existsb (bytes_eqb x) l.

Definition allowed_purposes : list bytes :=
  [B "authentication"; B "assertionMethod"; B "keyAgreement"; B "capabilityDelegation"; B "capabilityInvocation"].

Definition key_types_general : list bytes :=
  [B "Bls12381G2Key2020"; B "JsonWebKey2020"; B "EcdsaSecp256k1VerificationKey2019";
   B "Ed25519VerificationKey2018"; B "Ed25519VerificationKey2020"; B "X25519KeyAgreementKey2019"].
Definition key_types_verification : list bytes :=
  [B "Bls12381G2Key2020"; B "JsonWebKey2020"; B "EcdsaSecp256k1VerificationKey2019";
   B "Ed25519VerificationKey2018"; B "Ed25519VerificationKey2020"].
Definition key_types_agreement : list bytes :=
  [B "Bls12381G2Key2020"; B "JsonWebKey2020"; B "EcdsaSecp256k1VerificationKey2019"; B "X25519KeyAgreementKey2019"].

(* allowedKeyTypes[purpose]; [] for an unknown purpose *)
Definition key_types_for (purpose : bytes) : list bytes :=
  if bytes_eqb purpose (B "keyAgreement") then key_types_agreement
  else if mem_bytes purpose allowed_purposes then key_types_verification
  else [].

(* ---------- accessors (pkg/document) ---------- *)

Definition member (k : string) (m : list (bytes * json)) : option json := jlast (B k) m.

(* stringEntry: "" unless the member is a string *)
Definition str_entry (k : string) (m : list (bytes * json)) : bytes :=
  match member k m with Some (JStr s) => s | _ => [] end.

(* document.StringArray: the string elements of an array; nil otherwise *)
Definition string_array (j : option json) : list bytes :=
  match j with
  | Some (JArr l) => flat_map (fun e => match e with JStr s => [s] | _ => [] end) l
  | _ => []
  end.

(* ParsePublicKeys / ParseServices: the OBJECT elements of an array (others are skipped silently) *)
Definition object_entries (j : option json) : list (list (bytes * json)) :=
  match j with
  | Some (JArr l) => flat_map (fun e => match e with JObj m => [m] | _ => [] end) l
  | _ => []
  end.

(* validateObjectEntries (commit a4ab443): every element is an object *)
Definition all_objects (l : list json) : bool :=
  forallb (fun e => match e with JObj _ => true | _ => false end) l.

(* validateOptionalObjectArray: absent or null passes; otherwise an array of objects (may be empty) *)
Definition optional_object_array (j : option json) : bool :=
  match j with
  | None | Some JNull => true
  | Some (JArr l) => all_objects l
  | Some _ => false
  end.

(* the raw elements of an array-valued entry *)
Definition array_elems (j : option json) : list json :=
  match j with Some (JArr l) => l | _ => [] end.

Definition entry_id (m : list (bytes * json)) : bytes := str_entry "id" m.
Definition entry_type (m : list (bytes * json)) : bytes := str_entry "type" m.
Definition key_purposes (m : list (bytes * json)) : list bytes := string_array (member "purposes" m).

Fixpoint nodup_bytes (l : list bytes) : bool :=
  match l with
  | [] => true
  | x :: r => negb (mem_bytes x r) && nodup_bytes r
  end.

(* ---------- public keys ---------- *)

Definition has_member (k : string) (m : list (bytes * json)) : bool := has_key (B k) m.

Definition key_allowed_members : list bytes :=
  [B "type"; B "id"; B "purposes"; B "publicKeyJwk"; B "publicKeyBase58"].

(* validatePublicKeyProperties: required members, exactly one key-material member, no other member *)
Definition key_properties_ok (m : list (bytes * json)) : bool :=
  has_member "type" m && has_member "id" m
  && xorb (has_member "publicKeyJwk" m) (has_member "publicKeyBase58" m)
  && forallb (fun kv => mem_bytes (fst kv) key_allowed_members) m.

(* validateKeyPurposes *)
Definition key_purposes_ok (m : list (bytes * json)) : bool :=
  let ps := key_purposes m in
  negb (has_member "purposes" m && Nat.eqb (length ps) 0)
  && (length ps <=? 5)%nat
  && forallb (fun p => mem_bytes p allowed_purposes) ps.

(* validateKeyTypePurpose *)
Definition key_type_purpose_ok (m : list (bytes * json)) : bool :=
  let ps := key_purposes m in
  (if Nat.eqb (length ps) 0 then mem_bytes (entry_type m) key_types_general else true)
  && forallb (fun p => mem_bytes (entry_type m) (key_types_for p)) ps.

(* validateJWK(pubKey.PublicKeyJwk()): an object with non-empty string members crv, kty, x *)
Definition jwk_ok (m : list (bytes * json)) : bool :=
  match member "publicKeyJwk" m with
  | Some (JObj jwk) =>
    negb (Nat.eqb (length (str_entry "crv" jwk)) 0)
    && negb (Nat.eqb (length (str_entry "kty" jwk)) 0)
    && negb (Nat.eqb (length (str_entry "x" jwk)) 0)
  | _ => false
  end.

(* a bad/missing JWK is tolerated when publicKeyBase58 is a non-empty string and the type is not JsonWebKey2020 *)
Definition key_material_ok (m : list (bytes * json)) : bool :=
  jwk_ok m
  || (negb (Nat.eqb (length (str_entry "publicKeyBase58" m)) 0)
      && negb (bytes_eqb (entry_type m) (B "JsonWebKey2020"))).

(* one iteration of validatePublicKeys without the duplicate check *)
Definition key_entry_ok (m : list (bytes * json)) : bool :=
  key_properties_ok m && id_ok (entry_id m) && key_purposes_ok m && key_type_purpose_ok m && key_material_ok m.

(* validatePublicKeys: every failure rejects, so the loop is a conjunction *)
Definition public_keys_ok (keys : list (list (bytes * json))) : bool :=
  forallb key_entry_ok keys && nodup_bytes (map entry_id keys).

(* ---------- services ---------- *)

Section Oracles.
Variable uri_ok : bytes -> bool.               (* url.ParseRequestURI succeeds *)
Variable uri_parse : bytes -> option bytes.    (* url.Parse + String() *)

(* validateURI *)
Definition validate_uri (u : bytes) : bool := negb (Nat.eqb (length u) 0) && uri_ok u.

(* validateServiceEndpointObjects (since commit e1e5aec): EVERY string element is validated; elements
   that are not strings are skipped *)
Fixpoint endpoint_objects_ok (l : list json) : bool :=
  match l with
  | [] => true
  | JStr u :: r => validate_uri u && endpoint_objects_ok r
  | _ :: r => endpoint_objects_ok r
  end.

(* validateServiceEndpoint; the []string branch is dead for decoded JSON *)
Definition service_endpoint_ok (e : option json) : bool :=
  match e with
  | None | Some JNull => false
  | Some (JStr u) => validate_uri u
  | Some (JArr l) => endpoint_objects_ok l
  | Some _ => true
  end.

(* validateService *)
Definition service_entry_ok (m : list (bytes * json)) : bool :=
  id_ok (entry_id m)
  && negb (Nat.eqb (length (entry_type m)) 0) && (length (entry_type m) <=? max_service_type_length)%nat
  && service_endpoint_ok (member "serviceEndpoint" m).

Definition services_ok (svcs : list (list (bytes * json))) : bool :=
  forallb service_entry_ok svcs && nodup_bytes (map entry_id svcs).

(* ---------- also-known-as (alsoknownas.go validate) ---------- *)

Fixpoint aka_ok (seen : list bytes) (uris : list bytes) : bool :=
  match uris with
  | [] => true
  | u :: r => match uri_parse u with
              | None => false
              | Some t => negb (mem_bytes t seen) && aka_ok (t :: seen) r
              end
  end.

(* ---------- ietf-json-patch (ietf.go) ---------- *)

Fixpoint has_prefix (p s : bytes) : bool :=
  match p, s with
  | [], _ => true
  | a :: p', b :: s' => Byte.eqb a b && has_prefix p' s'
  | _ :: _, [] => false
  end.

Definition protected_path (path : bytes) : bool :=
  has_prefix (B "/service") path || has_prefix (B "/publicKey") path.

(* validateJSONPointer (commits cb19e9e, 4fc3d15): a string; empty or starting with "/"; not starting
   with "/service" or "/publicKey" (a string prefix test: "/services", "/serviceX" are blocked too).
   null and non-strings are errors (no nil dereference any more). *)
Definition pointer_ok (j : json) : bool :=
  match j with
  | JStr s =>
    (match s with [] => true | c :: _ => Byte.eqb c "/"%byte end) && negb (protected_path s)
  | _ => false
  end.

(* one operation of the decoded patch: "path" must be present and valid; "from" is validated whenever
   the member is present (whatever the op kind) *)
Definition jsonpatch_op_out (o : json) : vout :=
  match o with
  | JObj m =>
    match jlast (B "path") m with
    | None => VReject                      (* path not found *)
    | Some pj =>
      vbool (pointer_ok pj
             && match jlast (B "from") m with None => true | Some fj => pointer_ok fj end)
    end
  | _ => VReject                           (* null element: nil map, path not found *)
  end.

Fixpoint jsonpatch_ops_out (l : list json) : vout :=
  match l with
  | [] => VAccept
  | o :: r => vand (jsonpatch_op_out o) (jsonpatch_ops_out r)
  end.

(* validateJSONPatches on the re-marshalled operations: DecodePatch first (every element an object or
   null), then the loop *)
Definition jsonpatch_paths_out (ops : json) : vout :=
  match ops with
  | JArr l =>
    if forallb (fun o => match o with JObj _ | JNull => true | _ => false end) l
    then jsonpatch_ops_out l else VReject
  | JNull => VAccept                       (* DecodePatch("null") = empty patch; not reachable via Validate *)
  | _ => VReject
  end.

Definition jsonpatch_paths_ok (ops : json) : bool := vout_ok (jsonpatch_paths_out ops).

(* ---------- patch.go ---------- *)

Definition action_value_key (a : bytes) : option bytes :=
  if bytes_eqb a (B "add-public-keys") then Some (B "publicKeys")
  else if bytes_eqb a (B "remove-public-keys") then Some (B "ids")
  else if bytes_eqb a (B "add-services") then Some (B "services")
  else if bytes_eqb a (B "remove-services") then Some (B "ids")
  else if bytes_eqb a (B "ietf-json-patch") then Some (B "patches")
  else if bytes_eqb a (B "replace") then Some (B "document")
  else if bytes_eqb a (B "add-also-known-as") then Some (B "uris")
  else if bytes_eqb a (B "remove-also-known-as") then Some (B "uris")
  else None.

(* Patch.GetAction: a string member "action" naming a configured action *)
Definition patch_action (p : json) : option bytes :=
  match p with
  | JObj m =>
    match jlast (B "action") m with
    | Some (JStr a) => match action_value_key a with Some _ => Some a | None => None end
    | _ => None
    end
  | _ => None
  end.

(* Patch.GetValue: the member named by the action's value key must be present (null counts) *)
Definition patch_value (p : json) : option json :=
  match p, patch_action p with
  | JObj m, Some a => match action_value_key a with Some k => jlast k m | None => None end
  | _, _ => None
  end.

(* getRequiredArray *)
Definition required_array (v : json) : bool :=
  match v with JArr (_ :: _) => true | _ => false end.

Definition replace_allowed_members : list bytes := [B "services"; B "publicKeys"].

(* patchvalidator.Validate *)
Definition validate_patch_out (p : json) : vout :=
  match patch_action p, patch_value p with
  | Some a, Some v =>
    if bytes_eqb a (B "replace") then
      match v with
      | JObj dm =>
        vbool (forallb (fun kv => mem_bytes (fst kv) replace_allowed_members) dm
               && optional_object_array (member "publicKeys" dm)
               && optional_object_array (member "services" dm)
               && public_keys_ok (object_entries (member "publicKeys" dm))
               && services_ok (object_entries (member "services" dm)))
      | _ => VReject
      end
    else if bytes_eqb a (B "ietf-json-patch") then
      if required_array v then jsonpatch_paths_out v else VReject
    else if bytes_eqb a (B "add-public-keys") then
      vbool (required_array v && all_objects (array_elems (Some v)) && public_keys_ok (object_entries (Some v)))
    else if bytes_eqb a (B "remove-public-keys") then
      vbool (required_array v && forallb id_ok (string_array (Some v)))
    else if bytes_eqb a (B "add-services") then
      vbool (required_array v && all_objects (array_elems (Some v)) && services_ok (object_entries (Some v)))
    else if bytes_eqb a (B "remove-services") then
      vbool (required_array v && forallb id_ok (string_array (Some v)))
    else (* add-also-known-as, remove-also-known-as *)
      vbool (required_array v && aka_ok [] (string_array (Some v)))
  | _, _ => VReject
  end.

Definition validate_patch (p : json) : bool := vout_ok (validate_patch_out p).

(* ValidateDelta, the loop over the patches: action known, action enabled, Validate *)
Fixpoint validate_patches_out (enabled : list bytes) (patches : list json) : vout :=
  match patches with
  | [] => VAccept
  | p :: r =>
    match patch_action p with
    | None => VReject
    | Some a =>
      if mem_bytes a enabled then vand (validate_patch_out p) (validate_patches_out enabled r)
      else VReject
    end
  end.

Definition validate_delta_patches_out (enabled : list bytes) (patches : list json) : vout :=
  match patches with
  | [] => VReject                          (* missing patches *)
  | _ => validate_patches_out enabled patches
  end.

Definition validate_delta_patches (enabled : list bytes) (patches : list json) : bool :=
  vout_ok (validate_delta_patches_out enabled patches).

End Oracles.

(* ---------- what a patch carries (used by the statements) ---------- *)

Definition patch_keys (p : json) : list (list (bytes * json)) :=
  match patch_action p, patch_value p with
  | Some a, Some v =>
    if bytes_eqb a (B "add-public-keys") then object_entries (Some v)
    else if bytes_eqb a (B "replace") then
      match v with JObj dm => object_entries (member "publicKeys" dm) | _ => [] end
    else []
  | _, _ => []
  end.

Definition patch_services (p : json) : list (list (bytes * json)) :=
  match patch_action p, patch_value p with
  | Some a, Some v =>
    if bytes_eqb a (B "add-services") then object_entries (Some v)
    else if bytes_eqb a (B "replace") then
      match v with JObj dm => object_entries (member "services" dm) | _ => [] end
    else []
  | _, _ => []
  end.

(* the RAW elements of the key / service arrays a patch carries (objects or not) *)
Definition patch_key_elems (p : json) : list json :=
  match patch_action p, patch_value p with
  | Some a, Some v =>
    if bytes_eqb a (B "add-public-keys") then array_elems (Some v)
    else if bytes_eqb a (B "replace") then
      match v with JObj dm => array_elems (member "publicKeys" dm) | _ => [] end
    else []
  | _, _ => []
  end.

Definition patch_service_elems (p : json) : list json :=
  match patch_action p, patch_value p with
  | Some a, Some v =>
    if bytes_eqb a (B "add-services") then array_elems (Some v)
    else if bytes_eqb a (B "replace") then
      match v with JObj dm => array_elems (member "services" dm) | _ => [] end
    else []
  | _, _ => []
  end.

(* a replace document section: absent/null, or an array *)
Definition patch_sections_typed (p : json) : bool :=
  match patch_action p, patch_value p with
  | Some a, Some (JObj dm) =>
    if bytes_eqb a (B "replace") then
      (match member "publicKeys" dm with None | Some JNull | Some (JArr _) => true | _ => false end)
      && (match member "services" dm with None | Some JNull | Some (JArr _) => true | _ => false end)
    else true
  | _, _ => true
  end.

Definition patch_jsonpatch (p : json) : option json :=
  match patch_action p, patch_value p with
  | Some a, Some v => if bytes_eqb a (B "ietf-json-patch") then Some v else None
  | _, _ => None
  end.

(* every URI a service entry carries as endpoint *)
Definition service_endpoints (m : list (bytes * json)) : list bytes :=
  match member "serviceEndpoint" m with
  | Some (JStr u) => [u]
  | Some (JArr l) => flat_map (fun e => match e with JStr s => [s] | _ => [] end) l
  | _ => []
  end.

(* the endpoints the code checks: since commit e1e5aec all of them *)
Definition service_endpoints_checked (m : list (bytes * json)) : list bytes := service_endpoints m.

(* key-material members present in a key entry *)
Definition key_material_count (m : list (bytes * json)) : nat :=
  (if has_member "publicKeyJwk" m then 1 else 0) + (if has_member "publicKeyBase58" m then 1 else 0).

Definition all_actions : list bytes :=
  [B "replace"; B "add-public-keys"; B "remove-public-keys"; B "add-services"; B "remove-services";
   B "ietf-json-patch"; B "add-also-known-as"; B "remove-also-known-as"].

(* ---------- examples ---------- *)

Definition ex_key : json :=
  JObj [(B "id", JStr (B "key-1")); (B "type", JStr (B "JsonWebKey2020"));
        (B "purposes", JArr [JStr (B "authentication")]);
        (B "publicKeyJwk", JObj [(B "kty", JStr (B "EC")); (B "crv", JStr (B "P-256")); (B "x", JStr (B "abc"))])].

Example ex_add_keys_accepted :
  validate_patch (fun _ => true) (fun u => Some u)
    (JObj [(B "action", JStr (B "add-public-keys")); (B "publicKeys", JArr [ex_key])]) = true.
Proof. reflexivity. Qed.

Example ex_dup_keys_rejected :
  validate_patch (fun _ => true) (fun u => Some u)
    (JObj [(B "action", JStr (B "add-public-keys")); (B "publicKeys", JArr [ex_key; ex_key])]) = false.
Proof. reflexivity. Qed.

Example ex_null_path_rejected :
  validate_patch_out (fun _ => true) (fun u => Some u)
    (JObj [(B "action", JStr (B "ietf-json-patch"));
           (B "patches", JArr [JObj [(B "op", JStr (B "add")); (B "path", JNull)]])]) = VReject.
Proof. reflexivity. Qed.
