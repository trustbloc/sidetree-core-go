(* Executable model of github.com/evanphx/json-patch v4.1.0 (patch.go): DecodePatch + Patch.Apply,
   as used by doccomposer.applyJSON and patchvalidator.validateJSONPatches.  Definitions and examples.

   The library keeps the document as a graph of *lazyNode pointers.  [copy] and [move] store the SAME
   pointer at the destination (no deep copy), so two places of the document can share one mutable
   container, and a container can even become its own descendant.  The model therefore works on a
   heap of container nodes addressed by index; scalars are immutable and stay inline.

   [Crash] stands for a Go panic of the real library (recoverable; composer.applyJSON turns it into an
   error since commit 9f6d729, see [apply_json_outcome]):
     - index out of range on a negative array index in get/set (replace, test, copy, move),
     - nil dereference: walking into a node created by  "value": null;  [test] without a value member
       against a null/absent target;  lazyNode.equal reaching a nil pointer (null inside a container),
     - assignment to a nil map (document text "null"),
     - "makeslice: len out of range" when [copy]/[move] write at an index >= 2^45.
   [Fatal] stands for a fatal runtime error (the process dies, recover() does not help):
     - unbounded recursion in json.Marshal when a container became reachable from itself (stack
       overflow); it happens only when every operation succeeded, at the final marshal,
     - out of memory when [copy]/[move] write far behind the end of an array: the library allocates
       index+1 pointers.  Abstraction: more than [pad_limit] padding elements (and index < 2^45)
       counts as Fatal; the real outcome between [pad_limit] and the available memory is a very large
       but successful allocation.

   Laziness of the real library (it works on raw JSON text) is invisible on the AST except:
     - scalars are compared as compacted TEXT by [test]; on the AST they are compared by [json_eqb].
       Both agree when document and patch were produced by the same encoder from decoded values
       (differential tests do that);
     - duplicate member names: Go's map decoding keeps the last one; the model does the same when a
       container is loaded ([jlast], [load]). *)
From Coq Require Import String List ZArith Bool.
From Coq.Strings Require Import Byte.
From SV Require Import Base.Bytes Json.Ast.
Import ListNotations.
Local Open Scope Z_scope.

(* [Crash] = a Go panic that recover() can catch; [Fatal] = a fatal runtime error that kills the process *)
Inductive outcome := Ok (d : json) | Err | Crash | Fatal.

(* results of the internal steps *)
Inductive res (A : Type) := ROk (a : A) | RErr | RCrash | RFatal.
Arguments ROk {A} a.
Arguments RErr {A}.
Arguments RCrash {A}.
Arguments RFatal {A}.

Definition rbind {A B} (r : res A) (f : A -> res B) : res B :=
  match r with ROk a => f a | RErr => RErr | RCrash => RCrash | RFatal => RFatal end.

(* ---------- RFC 6901 pointers as the library reads them ---------- *)

Definition slash : byte := "/"%byte.
Definition tilde : byte := "~"%byte.

(* strings.Split(path, "/") : always at least one piece *)
Fixpoint split_slash (p : bytes) : list bytes :=
  match p with
  | [] => [[]]
  | c :: r =>
    if Byte.eqb c slash then [] :: split_slash r
    else match split_slash r with
         | [] => [[c]]            (* unreachable *)
         | x :: xs => (c :: x) :: xs
         end
  end.

(* strings.NewReplacer("~1", "/", "~0", "~").Replace *)
Fixpoint decode_key (k : bytes) : bytes :=
  match k with
  | c :: ((d :: r) as t) =>
    if Byte.eqb c tilde then
      if Byte.eqb d "1"%byte then slash :: decode_key r
      else if Byte.eqb d "0"%byte then tilde :: decode_key r
      else c :: decode_key t
    else c :: decode_key t
  | _ => k
  end.

(* findObject: at least one "/" is required; the text before the first "/" is IGNORED (quirk:
   "x/a/b" addresses the same place as "/a/b"); every token is unescaped. *)
Definition decode_pointer (p : bytes) : option (list bytes) :=
  match split_slash p with
  | _ :: ((_ :: _) as toks) => Some (map decode_key toks)
  | _ => None
  end.

(* ---------- strconv.Atoi on a 64-bit platform ---------- *)

Definition digit_val (b : byte) : option Z :=
  let n := Z.of_N (Byte.to_N b) in
  if (48 <=? n) && (n <=? 57) then Some (n - 48) else None.

Fixpoint digits_val (acc : Z) (s : bytes) : option Z :=
  match s with
  | [] => Some acc
  | c :: r => match digit_val c with Some d => digits_val (acc * 10 + d) r | None => None end
  end.

Definition max_int : Z := 9223372036854775807.

Definition atoi (s : bytes) : option Z :=
  let '(neg, ds) :=
    match s with
    | c :: r => if Byte.eqb c "-"%byte then (true, r) else if Byte.eqb c "+"%byte then (false, r) else (false, s)
    | [] => (false, s)
    end in
  match ds with
  | [] => None
  | _ => match digits_val 0 ds with
         | None => None
         | Some v => let v' := if neg then - v else v in
                     if (- max_int - 1 <=? v') && (v' <=? max_int) then Some v' else None
         end
  end.

(* ---------- the pointer graph ---------- *)

(* what a *lazyNode slot holds *)
Inductive hval :=
| HNil                (* nil pointer: a JSON null met while decoding a container, or an absent "value" *)
| HRawNil             (* &lazyNode{raw: nil}: the op member "value": null *)
| HScalar (j : json)  (* bool / number / string *)
| HRef (r : nat).     (* a container node of the heap *)

Inductive cnode :=
| CDoc (m : list (bytes * hval))
| CAry (l : list hval)
| CNilDoc.            (* nil map: only the root, when the document text is "null" *)

Definition heap := list cnode.

Fixpoint hget (k : bytes) (m : list (bytes * hval)) : option hval :=
  match m with
  | [] => None
  | (k', v) :: r => if bytes_eqb k k' then Some v else hget k r
  end.

Fixpoint hset (k : bytes) (v : hval) (m : list (bytes * hval)) : list (bytes * hval) :=
  match m with
  | [] => [(k, v)]
  | (k', v') :: r => if bytes_eqb k k' then (k, v) :: r else (k', v') :: hset k v r
  end.

Fixpoint hremove (k : bytes) (m : list (bytes * hval)) : list (bytes * hval) :=
  match m with
  | [] => []
  | (k', v) :: r => if bytes_eqb k k' then hremove k r else (k', v) :: hremove k r
  end.

Fixpoint has_key {A} (k : bytes) (m : list (bytes * A)) : bool :=
  match m with
  | [] => false
  | (k', _) :: r => bytes_eqb k k' || has_key k r
  end.

(* member lookup where the LAST occurrence wins (Go map decoding) *)
Fixpoint jlast (k : bytes) (m : list (bytes * json)) : option json :=
  match m with
  | [] => None
  | (k', v) :: r =>
    match jlast k r with
    | Some x => Some x
    | None => if bytes_eqb k k' then Some v else None
    end
  end.

Fixpoint upd_nth {A} (n : nat) (x : A) (l : list A) : list A :=
  match l, n with
  | [], _ => []
  | _ :: r, O => x :: r
  | y :: r, S n' => y :: upd_nth n' x r
  end.

(* json.Unmarshal of a value into the graph: containers are allocated (children first), null becomes
   a nil pointer.  Eager instead of lazy; see the header. *)
Fixpoint load (j : json) (h : heap) {struct j} : hval * heap :=
  match j with
  | JNull => (HNil, h)
  | JBool _ | JNum _ | JStr _ => (HScalar j, h)
  | JArr l =>
    let '(vs, h1) :=
      (fix go (l : list json) (h : heap) {struct l} : list hval * heap :=
         match l with
         | [] => ([], h)
         | x :: r => let '(v, h1) := load x h in
                     let '(vs, h2) := go r h1 in (v :: vs, h2)
         end) l h in
    (HRef (length h1), h1 ++ [CAry vs])
  | JObj m =>
    let '(ms, h1) :=
      (fix go (m : list (bytes * json)) (h : heap) {struct m} : list (bytes * hval) * heap :=
         match m with
         | [] => ([], h)
         | (k, x) :: r => let '(v, h1) := load x h in
                          let '(ms, h2) := go r h1 in
                          (if has_key k ms then ms else (k, v) :: ms, h2)
         end) m h in
    (HRef (length h1), h1 ++ [CDoc ms])
  end.

(* ---------- container methods ---------- *)

Definition pad_limit : Z := 65536.
(* make([]*lazyNode, n) panics when 8*n exceeds maxAlloc = 2^48 (linux/amd64), i.e. n = idx+1 > 2^45 *)
Definition makeslice_limit : Z := 35184372088832.

Definition zlen {A} (l : list A) : Z := Z.of_nat (length l).

Definition is_dash (k : bytes) : bool := bytes_eqb k [ "-"%byte ].

(* partialDoc.get / partialArray.get *)
Definition c_get (c : cnode) (key : bytes) : res hval :=
  match c with
  | CDoc m => ROk (match hget key m with Some v => v | None => HNil end)
  | CNilDoc => ROk HNil
  | CAry l =>
    match atoi key with
    | None => RErr
    | Some idx =>
      if idx >=? zlen l then RErr
      else if idx <? 0 then RCrash                       (* d[idx] with idx < 0 *)
      else ROk (nth (Z.to_nat idx) l HNil)
    end
  end.

(* partialDoc.set / partialArray.set *)
Definition c_set (c : cnode) (key : bytes) (v : hval) : res cnode :=
  match c with
  | CDoc m => ROk (CDoc (hset key v m))
  | CNilDoc => RCrash                                    (* assignment to entry in nil map *)
  | CAry l =>
    if is_dash key then ROk (CAry (l ++ [v]))
    else match atoi key with
         | None => RErr
         | Some idx =>
           if idx =? max_int then RErr                   (* idx+1 wraps; idx >= len(ary) *)
           else if idx <? 0 then RCrash                  (* ary[idx], idx < 0 *)
           else if idx <? zlen l then ROk (CAry (upd_nth (Z.to_nat idx) v l))
           else if idx >=? makeslice_limit then RCrash    (* make([]*lazyNode, idx+1): len out of range *)
           else if idx - zlen l >? pad_limit then RFatal  (* make([]*lazyNode, idx+1): out of memory *)
           else ROk (CAry (l ++ repeat HNil (Z.to_nat (idx - zlen l)) ++ [v]))
         end
  end.

(* partialDoc.add / partialArray.add (SupportNegativeIndices = true) *)
Definition c_add (c : cnode) (key : bytes) (v : hval) : res cnode :=
  match c with
  | CDoc m => ROk (CDoc (hset key v m))
  | CNilDoc => RCrash
  | CAry l =>
    if is_dash key then ROk (CAry (l ++ [v]))
    else match atoi key with
         | None => RErr
         | Some idx =>
           let n := zlen l + 1 in
           if idx >=? n then RErr
           else if idx <? - n then RErr
           else let i := Z.to_nat (if idx <? 0 then idx + n else idx) in
                ROk (CAry (firstn i l ++ v :: skipn i l))
         end
  end.

(* partialDoc.remove / partialArray.remove *)
Definition c_remove (c : cnode) (key : bytes) : res cnode :=
  match c with
  | CDoc m => if has_key key m then ROk (CDoc (hremove key m)) else RErr
  | CNilDoc => RErr
  | CAry l =>
    match atoi key with
    | None => RErr
    | Some idx =>
      let n := zlen l in
      if idx >=? n then RErr
      else if idx <? - n then RErr
      else let i := Z.to_nat (if idx <? 0 then idx + n else idx) in
           ROk (CAry (firstn i l ++ skipn (S i) l))
    end
  end.

Definition node_at (h : heap) (r : nat) : cnode := nth r h CNilDoc.

(* findObject: walk all tokens but the last from the root container [r] *)
Fixpoint walk (h : heap) (r : nat) (parts : list bytes) : res nat :=
  match parts with
  | [] => ROk r
  | p :: rest =>
    rbind (c_get (node_at h r) p) (fun next =>
      match next with
      | HNil => RErr                 (* next == nil *)
      | HRawNil => RCrash            (* isArray reads next.raw, which is nil *)
      | HScalar _ => RErr            (* intoDoc fails *)
      | HRef r' => walk h r' rest
      end)
  end.

(* container + last key; [c_get] errors inside the walk also give "con == nil" *)
Definition find_object (h : heap) (root : nat) (path : bytes) : res (nat * bytes) :=
  match decode_pointer path with
  | None => RErr
  | Some toks =>
    match walk h root (removelast toks) with
    | ROk r => ROk (r, last toks [])
    | RErr => RErr
    | RCrash => RCrash
    | RFatal => RFatal
    end
  end.

(* ---------- lazyNode.equal (receiver: document node, argument: the op value) ---------- *)

Inductive tri := TTrue | TFalse | TCrash.

(* combination for object members: Go iterates the map in random order and stops at the first
   member that is not equal, so with both an unequal and a crashing member either can be hit:
   the model reports the worst case *)
Definition tri_and_any (a b : tri) : tri :=
  match a, b with
  | TCrash, _ | _, TCrash => TCrash
  | TFalse, _ | _, TFalse => TFalse
  | _, _ => TTrue
  end.

(* sequential (arrays) *)
Definition tri_and_seq (a : tri) (b : tri) : tri :=
  match a with TTrue => b | _ => a end.

Definition unknown_str : bytes := bs "unknown"%string.

(* [top] : [o] is the op value itself (JNull = lazyNode with raw == nil); otherwise [o] sits inside a
   decoded container (JNull = nil pointer) *)
Fixpoint hequal (h : heap) (n : hval) (o : json) (top : bool) {struct o} : tri :=
  match n with
  | HNil => TCrash                                        (* method on nil receiver reads n.which *)
  | HRawNil =>
    match o with
    | JNull => if top then TTrue else TCrash
    | _ => TFalse
    end
  | HScalar j =>
    match o with
    | JNull => if top then TFalse else TCrash
    | _ => if json_eqb j o then TTrue else TFalse
    end
  | HRef r =>
    match node_at h r with
    | CNilDoc => TFalse                                   (* unreachable: never the target of HRef *)
    | CDoc m =>
      match o with
      | JNull => if top then TFalse else TCrash
      | JObj om =>
        let missing := existsb (fun kv => negb (has_key (fst kv) om)) m in
        let pairs :=
          (fix go (om : list (bytes * json)) {struct om} : tri :=
             match om with
             | [] => TTrue
             | (k, ov) :: rest =>
               let here :=
                 if has_key k rest then TTrue               (* a later duplicate wins *)
                 else match hget k m with
                      | None => TTrue                       (* only members of the document are visited *)
                      | Some v =>
                        match v, ov with
                        | HNil, JNull => TTrue              (* v == nil && ov == nil *)
                        | _, _ => hequal h v ov false
                        end
                      end in
               tri_and_any here (go rest)
             end) om in
        tri_and_any pairs (if missing then TFalse else TTrue)
      | _ => TFalse
      end
    | CAry l =>
      match o with
      | JNull => if top then TFalse else TCrash
      | JArr ol =>
        if negb (Nat.eqb (length l) (length ol)) then TFalse
        else (fix go (l : list hval) (ol : list json) {struct ol} : tri :=
                match l, ol with
                | v :: l', ov :: ol' => tri_and_seq (hequal h v ov false) (go l' ol')
                | _, _ => TTrue
                end) l ol
      | _ => TFalse
      end
    end
  end.

(* ---------- operations ---------- *)

Record op := { o_kind : bytes; o_path : bytes; o_from : bytes; o_value : option json }.

Definition str_member (k : bytes) (m : list (bytes * json)) : bytes :=
  match jlast k m with
  | Some (JStr s) => s
  | _ => unknown_str       (* absent, null or not a string: the literal "unknown" *)
  end.

Definition decode_op (j : json) : option op :=
  match j with
  | JNull => Some {| o_kind := unknown_str; o_path := unknown_str; o_from := unknown_str; o_value := None |}
  | JObj m => Some {| o_kind := str_member (bs "op"%string) m; o_path := str_member (bs "path"%string) m;
                      o_from := str_member (bs "from"%string) m; o_value := jlast (bs "value"%string) m |}
  | _ => None
  end.

Fixpoint decode_ops (l : list json) : option (list op) :=
  match l with
  | [] => Some []
  | j :: r => match decode_op j, decode_ops r with
              | Some o, Some os => Some (o :: os)
              | _, _ => None
              end
  end.

(* DecodePatch *)
Definition decode_patch (ops : json) : option (list op) :=
  match ops with
  | JNull => Some []
  | JArr l => decode_ops l
  | _ => None
  end.

(* op.value() as a node: absent -> nil pointer, null -> lazyNode{raw:nil} *)
Definition value_node (o : op) (h : heap) : hval * heap :=
  match o_value o with
  | None => (HNil, h)
  | Some JNull => (HRawNil, h)
  | Some j => load j h
  end.

Definition put (h : heap) (r : nat) (c : cnode) : heap := upd_nth r c h.

Definition op_add (h : heap) (root : nat) (o : op) : res heap :=
  rbind (find_object h root (o_path o)) (fun '(r, key) =>
    let '(v, h1) := value_node o h in
    rbind (c_add (node_at h1 r) key v) (fun c => ROk (put h1 r c))).

Definition op_remove (h : heap) (root : nat) (o : op) : res heap :=
  rbind (find_object h root (o_path o)) (fun '(r, key) =>
    rbind (c_remove (node_at h r) key) (fun c => ROk (put h r c))).

Definition op_replace (h : heap) (root : nat) (o : op) : res heap :=
  rbind (find_object h root (o_path o)) (fun '(r, key) =>
    rbind (c_get (node_at h r) key) (fun _ =>
      let '(v, h1) := value_node o h in
      rbind (c_set (node_at h1 r) key v) (fun c => ROk (put h1 r c)))).

Definition op_move (h : heap) (root : nat) (o : op) : res heap :=
  rbind (find_object h root (o_from o)) (fun '(r, key) =>
    rbind (c_get (node_at h r) key) (fun v =>
      rbind (c_remove (node_at h r) key) (fun c =>
        let h1 := put h r c in
        rbind (find_object h1 root (o_path o)) (fun '(r2, key2) =>
          rbind (c_set (node_at h1 r2) key2 v) (fun c2 => ROk (put h1 r2 c2)))))).

Definition op_copy (h : heap) (root : nat) (o : op) : res heap :=
  rbind (find_object h root (o_from o)) (fun '(r, key) =>
    rbind (c_get (node_at h r) key) (fun v =>
      rbind (find_object h root (o_path o)) (fun '(r2, key2) =>
        rbind (c_set (node_at h r2) key2 v) (fun c2 => ROk (put h r2 c2))))).

Definition op_test (h : heap) (root : nat) (o : op) : res heap :=
  rbind (find_object h root (o_path o)) (fun '(r, key) =>
    rbind (c_get (node_at h r) key) (fun v =>
      match v with
      | HNil =>
        match o_value o with
        | None => RCrash                 (* op.value() == nil; .raw dereferences it *)
        | Some JNull => ROk h
        | Some _ => RErr
        end
      | _ =>
        match o_value o with
        | None => RErr
        | Some ov =>
          match hequal h v ov true with
          | TTrue => ROk h
          | TFalse => RErr
          | TCrash => RCrash
          end
        end
      end)).

Definition kind_is (o : op) (s : String.string) : bool := bytes_eqb (o_kind o) (bs s).

Definition apply_op (h : heap) (root : nat) (o : op) : res heap :=
  if kind_is o "add" then op_add h root o
  else if kind_is o "remove" then op_remove h root o
  else if kind_is o "replace" then op_replace h root o
  else if kind_is o "move" then op_move h root o
  else if kind_is o "test" then op_test h root o
  else if kind_is o "copy" then op_copy h root o
  else RErr.

Fixpoint apply_ops (h : heap) (root : nat) (os : list op) : res heap :=
  match os with
  | [] => ROk h
  | o :: r => rbind (apply_op h root o) (fun h1 => apply_ops h1 root r)
  end.

(* json.Marshal of the graph.  [None] = the fuel ran out.  With fuel > number of nodes this happens
   exactly when a container is reachable from itself, where the real encoder recurses forever. *)
Fixpoint unfold (fuel : nat) (h : heap) (v : hval) : option json :=
  match v with
  | HNil | HRawNil => Some JNull
  | HScalar j => Some j
  | HRef r =>
    match fuel with
    | O => None
    | S f =>
      match node_at h r with
      | CNilDoc => Some JNull
      | CDoc m =>
        match (fix go (m : list (bytes * hval)) : option (list (bytes * json)) :=
                 match m with
                 | [] => Some []
                 | (k, x) :: rest =>
                   match unfold f h x, go rest with
                   | Some j, Some js => Some ((k, j) :: js)
                   | _, _ => None
                   end
                 end) m with
        | Some js => Some (JObj js)
        | None => None
        end
      | CAry l =>
        match (fix go (l : list hval) : option (list json) :=
                 match l with
                 | [] => Some []
                 | x :: rest =>
                   match unfold f h x, go rest with
                   | Some j, Some js => Some (j :: js)
                   | _, _ => None
                   end
                 end) l with
        | Some js => Some (JArr js)
        | None => None
        end
      end
    end
  end.

(* Unmarshal of the document into the root container (partialDoc unless the text starts with '[') *)
Definition load_root (d : json) : option (nat * heap) :=
  match d with
  | JNull => Some (O, [CNilDoc])
  | JObj _ | JArr _ =>
    match load d [] with
    | (HRef r, h) => Some (r, h)
    | _ => None
    end
  | _ => None
  end.

(* DecodePatch(ops) followed by Apply(doc) *)
Definition jp_apply (ops : json) (d : json) : outcome :=
  match decode_patch ops with
  | None => Err
  | Some os =>
    match load_root d with
    | None => Err
    | Some (root, h) =>
      match apply_ops h root os with
      | RErr => Err
      | RCrash => Crash
      | RFatal => Fatal
      | ROk h' =>
        match unfold (S (length h')) h' (HRef root) with
        | Some j => Ok j
        | None => Fatal        (* cyclic node: json.Marshal overflows the stack *)
        end
      end
    end
  end.

Definition jp_apply_opt (ops : json) (d : json) : option json :=
  match jp_apply ops d with Ok j => Some j | _ => None end.

(* doccomposer.applyJSON (since commit 9f6d729): a panic of the library is recovered and returned as an
   error; fatal errors still kill the process *)
Definition apply_json_outcome (ops : json) (d : json) : outcome :=
  match jp_apply ops d with Crash => Err | o => o end.

(* object member of a document (None when absent or when the document is not an object) *)
Definition jmember (k : String.string) (d : json) : option json :=
  match d with JObj m => jget (bs k) m | _ => None end.

(* ---------- examples (each confirmed against the real library) ---------- *)

Definition mk_op (kind path : String.string) (extra : list (bytes * json)) : json :=
  JObj ((bs "op", JStr (bs kind)) :: (bs "path", JStr (bs path)) :: extra).
Definition jn (n : N) : json := JNum n.   (* any fixed bit pattern serves as an opaque number *)
Definition ex_doc : json := JObj [(bs "a", JArr [jn 1; jn 2])].

Example ex_add_dash :
  jp_apply (JArr [mk_op "add" "/a/-" [(bs "value", jn 9)]]) ex_doc = Ok (JObj [(bs "a", JArr [jn 1; jn 2; jn 9])]).
Proof. reflexivity. Qed.

Example ex_add_neg :   (* add accepts negative indices: -1 appends *)
  jp_apply (JArr [mk_op "add" "/a/-1" [(bs "value", jn 9)]]) ex_doc = Ok (JObj [(bs "a", JArr [jn 1; jn 2; jn 9])]).
Proof. reflexivity. Qed.

Example ex_replace_neg_crash :
  jp_apply (JArr [mk_op "replace" "/a/-1" [(bs "value", jn 9)]]) ex_doc = Crash.
Proof. reflexivity. Qed.

Example ex_copy_into_self_fatal :
  jp_apply (JArr [mk_op "copy" "/a/-" [(bs "from", JStr (bs "/a"))]]) ex_doc = Fatal.
Proof. reflexivity. Qed.

Example ex_copy_aliases :   (* copy shares the node: the later add is visible at both places *)
  jp_apply (JArr [mk_op "copy" "/b" [(bs "from", JStr (bs "/a"))]; mk_op "add" "/b/-" [(bs "value", jn 3)]]) ex_doc
  = Ok (JObj [(bs "a", JArr [jn 1; jn 2; jn 3]); (bs "b", JArr [jn 1; jn 2; jn 3])]).
Proof. reflexivity. Qed.

Example ex_copy_pads :
  jp_apply (JArr [mk_op "copy" "/a/4" [(bs "from", JStr (bs "/a/0"))]]) ex_doc
  = Ok (JObj [(bs "a", JArr [jn 1; jn 2; JNull; JNull; jn 1])]).
Proof. reflexivity. Qed.
