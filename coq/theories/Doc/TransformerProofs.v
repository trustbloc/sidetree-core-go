(* C19 (models: Doc/Metadata.v, Doc/Transformer.v): the metadata members equal the fields of the resolution model;
   the transformer emits every key once, the relationship sections, services, alsoKnownAs and contexts as the code
   does; [rfc3339] has the RFC 3339 shape and [civil_from_days] is the Gregorian calendar; witnesses at the end. *)
From Coq Require Import List ZArith Bool String Lia.
From Coq.Strings Require Import Byte.
From SV Require Import Base.Bytes Base.BytesFacts Json.Ast Doc.Transformer.
Import ListNotations.

Lemma tr_bytes_eqb_refl : forall a, bytes_eqb a a = true.
Proof. exact bytes_eqb_refl. Qed.

Lemma tr_bytes_eqb_neq : forall a b, bytes_eqb a b = false <-> a <> b.
Proof. exact bytes_eqb_neq. Qed.

Lemma mem_bytes_In : forall x l, mem_bytes x l = true <-> In x l.
Proof.
  intros x l. induction l as [|y l IH]; cbn [mem_bytes In].
  - split; [discriminate|contradiction].
  - rewrite orb_true_iff, IH, bytes_eqb_eq. split; intros [H|H]; auto.
Qed.

Lemma jget_app : forall k a b, jget k (a ++ b) = match jget k a with Some v => Some v | None => jget k b end.
Proof.
  intros k a b. induction a as [|[k' v] a IH]; cbn [jget app]; [reflexivity|].
  destruct (bytes_eqb k k'); [reflexivity|exact IH].
Qed.

Lemma jget_member_opt : forall k k' o,
  jget k (member_opt k' o) = if bytes_eqb k k' then o else None.
Proof. intros k k' [v|]; cbn [member_opt jget]; destruct (bytes_eqb k k'); reflexivity. Qed.

Lemma member_if_opt : forall c k v, member_if c k v = member_opt k (if c then Some v else None).
Proof. intros [|] k v; reflexivity. Qed.

(* The objects the models build are concatenations of optional members with pairwise distinct literal names.  Such an
   object is described by the list of its names, each with the value it has, if any; looking a name up in the object
   is looking it up in that list, and the comparison of literal names is left to evaluation. *)
Definition obj_of (spec : list (bytes * option json)) : list (bytes * json) :=
  flat_map (fun s => member_opt (fst s) (snd s)) spec.

Fixpoint spec_get (k : bytes) (spec : list (bytes * option json)) : option json :=
  match spec with
  | [] => None
  | (k', o) :: r => if bytes_eqb k k' then o else spec_get k r
  end.

Fixpoint names_distinct (l : list bytes) : bool :=
  match l with [] => true | x :: r => negb (mem_bytes x r) && names_distinct r end.

Lemma In_obj_of : forall k v spec, In (k, v) (obj_of spec) -> In k (map fst spec).
Proof.
  intros k v spec. induction spec as [|[k' o] r IH]; cbn [obj_of flat_map map fst snd]; [intros []|].
  intro H. apply in_app_or in H. destruct H as [H|H].
  - left. destruct o; cbn in H; [destruct H as [H|[]]; congruence|contradiction].
  - right. exact (IH H).
Qed.

Lemma jget_obj_of_absent : forall k spec, mem_bytes k (map fst spec) = false -> jget k (obj_of spec) = None.
Proof.
  intros k spec. induction spec as [|[k' o] r IH]; cbn [obj_of flat_map map fst snd mem_bytes]; [reflexivity|].
  intro H. apply orb_false_iff in H. destruct H as [H1 H2]. rewrite jget_app, jget_member_opt, H1. exact (IH H2).
Qed.

Lemma jget_obj_of : forall k spec, names_distinct (map fst spec) = true -> jget k (obj_of spec) = spec_get k spec.
Proof.
  intros k spec. induction spec as [|[k' o] r IH]; cbn [obj_of flat_map map fst snd names_distinct spec_get]; [reflexivity|].
  intro H. apply andb_true_iff in H. destruct H as [H1 H2]. apply negb_true_iff in H1.
  rewrite jget_app, jget_member_opt. destruct (bytes_eqb k k') eqn:E; [|exact (IH H2)].
  apply bytes_eqb_eq in E. subst k'. fold (obj_of r). rewrite (jget_obj_of_absent k r H1). destruct o; reflexivity.
Qed.

Definition method_spec (opts : topts) (rm : rmodel) (published : bool) : list (bytes * option json) :=
  [(bs "published", Some (JBool published));
   (bs "recoveryCommitment",
    if nonempty (rm_recovery_commitment rm) then Some (JStr (rm_recovery_commitment rm)) else None);
   (bs "updateCommitment", if nonempty (rm_update_commitment rm) then Some (JStr (rm_update_commitment rm)) else None);
   (bs "anchorOrigin", if negb (json_eqb (rm_anchor_origin rm) JNull) then Some (rm_anchor_origin rm) else None);
   (bs "unpublishedOperations",
    if o_incl_unpublished opts && nonempty (rm_unpublished_ops rm)
    then Some (JArr (unpublished_operations (rm_unpublished_ops rm))) else None);
   (bs "publishedOperations",
    if o_incl_published opts && nonempty (rm_published_ops rm)
    then Some (JArr (published_operations (rm_published_ops rm))) else None)].

Definition metadata_spec (opts : topts) (rm : rmodel) (info : tinfo) (published : bool) : list (bytes * option json) :=
  [(bs "method", Some (JObj (obj_of (method_spec opts rm published))));
   (bs "deactivated", if rm_deactivated rm then Some (JBool true) else None);
   (bs "canonicalId", option_map JStr (ti_canonical info));
   (bs "equivalentId", option_map jstrs (ti_equivalent info));
   (bs "created", if published then Some (JStr (rfc3339 (rm_created rm))) else None);
   (bs "versionId", if nonempty (rm_version_id rm) then Some (JStr (rm_version_id rm)) else None);
   (bs "updated",
    if nonempty (rm_version_id rm) && (0 <? rm_updated rm)%Z then Some (JStr (rfc3339 (rm_updated rm))) else None)].

Lemma document_metadata_spec : forall opts rm info md,
  document_metadata opts rm info = Some md ->
  exists published, ti_published info = Some published /\ md = JObj (obj_of (metadata_spec opts rm info published)).
Proof.
  intros opts rm info md H. unfold document_metadata in H.
  destruct (rm_doc rm) as [| | | | |doc]; try discriminate.
  destruct (ti_published info) as [published|]; [|discriminate].
  injection H as H. subst md. exists published. split; [reflexivity|].
  unfold method_metadata, metadata_spec, method_spec, obj_of. cbn [flat_map fst snd].
  rewrite !app_nil_r, !member_if_opt. reflexivity.
Qed.

(* Every member of the metadata equals the corresponding field of the resolution model / transformation info,
   under exactly the code's conditions, and there are no other members. *)
Theorem metadata_faithful : forall opts rm info md,
  document_metadata opts rm info = Some md ->
  exists published mdm mm,
    ti_published info = Some published /\ md = JObj mdm /\
    jget (bs "method") mdm = Some (JObj mm) /\
    jget (bs "published") mm = Some (JBool published) /\
    jget (bs "recoveryCommitment") mm =
      (if nonempty (rm_recovery_commitment rm) then Some (JStr (rm_recovery_commitment rm)) else None) /\
    jget (bs "updateCommitment") mm =
      (if nonempty (rm_update_commitment rm) then Some (JStr (rm_update_commitment rm)) else None) /\
    jget (bs "anchorOrigin") mm =
      (if json_eqb (rm_anchor_origin rm) JNull then None else Some (rm_anchor_origin rm)) /\
    jget (bs "unpublishedOperations") mm =
      (if o_incl_unpublished opts && nonempty (rm_unpublished_ops rm)
       then Some (JArr (unpublished_operations (rm_unpublished_ops rm))) else None) /\
    jget (bs "publishedOperations") mm =
      (if o_incl_published opts && nonempty (rm_published_ops rm)
       then Some (JArr (published_operations (rm_published_ops rm))) else None) /\
    jget (bs "deactivated") mdm = (if rm_deactivated rm then Some (JBool true) else None) /\
    jget (bs "canonicalId") mdm = option_map JStr (ti_canonical info) /\
    jget (bs "equivalentId") mdm = option_map jstrs (ti_equivalent info) /\
    jget (bs "created") mdm = (if published then Some (JStr (rfc3339 (rm_created rm))) else None) /\
    jget (bs "versionId") mdm = (if nonempty (rm_version_id rm) then Some (JStr (rm_version_id rm)) else None) /\
    jget (bs "updated") mdm =
      (if nonempty (rm_version_id rm) && (0 <? rm_updated rm)%Z then Some (JStr (rfc3339 (rm_updated rm))) else None) /\
    (forall k v, In (k, v) mdm ->
       In k [bs "method"; bs "deactivated"; bs "canonicalId"; bs "equivalentId"; bs "created"; bs "versionId"; bs "updated"]) /\
    (forall k v, In (k, v) mm ->
       In k [bs "published"; bs "recoveryCommitment"; bs "updateCommitment"; bs "anchorOrigin";
             bs "unpublishedOperations"; bs "publishedOperations"]).
Proof.
  intros opts rm info md H. apply document_metadata_spec in H. destruct H as [published [Hpub Hmd]].
  exists published, (obj_of (metadata_spec opts rm info published)), (obj_of (method_spec opts rm published)).
  split; [exact Hpub|]. split; [exact Hmd|].
  rewrite !jget_obj_of by reflexivity.
  repeat (split; [reflexivity|]).
  split; [unfold method_spec; destruct (json_eqb (rm_anchor_origin rm) JNull); reflexivity|].
  repeat (split; [reflexivity|]).
  split; intros k v Hin; exact (In_obj_of _ _ _ Hin).
Qed.

(* reading the result *)
Definition out_doc (out : json) : members :=
  match out with
  | JObj m => match jget (bs "didDocument") m with Some (JObj d) => d | _ => [] end
  | _ => []
  end.
Definition out_metadata (out : json) : option json :=
  match out with JObj m => jget (bs "didDocumentMetadata") m | _ => None end.
Definition arr_of (o : option json) : list json := match o with Some (JArr l) => l | _ => [] end.
Definition vm_member (k : bytes) (vm : json) : option json := match vm with JObj m => jget k m | _ => None end.

Lemma string_array_strs : forall l, string_array (Some (JArr (map JStr l))) = l.
Proof.
  intro l. cbn [string_array]. induction l as [|s l IH]; cbn [map flat_map app]; [reflexivity|].
  rewrite IH. reflexivity.
Qed.

Lemma jget_filter_names : forall (f : bytes -> bool) k m,
  f k = true -> jget k (filter (fun kv : bytes * json => f (fst kv)) m) = jget k m.
Proof.
  intros f k m Hf. induction m as [|[k' v] m IH]; cbn [filter fst]; [reflexivity|].
  destruct (f k') eqn:Hk'.
  - cbn [jget]. rewrite IH. reflexivity.
  - cbn [jget]. destruct (bytes_eqb k k') eqn:E; [|exact IH].
    apply bytes_eqb_eq in E. subst k'. congruence.
Qed.

Section TransformProofs.
  Variable b58 : bytes -> bytes.
  Variable multibase58 : bytes -> bytes.
  Variable b64url_decode : bytes -> option bytes.

  Notation transform := (transform_did b58 multibase58 b64url_decode).
  Notation vmethod := (verification_method b58 multibase58 b64url_decode).
  Notation vmethods := (verification_methods b58 multibase58 b64url_decode).
  Notation kmaterial := (key_material b58 multibase58 b64url_decode).
  Notation ed_key := (ed25519_public_key b64url_decode).

  Definition document_spec (opts : topts) (did : bytes) (internal : members) (vms : list json)
    : list (bytes * option json) :=
    [(bs "alsoKnownAs", if nonempty (also_known_as internal) then Some (jstrs (also_known_as internal)) else None);
     (bs "@context",
      Some (JArr (base_contexts opts did
                  ++ (if nonempty vms then map JStr (key_contexts opts (public_keys internal)) else []))));
     (bs "id", Some (JStr did));
     (bs "verificationMethod", if nonempty vms then Some (JArr vms) else None)]
    ++ map (fun p => (p, if nonempty (relationship_section p opts did (public_keys internal))
                         then Some (JArr (relationship_section p opts did (public_keys internal))) else None))
           purposes_all
    ++ [(bs "service",
         if nonempty (services internal) then Some (JArr (map (service_out opts did) (services internal))) else None)].

  (* a successful call, taken apart: the document of the result is the object [document_spec] describes *)
  Lemma transform_did_inv : forall opts rm info out,
    transform opts rm info = Some out ->
    exists did internal md vms,
      ti_id info = Some did /\ rm_doc rm = JObj internal /\
      document_metadata opts rm info = Some md /\
      vmethods opts did (public_keys internal) = Some vms /\
      out_doc out = obj_of (document_spec opts did internal vms) /\ out_metadata out = Some md.
  Proof.
    intros opts rm info out H. unfold transform_did in H.
    destruct (document_metadata opts rm info) as [md|] eqn:Hmd; [|discriminate].
    destruct (ti_id info) as [did|] eqn:Hid; [|discriminate].
    destruct (rm_doc rm) as [| | | | |internal] eqn:Hdoc; try discriminate.
    destruct (vmethods opts did (public_keys internal)) as [vms|] eqn:Hvms; [|discriminate].
    injection H as H. subst out. exists did, internal, md, vms. repeat split; try assumption.
    unfold out_doc, external_document, relationship_members, document_spec, obj_of, purposes_all.
    cbn [jget map flat_map app fst snd]. rewrite !app_nil_r, <- !app_assoc, !member_if_opt. reflexivity.
  Qed.

  Lemma vmethods_Forall2 : forall opts did keys vms,
    vmethods opts did keys = Some vms ->
    Forall2 (fun pk vm => vmethod opts did pk = Some vm) keys vms.
  Proof.
    intros opts did keys. induction keys as [|pk keys IH]; intros vms H; cbn [verification_methods] in H.
    - injection H as H. subst vms. constructor.
    - destruct (vmethod opts did pk) as [vm|] eqn:Hvm; [|discriminate].
      destruct (vmethods opts did keys) as [vms'|] eqn:Hvms; [|discriminate].
      injection H as H. subst vms. constructor; [exact Hvm|apply IH; reflexivity].
  Qed.

  Lemma vmethod_shape : forall opts did pk vm,
    vmethod opts did pk = Some vm ->
    exists mat c,
      kmaterial pk = Some mat /\ lookup_ctx (key_type pk) (key_ctx_map opts) = Some c /\
      vm = JObj [(bs "id", JStr (qualify opts did (key_id pk)));
                 (bs "type", JStr (key_type pk));
                 (bs "controller", JStr did);
                 mat].
  Proof.
    intros opts did pk vm H. unfold verification_method in H.
    destruct (kmaterial pk) as [mat|] eqn:Hmat; [|discriminate].
    destruct (lookup_ctx (key_type pk) (key_ctx_map opts)) as [c|] eqn:Hc; [|discriminate].
    injection H as H. subst vm. exists mat, c. repeat split; reflexivity.
  Qed.

  (* what "the same key material" means, case by case as in processKeys *)
  Definition material_preserved (pk : members) (vm : json) : Prop :=
    match key_jwk pk with
    | Some jwk =>
      if bytes_eqb (key_type pk) ed25519_2018 then
        exists x, jose_buffer b64url_decode (str_entry (jget (bs "x") jwk)) = Some x /\
                  vm_member (bs "publicKeyBase58") vm = Some (JStr (b58 (pad32 x))) /\
                  vm_member (bs "publicKeyJwk") vm = None
      else if bytes_eqb (key_type pk) ed25519_2020 then
        exists x, jose_buffer b64url_decode (str_entry (jget (bs "x") jwk)) = Some x /\
                  vm_member (bs "publicKeyMultibase") vm = Some (JStr (multibase58 (pad32 x))) /\
                  vm_member (bs "publicKeyJwk") vm = None
      else vm_member (bs "publicKeyJwk") vm = Some (JObj jwk)
    | None =>
      let b := str_entry (jget (bs "publicKeyBase58") pk) in
      let m := str_entry (jget (bs "publicKeyMultibase") pk) in
      if nonempty b then vm_member (bs "publicKeyBase58") vm = Some (JStr b)
      else if nonempty m then vm_member (bs "publicKeyMultibase") vm = Some (JStr m)
      else vm_member (bs "publicKeyJwk") vm = Some JNull
    end.

  Lemma ed_key_inv : forall jwk k,
    ed_key jwk = Some k ->
    exists x, jose_buffer b64url_decode (str_entry (jget (bs "x") jwk)) = Some x /\ k = pad32 x.
  Proof.
    intros jwk k H. unfold ed25519_public_key in H.
    destruct (bytes_eqb (str_entry (jget (bs "kty") jwk)) (bs "OKP")
              && bytes_eqb (str_entry (jget (bs "crv") jwk)) (bs "Ed25519")); [|discriminate].
    destruct (jose_buffer b64url_decode (str_entry (jget (bs "x") jwk))) as [x|]; [|discriminate].
    destruct (jose_buffer b64url_decode (str_entry (jget (bs "y") jwk))) as [y|]; [|discriminate].
    injection H as H. exists x. split; [reflexivity|symmetry; exact H].
  Qed.

  (* the fixed members of a verification method; the material member, whose name is not "purposes", carries the key *)
  Lemma vmethod_spec : forall opts did pk vm,
    vmethod opts did pk = Some vm ->
    vm_member (bs "id") vm = Some (JStr (qualify opts did (key_id pk))) /\
    vm_member (bs "type") vm = Some (JStr (key_type pk)) /\
    vm_member (bs "controller") vm = Some (JStr did) /\
    vm_member (bs "purposes") vm = None /\ material_preserved pk vm.
  Proof.
    intros opts did pk vm H. apply vmethod_shape in H.
    destruct H as [mat [c [Hmat [_ Hvm]]]]. subst vm.
    split; [reflexivity|]. split; [reflexivity|]. split; [reflexivity|].
    unfold material_preserved, key_material in *.
    destruct (key_jwk pk) as [jwk|].
    - destruct (bytes_eqb (key_type pk) ed25519_2018).
      + destruct (ed_key jwk) as [k|] eqn:Hk; [|discriminate].
        injection Hmat as Hmat. subst mat. apply ed_key_inv in Hk. destruct Hk as [x [Hx Hk]]. subst k.
        split; [reflexivity|]. exists x. split; [exact Hx|]. split; reflexivity.
      + destruct (bytes_eqb (key_type pk) ed25519_2020).
        * destruct (ed_key jwk) as [k|] eqn:Hk; [|discriminate].
          injection Hmat as Hmat. subst mat. apply ed_key_inv in Hk. destruct Hk as [x [Hx Hk]]. subst k.
          split; [reflexivity|]. exists x. split; [exact Hx|]. split; reflexivity.
        * injection Hmat as Hmat. subst mat. split; reflexivity.
    - cbv zeta in *.
      destruct (nonempty (str_entry (jget (bs "publicKeyBase58") pk))).
      + injection Hmat as Hmat. subst mat. split; reflexivity.
      + destruct (nonempty (str_entry (jget (bs "publicKeyMultibase") pk)));
          injection Hmat as Hmat; subst mat; split; reflexivity.
  Qed.


  Theorem each_key_once : forall opts rm info out,
    transform opts rm info = Some out ->
    exists did internal,
      ti_id info = Some did /\ rm_doc rm = JObj internal /\
      let keys := public_keys internal in
      let vms := arr_of (jget (bs "verificationMethod") (out_doc out)) in
      map (vm_member (bs "id")) vms = map (fun pk => Some (JStr (qualify opts did (key_id pk)))) keys /\
      Forall (fun vm => vm_member (bs "controller") vm = Some (JStr did)) vms /\
      Forall2 (fun pk vm => vm_member (bs "type") vm = Some (JStr (key_type pk)) /\
                            vm_member (bs "purposes") vm = None /\
                            material_preserved pk vm) keys vms /\
      (jget (bs "verificationMethod") (out_doc out) = None <-> keys = []).
  Proof.
    intros opts rm info out H. apply transform_did_inv in H.
    destruct H as [did [internal [md [vms [Hid [Hdoc [_ [Hvms [Hout _]]]]]]]]].
    exists did, internal. split; [exact Hid|]. split; [exact Hdoc|].
    cbv zeta. rewrite Hout, jget_obj_of by reflexivity.
    replace (arr_of (spec_get (bs "verificationMethod") (document_spec opts did internal vms))) with vms
      by (destruct vms; reflexivity).
    apply vmethods_Forall2 in Hvms. clear Hout.
    assert (Hall : map (vm_member (bs "id")) vms
                   = map (fun pk => Some (JStr (qualify opts did (key_id pk)))) (public_keys internal)
                   /\ Forall (fun vm => vm_member (bs "controller") vm = Some (JStr did)) vms
                   /\ Forall2 (fun pk vm => vm_member (bs "type") vm = Some (JStr (key_type pk)) /\
                                            vm_member (bs "purposes") vm = None /\
                                            material_preserved pk vm) (public_keys internal) vms).
    { induction Hvms as [|pk vm keys vms Hone Hrest IH]; [repeat constructor|].
      destruct IH as [IH1 [IH2 IH3]]. destruct (vmethod_spec _ _ _ _ Hone) as [Hi [Ht [Hc [Hp Hm]]]].
      split; [cbn [map]; rewrite Hi, IH1; reflexivity|]. split; constructor; tauto. }
    destruct Hall as [H1 [H2 H3]]. split; [exact H1|]. split; [exact H2|]. split; [exact H3|].
    destruct Hvms; cbn [nonempty]; split; intro E; try reflexivity; discriminate.
  Qed.

  (* The code has no "general"/verificationMethod purpose: every key goes to verificationMethod whatever its
     purposes ([each_key_once]); a section holds references (strings), never embedded methods. *)
  Theorem relationships_exact : forall opts rm info out,
    transform opts rm info = Some out ->
    exists did internal,
      ti_id info = Some did /\ rm_doc rm = JObj internal /\
      forall p, In p purposes_all ->
        jget p (out_doc out) =
          (if nonempty (relationship_section p opts did (public_keys internal))
           then Some (JArr (relationship_section p opts did (public_keys internal))) else None).
  Proof.
    intros opts rm info out H. apply transform_did_inv in H.
    destruct H as [did [internal [md [vms [Hid [Hdoc [_ [_ [Hout _]]]]]]]]].
    exists did, internal. split; [exact Hid|]. split; [exact Hdoc|].
    intros p Hp. rewrite Hout, jget_obj_of by reflexivity.
    destruct Hp as [E|[E|[E|[E|[E|[]]]]]]; subst p; reflexivity.
  Qed.

  (* when no key repeats a purpose, a section is the list of qualified ids of exactly the keys with that purpose *)
  Lemma filter_eqb_NoDup : forall p l, NoDup l ->
    filter (bytes_eqb p) l = if mem_bytes p l then [p] else [].
  Proof.
    intros p l Hnd. induction Hnd as [|x l Hx Hnd IH]; [reflexivity|].
    cbn [filter mem_bytes]. destruct (bytes_eqb p x) eqn:E.
    - apply bytes_eqb_eq in E. subst x. cbn [orb]. rewrite IH.
      destruct (mem_bytes p l) eqn:M; [|reflexivity]. apply mem_bytes_In in M. contradiction.
    - cbn [orb]. exact IH.
  Qed.

  Lemma relationship_section_nodup : forall p opts did keys,
    (forall pk, In pk keys -> NoDup (key_purposes pk)) ->
    relationship_section p opts did keys =
    map (fun pk => JStr (qualify opts did (key_id pk))) (filter (fun pk => mem_bytes p (key_purposes pk)) keys).
  Proof.
    intros p opts did keys Hnd. unfold relationship_section.
    induction keys as [|pk keys IH]; [reflexivity|].
    cbn [flat_map filter]. rewrite IH by (intros pk' Hin; apply Hnd; right; exact Hin).
    rewrite filter_eqb_NoDup by (apply Hnd; left; reflexivity).
    destruct (mem_bytes p (key_purposes pk)); reflexivity.
  Qed.

  (* in general a key is referenced once per occurrence of the purpose *)
  Lemma relationship_section_count : forall p opts did keys,
    relationship_section p opts did keys =
    flat_map (fun pk => repeat (JStr (qualify opts did (key_id pk)))
                               (List.length (filter (bytes_eqb p) (key_purposes pk)))) keys.
  Proof.
    intros p opts did keys. unfold relationship_section.
    induction keys as [|pk keys IH]; [reflexivity|].
    cbn [flat_map]. rewrite IH. f_equal.
    induction (filter (bytes_eqb p) (key_purposes pk)) as [|x l IHl]; [reflexivity|].
    cbn [map List.length repeat]. rewrite IHl. reflexivity.
  Qed.

  Theorem services_projected : forall opts rm info out,
    transform opts rm info = Some out ->
    exists did internal,
      ti_id info = Some did /\ rm_doc rm = JObj internal /\
      jget (bs "service") (out_doc out) =
        (if nonempty (services internal) then Some (JArr (map (service_out opts did) (services internal))) else None).
  Proof.
    intros opts rm info out H. apply transform_did_inv in H.
    destruct H as [did [internal [md [vms [Hid [Hdoc [_ [_ [Hout _]]]]]]]]].
    exists did, internal. split; [exact Hid|]. split; [exact Hdoc|].
    rewrite Hout, jget_obj_of by reflexivity. reflexivity.
  Qed.

  (* an external service: DID-qualified id, type and endpoint as read by the accessors, other members untouched *)
  Lemma service_out_spec : forall opts did sv,
    exists m, service_out opts did sv = JObj m /\
      jget (bs "id") m = Some (JStr (qualify opts did (str_entry (jget (bs "id") sv)))) /\
      jget (bs "type") m = Some (JStr (str_entry (jget (bs "type") sv))) /\
      jget (bs "serviceEndpoint") m =
        Some (match jget (bs "serviceEndpoint") sv with Some v => v | None => JNull end) /\
      (forall k, reserved_service_member k = false -> jget k m = jget k sv).
  Proof.
    intros opts did sv. eexists. split; [reflexivity|]. repeat (split; [reflexivity|]).
    intros k Hk. pose proof Hk as Hk'. unfold reserved_service_member in Hk'.
    apply orb_false_iff in Hk'. destruct Hk' as [Hk' H3]. apply orb_false_iff in Hk'. destruct Hk' as [H1 H2].
    rewrite jget_app. cbn [jget]. rewrite H1, H2, H3.
    apply (jget_filter_names (fun k => negb (reserved_service_member k))). rewrite Hk. reflexivity.
  Qed.

  Theorem also_known_as_unchanged : forall opts rm info out,
    transform opts rm info = Some out ->
    exists internal,
      rm_doc rm = JObj internal /\
      jget (bs "alsoKnownAs") (out_doc out) =
        (if nonempty (also_known_as internal) then Some (jstrs (also_known_as internal)) else None) /\
      (* a non-empty array of strings is carried over as it is *)
      (forall l, l <> [] -> jget (bs "alsoKnownAs") internal = Some (jstrs l) ->
                 jget (bs "alsoKnownAs") (out_doc out) = jget (bs "alsoKnownAs") internal).
  Proof.
    intros opts rm info out H. apply transform_did_inv in H.
    destruct H as [did [internal [md [vms [Hid [Hdoc [_ [_ [Hout _]]]]]]]]].
    exists internal. split; [exact Hdoc|].
    rewrite Hout, jget_obj_of by reflexivity. split; [reflexivity|].
    intros l Hl Hin. cbn [spec_get document_spec app]. change (bytes_eqb (bs "alsoKnownAs") (bs "alsoKnownAs")) with true.
    cbv iota. rewrite Hin. unfold also_known_as. rewrite Hin. unfold jstrs.
    rewrite string_array_strs. destruct l; [contradiction|reflexivity].
  Qed.

  Theorem no_internal_publicKey : forall opts rm info out,
    transform opts rm info = Some out ->
    jget (bs "publicKey") (out_doc out) = None /\
    (* more: only these members can occur; other top-level members of the internal document are dropped *)
    (forall k v, In (k, v) (out_doc out) ->
       In k ([bs "alsoKnownAs"; bs "@context"; bs "id"; bs "verificationMethod"] ++ purposes_all ++ [bs "service"])).
  Proof.
    intros opts rm info out H. apply transform_did_inv in H.
    destruct H as [did [internal [md [vms [Hid [Hdoc [_ [_ [Hout _]]]]]]]]].
    rewrite Hout. split; [rewrite jget_obj_of by reflexivity; reflexivity|].
    intros k v Hin. exact (In_obj_of _ _ _ Hin).
  Qed.

  Lemma key_contexts_from_cover : forall m keys seen pk c,
    In pk keys -> lookup_ctx (key_type pk) m = Some c ->
    In c seen \/ In c (key_contexts_from seen m keys).
  Proof.
    intros m keys. induction keys as [|pk' keys IH]; intros seen pk c Hin Hc; [contradiction|].
    cbn [key_contexts_from]. destruct Hin as [Hin|Hin].
    - subst pk'. rewrite Hc. destruct (mem_bytes c seen) eqn:M.
      + left. apply mem_bytes_In. exact M.
      + right. left. reflexivity.
    - destruct (lookup_ctx (key_type pk') m) as [c'|].
      + destruct (mem_bytes c' seen) eqn:M.
        * apply IH with (pk := pk); assumption.
        * destruct (IH (c' :: seen) pk c Hin Hc) as [[E|Hs]|Hr].
          -- subst c'. right. left. reflexivity.
          -- left. exact Hs.
          -- right. right. exact Hr.
      + apply IH with (pk := pk); assumption.
  Qed.

  Lemma Forall2_In_l : forall (A B : Type) (R : A -> B -> Prop) l l' x,
    Forall2 R l l' -> In x l -> exists y, In y l' /\ R x y.
  Proof.
    intros A B R l l' x H. induction H as [|a b l l' Hab _ IH]; intros Hin; [contradiction|].
    destruct Hin as [E|Hin].
    - subst a. exists b. split; [left; reflexivity|exact Hab].
    - destruct (IH Hin) as [y [Hy Hxy]]. exists y. split; [right; exact Hy|exact Hxy].
  Qed.

  Theorem contexts_cover_key_types : forall opts rm info out,
    transform opts rm info = Some out ->
    exists did internal ctx,
      ti_id info = Some did /\ rm_doc rm = JObj internal /\
      jget (bs "@context") (out_doc out) = Some (JArr ctx) /\
      hd_error ctx = Some (JStr did_context) /\
      (forall c, In c (o_method_ctx opts) -> In (JStr c) ctx) /\
      (o_base opts = true -> In (JObj [(bs "@base", JStr did)]) ctx) /\
      forall pk, In pk (public_keys internal) ->
        exists c, lookup_ctx (key_type pk) (key_ctx_map opts) = Some c /\ In (JStr c) ctx.
  Proof.
    intros opts rm info out H. apply transform_did_inv in H.
    destruct H as [did [internal [md [vms [Hid [Hdoc [_ [Hvms [Hout _]]]]]]]]].
    eexists did, internal, _. split; [exact Hid|]. split; [exact Hdoc|].
    rewrite Hout, jget_obj_of by reflexivity.
    split; [reflexivity|]. split; [reflexivity|]. unfold base_contexts.
    split; [intros c Hc; rewrite !in_app_iff; left; right; left; apply in_map; exact Hc|].
    split; [intros Hb; rewrite Hb, !in_app_iff; left; right; right; left; reflexivity|].
    intros pk Hpk.
    destruct (Forall2_In_l _ _ _ _ _ pk (vmethods_Forall2 _ _ _ _ Hvms) Hpk) as [vm [Hvin Hvm]].
    apply vmethod_shape in Hvm. destruct Hvm as [mat [c [_ [Hc _]]]]. exists c. split; [exact Hc|].
    apply in_or_app. right. destruct vms as [|v0 vms']; [contradiction|]. cbn [nonempty].
    apply in_map. unfold key_contexts.
    destruct (key_contexts_from_cover (key_ctx_map opts) (public_keys internal) [] pk c Hpk Hc) as [[]|Hr].
    exact Hr.
  Qed.

  Theorem transform_metadata : forall opts rm info out,
    transform opts rm info = Some out ->
    exists md, document_metadata opts rm info = Some md /\ out_metadata out = Some md.
  Proof.
    intros opts rm info out H. apply transform_did_inv in H.
    destruct H as [did [internal [md [vms [_ [_ [Hmd [_ [_ Hout]]]]]]]]]. exists md. split; [exact Hmd|exact Hout].
  Qed.
End TransformProofs.

Local Open Scope Z_scope.

(* structure, for years below 10000 (time.Format prints later years with more digits; rfc3339_year_10000):
   20 bytes, separators at fixed positions *)
Theorem rfc3339_shape : forall t,
  fst (fst (civil_from_days (t / 86400))) < 10000 ->
  List.length (rfc3339 t) = 20%nat /\
  nth 4 (rfc3339 t) x00 = x2d /\ nth 7 (rfc3339 t) x00 = x2d /\ nth 10 (rfc3339 t) x00 = x54 /\
  nth 13 (rfc3339 t) x00 = x3a /\ nth 16 (rfc3339 t) x00 = x3a /\ nth 19 (rfc3339 t) x00 = x5a.
Proof.
  intros t Hy. unfold rfc3339. destruct (civil_from_days (t / 86400)) as [[y m] d].
  cbn [fst] in Hy. apply Z.ltb_lt in Hy.
  cbv zeta. unfold dec_year. rewrite Hy. unfold dec4, dec2. cbn [app List.length nth]. repeat split; reflexivity.
Qed.

(* [digit] yields an ASCII digit *)
Lemma digit_range : forall n, (48 <= Byte.to_N (digit n) <= 57)%N.
Proof.
  intro n. unfold digit, byte_of_N.
  assert (Hm : 0 <= n mod 10 < 10) by (apply Z.mod_pos_bound; lia).
  destruct (Byte.of_N (Z.to_N (48 + n mod 10))) as [b|] eqn:E.
  - apply Byte.to_of_N in E. rewrite E. lia.
  - apply Byte.of_N_None_iff in E. lia.
Qed.

(* the calendar: day 0 is 1970-01-01 and each following day is the next calendar day (Gregorian rules) *)
Definition is_leap (y : Z) : bool := ((y mod 4 =? 0) && negb (y mod 100 =? 0)) || (y mod 400 =? 0).
Definition days_in_month (y m : Z) : Z :=
  if m =? 2 then (if is_leap y then 29 else 28)
  else if (m =? 4) || (m =? 6) || (m =? 9) || (m =? 11) then 30 else 31.
Definition next_day (c : Z * Z * Z) : Z * Z * Z :=
  let '(y, m, d) := c in
  if d <? days_in_month y m then (y, m, d + 1)
  else if m <? 12 then (y, m + 1, 1) else (y + 1, 1, 1).

(* civil_from_days numbers the days from 1 March of year 0 (day -719468) and lets a year run from March to
   February, so that the leap day is the last of its year.  Day k (from 0) of month mp (March = 0) of such a
   year y then has the number year_start y + month_start mp + k, and civil_from_days inverts that map. *)
Definition year_start (y : Z) : Z := 365 * y + y / 4 - y / 100 + y / 400.
(* the February of the year that starts in March y lies in civil year y + 1 *)
Definition year_days (y : Z) : Z := if is_leap (y + 1) then 366 else 365.
(* floor (30.6 * mp + 0.4): the lengths 31, 30, 31, 30, 31 of March .. July, which repeat from August and from January *)
Definition month_start (mp : Z) : Z := (153 * mp + 2) / 5.
(* February, month 11, ends where the year does *)
Definition month_days (y mp : Z) : Z := Z.min (month_start (mp + 1)) (year_days y) - month_start mp.
Definition march_date (y mp k : Z) : Z * Z * Z :=
  if mp <? 10 then (y, mp + 3, k + 1) else (y + 1, mp - 9, k + 1).

Lemma is_leap_era : forall y, is_leap (y + 400) = is_leap y.
Proof.
  intro y. unfold is_leap.
  replace ((y + 400) mod 4) with (y mod 4) by (Z.div_mod_to_equations; lia).
  replace ((y + 400) mod 100) with (y mod 100) by (Z.div_mod_to_equations; lia).
  replace ((y + 400) mod 400) with (y mod 400) by (Z.div_mod_to_equations; lia). reflexivity.
Qed.

Lemma year_days_range : forall y, 365 <= year_days y <= 366.
Proof. intro y. unfold year_days. destruct (is_leap (y + 1)); lia. Qed.

Lemma year_start_succ : forall y, year_start (y + 1) = year_start y + year_days y.
Proof.
  intro y. unfold year_start, year_days, is_leap.
  destruct (Z.eqb_spec ((y + 1) mod 4) 0), (Z.eqb_spec ((y + 1) mod 100) 0), (Z.eqb_spec ((y + 1) mod 400) 0);
    cbn [andb orb negb]; Z.div_mod_to_equations; lia.
Qed.

Lemma year_start_mono : forall a b, a <= b -> year_start a <= year_start b.
Proof. intros a b H. unfold year_start. Z.div_mod_to_equations. lia. Qed.

Lemma year_start_era : forall y era, year_start (y + era * 400) = year_start y + era * 146097.
Proof. intros y era. unfold year_start. Z.div_mod_to_equations. lia. Qed.

(* The year within the era is doe less the leap days before it, by 365.  doe / 1460 counts one leap day for every
   four years (1460 = 4 * 365), doe / 36524 gives back those the centuries leave out (day 36524 would be the first),
   and day 146096, the last of the era, is a leap day after all.  The counts are rough near the leap days; that they
   are exact enough for the quotient is linear arithmetic. *)
Lemma year_of_era : forall doe, 0 <= doe < 146097 ->
  let yoe := (doe - doe / 1460 + doe / 36524 - doe / 146096) / 365 in
  365 * yoe + yoe / 4 - yoe / 100 = year_start yoe /\ year_start yoe <= doe < year_start (yoe + 1).
Proof. intros doe H yoe. subst yoe. unfold year_start. Z.div_mod_to_equations. lia. Qed.

Lemma year_of_day : forall z,
  let era := z / 146097 in
  let doe := z - era * 146097 in
  let yoe := (doe - doe / 1460 + doe / 36524 - doe / 146096) / 365 in
  let y := yoe + era * 400 in
  year_start y <= z < year_start (y + 1) /\ doe - (365 * yoe + yoe / 4 - yoe / 100) = z - year_start y.
Proof.
  intros z era doe yoe y.
  assert (Hdoe : 0 <= doe < 146097) by (subst doe era; Z.div_mod_to_equations; lia).
  destruct (year_of_era doe Hdoe) as [E H]. fold yoe in E, H. rewrite E.
  subst y. replace (yoe + era * 400 + 1) with (yoe + 1 + era * 400) by lia.
  rewrite !year_start_era. lia.
Qed.

Lemma month_index : forall doy mp, (5 * doy + 2) / 153 = mp <-> month_start mp <= doy < month_start (mp + 1).
Proof. intros doy mp. unfold month_start. Z.div_mod_to_equations. lia. Qed.

Lemma month_end : forall y mp,
  month_start mp + month_days y mp = if mp <? 11 then month_start (mp + 1) else year_days y.
Proof.
  intros y mp. pose proof (year_days_range y). unfold month_days, month_start.
  destruct (Z.ltb_spec mp 11); Z.div_mod_to_equations; lia.
Qed.

Lemma month_days_pos : forall y mp, 0 <= mp <= 11 -> 0 < month_days y mp.
Proof.
  intros y mp H. pose proof (year_days_range y). unfold month_days, month_start. Z.div_mod_to_equations. lia.
Qed.

(* month by month, month_days is days_in_month and the month after mp is what next_day moves to *)
Lemma next_march_date : forall y mp k, 0 <= mp <= 11 ->
  next_day (march_date y mp k) =
  if k + 1 <? month_days y mp then march_date y mp (k + 1)
  else if mp <? 11 then march_date y (mp + 1) 0 else march_date (y + 1) 0 0.
Proof.
  intros y mp k H. unfold month_days, year_days.
  assert (C : mp = 0 \/ mp = 1 \/ mp = 2 \/ mp = 3 \/ mp = 4 \/ mp = 5 \/ mp = 6 \/ mp = 7 \/ mp = 8 \/ mp = 9 \/
              mp = 10 \/ mp = 11) by lia.
  destruct C as [C|[C|[C|[C|[C|[C|[C|[C|[C|[C|[C|C]]]]]]]]]]]; subst mp;
    cbn -[is_leap]; destruct (is_leap (y + 1)); reflexivity.
Qed.

Lemma civil_from_days_inv : forall y mp k, 0 <= mp <= 11 -> 0 <= k < month_days y mp ->
  civil_from_days (year_start y + month_start mp + k - 719468) = march_date y mp k.
Proof.
  intros y mp k Hmp Hk. unfold civil_from_days. cbv zeta.
  replace (year_start y + month_start mp + k - 719468 + 719468) with (year_start y + month_start mp + k) by lia.
  set (z := year_start y + month_start mp + k).
  destruct (year_of_day z) as [Hy E]. rewrite E. clear E. set (y' := _ + _ * 400) in *.
  unfold month_days in Hk.
  assert (Hz : year_start y <= z < year_start (y + 1)).
  { rewrite year_start_succ. subst z. unfold month_start in *. Z.div_mod_to_equations. lia. }
  (* year_start is monotone, so only one year has z among its days *)
  assert (Ey : y' = y).
  { pose proof (year_start_mono (y + 1) y'). pose proof (year_start_mono (y' + 1) y). lia. }
  rewrite Ey. replace (z - year_start y) with (month_start mp + k) by (subst z; lia).
  replace ((5 * (month_start mp + k) + 2) / 153) with mp by (symmetry; apply month_index; lia).
  unfold march_date, month_start.
  destruct (Z.ltb_spec mp 10); [destruct (Z.leb_spec (mp + 3) 2)|destruct (Z.leb_spec (mp - 9) 2)];
    (apply f_equal2; [apply f_equal2|]; lia).
Qed.

Lemma civil_day_exists : forall z, exists y mp k,
  0 <= mp <= 11 /\ 0 <= k < month_days y mp /\ z = year_start y + month_start mp + k.
Proof.
  intro z. destruct (year_of_day z) as [Hy _]. set (y := _ + _ * 400) in *.
  set (doy := z - year_start y).
  exists y, ((5 * doy + 2) / 153), (doy - month_start ((5 * doy + 2) / 153)).
  pose proof (proj1 (month_index doy _) eq_refl) as Hm.
  rewrite year_start_succ in Hy. pose proof (year_days_range y).
  unfold month_days. split; [|lia].
  unfold month_start in *. Z.div_mod_to_equations. lia.
Qed.

Theorem civil_from_days_next : forall d, civil_from_days (d + 1) = next_day (civil_from_days d).
Proof.
  intro d. destruct (civil_day_exists (d + 719468)) as [y [mp [k [Hmp [Hk E]]]]].
  replace d with (year_start y + month_start mp + k - 719468) by lia.
  rewrite (civil_from_days_inv y mp k), next_march_date by assumption.
  pose proof (month_end y mp) as Hend.
  destruct (Z.ltb_spec (k + 1) (month_days y mp)) as [Hin|Hout]; [|destruct (Z.ltb_spec mp 11)].
  - rewrite <- civil_from_days_inv by lia. f_equal. lia.
  - rewrite <- civil_from_days_inv by (pose proof (month_days_pos y (mp + 1)); lia). f_equal. lia.
  - rewrite <- civil_from_days_inv by (pose proof (month_days_pos (y + 1) 0); lia). f_equal.
    rewrite year_start_succ. change (month_start 0) with 0. lia.
Qed.

(* as C19 states it; [0 <= d] is not needed *)
Theorem civil_from_days_calendar :
  civil_from_days 0 = (1970, 1, 1) /\
  forall d, 0 <= d -> civil_from_days (d + 1) = next_day (civil_from_days d).
Proof. split; [reflexivity|]. intros d _. apply civil_from_days_next. Qed.

(* anchor points *)
Example rfc3339_anchor_1 : rfc3339 1 = bs "1970-01-01T00:00:01Z". Proof. reflexivity. Qed.
Example rfc3339_anchor_2 : rfc3339 1582934399 = bs "2020-02-28T23:59:59Z". Proof. reflexivity. Qed.
Example rfc3339_anchor_3 : rfc3339 1583020800 = bs "2020-03-01T00:00:00Z". Proof. reflexivity. Qed.
Example rfc3339_anchor_4 : rfc3339 4107542400 = bs "2100-03-01T00:00:00Z". Proof. reflexivity. Qed.
Example rfc3339_anchor_5 : rfc3339 2147483648 = bs "2038-01-19T03:14:08Z". Proof. reflexivity. Qed.
Local Close Scope Z_scope.

Definition sample_x : bytes := bs "AQIDBAUGBwgJCgsMDQ4PEBESExQVFhcYGRobHB0eHyA".   (* bytes 1..32 *)
Definition sample_doc : json :=
  JObj [(bs "publicKey", JArr [
           JObj [(bs "id", JStr (bs "signing")); (bs "type", JStr ed25519_2018);
                 (bs "publicKeyJwk", JObj [(bs "kty", JStr (bs "OKP")); (bs "crv", JStr (bs "Ed25519")); (bs "x", JStr sample_x)]);
                 (bs "purposes", JArr [JStr (bs "authentication"); JStr (bs "assertionMethod")])];
           JObj [(bs "id", JStr (bs "general")); (bs "type", JStr (bs "JsonWebKey2020"));
                 (bs "publicKeyJwk", JObj [(bs "kty", JStr (bs "EC")); (bs "crv", JStr (bs "P-256"));
                                           (bs "x", JStr (bs "eA")); (bs "y", JStr (bs "eQ"))])];
           JObj [(bs "id", JStr (bs "twice")); (bs "type", JStr (bs "X25519KeyAgreementKey2019"));
                 (bs "publicKeyBase58", JStr (bs "3M5RCDjPTWPkKSN3sxUmmMqHbmRPegYP1tjcKyrDbt9J"));
                 (bs "purposes", JArr [JStr (bs "keyAgreement"); JStr (bs "keyAgreement")])]]);
        (bs "service", JArr [JObj [(bs "id", JStr (bs "hub")); (bs "type", JStr (bs "LinkedDomains"));
                                   (bs "serviceEndpoint", JStr (bs "https://example.com")); (bs "priority", JNum 0)]]);
        (bs "alsoKnownAs", JArr [JStr (bs "https://blog.example")]);
        (bs "extra", JBool true)].
Definition sample_rm : rmodel :=
  {| rm_doc := sample_doc; rm_created := 1600000000; rm_updated := 1600000600;
     rm_update_commitment := bs "EiU"; rm_recovery_commitment := bs "EiR"; rm_deactivated := false;
     rm_anchor_origin := JStr (bs "origin"); rm_equivalent_refs := [bs "ipfs"]; rm_canonical_ref := bs "uEiC";
     rm_version_id := bs "EiV"; rm_published_ops := []; rm_unpublished_ops := [] |}.
Definition sample_opts : topts :=
  {| o_base := false; o_method_ctx := []; o_key_ctx := []; o_incl_published := false; o_incl_unpublished := false |}.
Definition sample_info : tinfo := tinfo_published (bs "did:sidetree") (bs "did:sidetree:EiDsuffix") (bs "EiDsuffix") sample_rm.
(* placeholder oracle values: the text is not the real base58 of the key, only the shape matters here *)
Definition sample_b58 (k : bytes) : bytes := bs "BASE58-OF-KEY".

(* the hypotheses of the theorems above are satisfiable: this document transforms, with three keys *)
Example sample_transforms :
  exists out, transform_did sample_b58 (fun k => x7a :: sample_b58 k) b64url_decode_impl sample_opts sample_rm sample_info = Some out
              /\ List.length (arr_of (jget (bs "verificationMethod") (out_doc out))) = 3%nat
              /\ jget (bs "extra") (out_doc out) = None.
Proof. eexists. split; [vm_compute; reflexivity|]. split; vm_compute; reflexivity. Qed.

Example sample_metadata :
  exists md, document_metadata sample_opts sample_rm sample_info = Some md.
Proof. eexists. vm_compute. reflexivity. Qed.

(* witness: a purpose listed twice in a key gives two references to that key in the section
   ("exactly once" in the property text needs duplicate-free purposes, see relationship_section_nodup) *)
Example duplicate_purpose_witness :
  relationship_section (bs "keyAgreement") sample_opts (bs "did:x:1") (public_keys match sample_doc with JObj m => m | _ => [] end)
  = [JStr (bs "did:x:1#twice"); JStr (bs "did:x:1#twice")].
Proof. vm_compute. reflexivity. Qed.

(* witness: an Ed25519 JWK whose x decodes to 3 bytes is accepted and zero-padded to 32 bytes
   (so the re-encoded key is not "the same bytes") *)
Example short_x_witness :
  ed25519_public_key b64url_decode_impl [(bs "kty", JStr (bs "OKP")); (bs "crv", JStr (bs "Ed25519")); (bs "x", JStr (bs "AQID"))]
  = Some ([x01; x02; x03] ++ repeat x00 29).
Proof. vm_compute. reflexivity. Qed.
