(* C18, JSON-patch half: properties of the model of evanphx/json-patch v4.1.0 (SV.Doc.JsonPatch) and of
   the path check of patchvalidator.validateJSONPatches (SV.Doc.Validator.jsonpatch_paths_ok).
   Witnesses for the crash classes (a)-(e) of the library; the inputs of F10 / F10b; a frame theorem on the pointer
   graph ([apply_ops_frame]) and, from it, [jsonpatch_protects]: an accepted operation list leaves the root members
   "publicKey" and "service" as they were; where Fatal outcomes come from. *)
From Coq Require Import String List ZArith Bool Lia.
From Coq.Strings Require Import Byte.
From SV Require Json.JcsProofs.
From SV Require Import Base.Bytes Json.Ast Doc.JsonPatch Doc.Validator Doc.ValidatorProofs Base.BytesFacts.
Import ListNotations.

(* [jp_apply] is total by construction (structural recursion, fuel only in [unfold]); the statement holds of every
   Coq function *)
Theorem jp_total : forall ops d, exists o, jp_apply ops d = o.
Proof. intros ops d. eexists. reflexivity. Qed.

Definition S_ (s : string) : json := JStr (bs s).
Definition opj (kind path : string) (extra : list (bytes * json)) : json := mk_op kind path extra.
Definition doc_a12 : json := JObj [(bs "a", JArr [jn 1; jn 2])].

(* (a) negative array index in get/set: replace, test, copy (from), move (from and path).
       Real library: panic "index out of range [-1]" for each of
       [{"op":"replace","path":"/a/-1","value":9}]   [{"op":"test","path":"/a/-1","value":2}]
       [{"op":"copy","from":"/a/-1","path":"/b"}]     [{"op":"move","from":"/a/-1","path":"/b"}]
       [{"op":"move","from":"/a/0","path":"/a/-1"}]   on {"a":[1,2]};
       remove and add accept negative indices ("/a/-1" removes the last / appends). *)
Theorem jp_crash_witness_negative_index :
  jp_apply (JArr [opj "replace" "/a/-1" [(bs "value", jn 9)]]) doc_a12 = Crash
  /\ jp_apply (JArr [opj "test" "/a/-1" [(bs "value", jn 2)]]) doc_a12 = Crash
  /\ jp_apply (JArr [opj "copy" "/b" [(bs "from", S_ "/a/-1")]]) doc_a12 = Crash
  /\ jp_apply (JArr [opj "move" "/b" [(bs "from", S_ "/a/-1")]]) doc_a12 = Crash
  /\ jp_apply (JArr [opj "move" "/a/-1" [(bs "from", S_ "/a/0")]]) doc_a12 = Crash
  /\ jp_apply (JArr [opj "remove" "/a/-1" []]) doc_a12 = Ok (JObj [(bs "a", JArr [jn 1])]).
Proof. repeat split; vm_compute; reflexivity. Qed.

(* (b) a container stored inside itself: json.Marshal recurses until the stack overflows (fatal).
       [{"op":"copy","from":"/a","path":"/a/-"}] on {"a":[1,2]};
       also without [from] being a prefix of [path], through the alias that copy creates:
       [{"op":"copy","from":"/a","path":"/b"},{"op":"move","from":"/a","path":"/b/c"}] on {"a":{"x":1}} *)
Theorem jp_crash_witness_cycle :
  jp_apply (JArr [opj "copy" "/a/-" [(bs "from", S_ "/a")]]) doc_a12 = Fatal
  /\ jp_apply (JArr [opj "copy" "/b" [(bs "from", S_ "/a")]; opj "move" "/b/c" [(bs "from", S_ "/a")]])
              (JObj [(bs "a", JObj [(bs "x", jn 1)])]) = Fatal.
Proof. split; vm_compute; reflexivity. Qed.

(* (c) nil dereferences:
       [{"op":"add","path":"/a","value":null},{"op":"add","path":"/a/b","value":1}] on {}
       [{"op":"test","path":"/zz"}] on {}            (no value member, target absent)
       [{"op":"test","path":"/a","value":[null]}] on {"a":[null]}
   (d) [{"op":"add","path":"/a","value":1}] on the document null: assignment to entry in nil map
   (e) [{"op":"copy","from":"/a/0","path":"/a/99999999999"}] on {"a":[1,2]}: out of memory
       (9223372036854775806: makeslice panic); a small excess pads with null instead of failing *)
Theorem jp_crash_witness_other :
  jp_apply (JArr [opj "add" "/a" [(bs "value", JNull)]; opj "add" "/a/b" [(bs "value", jn 1)]]) (JObj []) = Crash
  /\ jp_apply (JArr [opj "test" "/zz" []]) (JObj []) = Crash
  /\ jp_apply (JArr [opj "test" "/a" [(bs "value", JArr [JNull])]]) (JObj [(bs "a", JArr [JNull])]) = Crash
  /\ jp_apply (JArr [opj "add" "/a" [(bs "value", jn 1)]]) JNull = Crash
  /\ jp_apply (JArr [opj "copy" "/a/99999999999" [(bs "from", S_ "/a/0")]]) doc_a12 = Fatal
  /\ jp_apply (JArr [opj "copy" "/a/9223372036854775806" [(bs "from", S_ "/a/0")]]) doc_a12 = Crash.
Proof. repeat split; vm_compute; reflexivity. Qed.

Definition doc_pk : json :=
  JObj [(bs "publicKey", JArr [JObj [(bs "id", S_ "k1")]]); (bs "service", JArr [JObj [(bs "id", S_ "s1")]]);
        (bs "x", jn 1)].

(* F10, "from" not checked: [{"op":"move","from":"/publicKey","path":"/y"}] removes the key section *)
Definition ops_move_from : json := JArr [opj "move" "/y" [(bs "from", S_ "/publicKey")]].

(* F10 again: copy shares the node, so the section can be edited through the copy:
   [{"op":"copy","from":"/publicKey","path":"/y"},{"op":"add","path":"/y/-","value":{"id":"evil"}}] *)
Definition ops_copy_alias : json :=
  JArr [opj "copy" "/y" [(bs "from", S_ "/publicKey")];
        opj "add" "/y/-" [(bs "value", JObj [(bs "id", S_ "evil")])]].

(* F10b: findObject ignores the text before the first "/", the prefix test does not:
   [{"op":"remove","path":"x/publicKey"}] removes the key section *)
Definition ops_no_leading_slash : json := JArr [opj "remove" "x/publicKey" []].

(* validateJSONPatches rejects the three lists since commits cb19e9e (F10) and 4fc3d15 (F10b) *)
Example old_witnesses_now_rejected :
  jsonpatch_paths_ok ops_move_from = false
  /\ jsonpatch_paths_ok ops_copy_alias = false
  /\ jsonpatch_paths_ok ops_no_leading_slash = false.
Proof. repeat split; reflexivity. Qed.

(* the library on its own applies all three and damages the sections: the protection is the validator's *)
Example engine_alone_does_not_protect :
  (exists d', jp_apply ops_move_from doc_pk = Ok d' /\ jmember "publicKey" d' = None)
  /\ (exists d', jp_apply ops_copy_alias doc_pk = Ok d'
        /\ jmember "publicKey" d' = Some (JArr [JObj [(bs "id", S_ "k1")]; JObj [(bs "id", S_ "evil")]]))
  /\ (exists d', jp_apply ops_no_leading_slash doc_pk = Ok d' /\ jmember "publicKey" d' = None).
Proof. split; [|split]; eexists; split; vm_compute; reflexivity. Qed.

Definition b_slash : byte := "/"%byte.
Definition b_tilde : byte := "~"%byte.

(* RFC 6901 escaping of one token *)
Fixpoint encode_key (k : bytes) : bytes :=
  match k with
  | [] => []
  | c :: r =>
    if Byte.eqb c b_tilde then b_tilde :: "0"%byte :: encode_key r
    else if Byte.eqb c b_slash then b_tilde :: "1"%byte :: encode_key r
    else c :: encode_key r
  end.

Example decode_key_examples :
  decode_key (bs "a~1b") = bs "a/b" /\ decode_key (bs "m~0n") = bs "m~n"
  /\ decode_key (bs "~01") = bs "~1" /\ decode_key (bs "~2~") = bs "~2~".
Proof. repeat split; reflexivity. Qed.

Lemma decode_key_plain : forall c e, Byte.eqb c b_tilde = false -> decode_key (c :: e) = c :: decode_key e.
Proof.
  intros c e H. destruct e as [|d t]; [reflexivity|].
  cbn [decode_key]. unfold tilde. fold b_tilde. rewrite H. reflexivity.
Qed.

Lemma decode_encode_key : forall k, decode_key (encode_key k) = k.
Proof.
  induction k as [|c r IH]; [reflexivity|].
  cbn [encode_key].
  destruct (Byte.eqb c b_tilde) eqn:Et.
  - apply byte_eqb_eq in Et. subst c. cbn. f_equal. exact IH.
  - destruct (Byte.eqb c b_slash) eqn:Es.
    + apply byte_eqb_eq in Es. subst c. cbn. f_equal. exact IH.
    + rewrite decode_key_plain by exact Et. f_equal. exact IH.
Qed.

Lemma encode_key_no_slash : forall k, ~ In b_slash (encode_key k).
Proof.
  induction k as [|c r IH]; cbn [encode_key]; [intros []|].
  destruct (Byte.eqb c b_tilde) eqn:Et.
  - intros [H|[H|H]]; try discriminate. auto.
  - destruct (Byte.eqb c b_slash) eqn:Es.
    + intros [H|[H|H]]; try discriminate. auto.
    + intros [H|H]; auto. subst c. vm_compute in Es. discriminate.
Qed.

Lemma add_dash_appends : forall l v, c_add (CAry l) [ "-"%byte ] v = ROk (CAry (l ++ [v])).
Proof. intros l v. reflexivity. Qed.

Lemma add_at_index_shifts : forall l key i v,
  is_dash key = false -> atoi key = Some (Z.of_nat i) -> (i <= length l)%nat ->
  c_add (CAry l) key v = ROk (CAry (firstn i l ++ v :: skipn i l)).
Proof.
  intros l key i v Hd Ha Hi. unfold c_add. rewrite Hd, Ha. unfold zlen.
  destruct (Z.of_nat i >=? Z.of_nat (length l) + 1)%Z eqn:E1; [lia|].
  destruct (Z.of_nat i <? - (Z.of_nat (length l) + 1))%Z eqn:E2; [lia|].
  destruct (Z.of_nat i <? 0)%Z eqn:E3; [lia|].
  rewrite Nat2Z.id. reflexivity.
Qed.

Lemma add_at_index_length : forall l key i v c,
  is_dash key = false -> atoi key = Some (Z.of_nat i) -> (i <= length l)%nat ->
  c_add (CAry l) key v = ROk c -> exists l', c = CAry l' /\ length l' = S (length l) /\ nth i l' HNil = v.
Proof.
  intros l key i v c Hd Ha Hi H. rewrite (add_at_index_shifts l key i v Hd Ha Hi) in H.
  inversion H. subst c. eexists. split; [reflexivity|]. split.
  - rewrite app_length. cbn [length]. rewrite firstn_length, skipn_length. lia.
  - rewrite app_nth2; rewrite firstn_length; [|lia].
    replace (i - Nat.min i (length l))%nat with O by lia. reflexivity.
Qed.

(* What the path check does protect: a frame theorem on the pointer graph. *)

Definition children (c : cnode) : list hval :=
  match c with CDoc m => map snd m | CAry l => l | CNilDoc => [] end.

Definition vfresh (lo hi : nat) (v : hval) : Prop :=
  match v with HRef r => (lo <= r < hi)%nat | _ => True end.

(* the inner loops of [load], named so that lemmas can be stated about them *)
Definition load_list :=
  fix go (l : list json) (h : heap) {struct l} : list hval * heap :=
    match l with
    | [] => ([], h)
    | x :: r => let '(v, h1) := load x h in let '(vs, h2) := go r h1 in (v :: vs, h2)
    end.

Definition load_members :=
  fix go (m : list (bytes * json)) (h : heap) {struct m} : list (bytes * hval) * heap :=
    match m with
    | [] => ([], h)
    | (k, x) :: r => let '(v, h1) := load x h in
                     let '(ms, h2) := go r h1 in
                     (if has_key k ms then ms else (k, v) :: ms, h2)
    end.

Lemma load_arr_eq : forall l h,
  load (JArr l) h = let '(vs, h1) := load_list l h in (HRef (length h1), h1 ++ [CAry vs]).
Proof. reflexivity. Qed.

Lemma load_obj_eq : forall m h,
  load (JObj m) h = let '(ms, h1) := load_members m h in (HRef (length h1), h1 ++ [CDoc ms]).
Proof. reflexivity. Qed.

Definition ext_ok (lo hi : nat) (ext : list cnode) : Prop :=
  Forall (fun c => Forall (vfresh lo hi) (children c)) ext.

Lemma vfresh_mono : forall lo hi lo' hi' v, (lo' <= lo)%nat -> (hi <= hi')%nat -> vfresh lo hi v -> vfresh lo' hi' v.
Proof. intros lo hi lo' hi' [| | |r] H1 H2 H; cbn in *; auto. lia. Qed.

Lemma Forall_vfresh_mono : forall lo hi lo' hi' l, (lo' <= lo)%nat -> (hi <= hi')%nat ->
  Forall (vfresh lo hi) l -> Forall (vfresh lo' hi') l.
Proof. intros lo hi lo' hi' l H1 H2 H. eapply Forall_impl; [|exact H]. intros a. apply vfresh_mono; auto. Qed.

Lemma ext_ok_impl : forall (Q : hval -> Prop) lo hi ext,
  (forall v, vfresh lo hi v -> Q v) -> ext_ok lo hi ext -> Forall (fun c => Forall Q (children c)) ext.
Proof.
  intros Q lo hi ext HQ H. eapply Forall_impl; [|exact H]. intros c Hc. eapply Forall_impl; [|exact Hc]. exact HQ.
Qed.

Lemma ext_mono : forall lo hi lo' hi' ext, (lo' <= lo)%nat -> (hi <= hi')%nat -> ext_ok lo hi ext -> ext_ok lo' hi' ext.
Proof. intros lo hi lo' hi' ext H1 H2. apply ext_ok_impl. intro v. apply vfresh_mono; assumption. Qed.

Lemma node_at_app_old : forall (h e : heap) r, (r < length h)%nat -> node_at (h ++ e) r = node_at h r.
Proof. intros. unfold node_at. apply app_nth1. auto. Qed.

Lemma node_at_app_last : forall (h : heap) c, node_at (h ++ [c]) (length h) = c.
Proof. intros. unfold node_at. rewrite app_nth2 by lia. rewrite Nat.sub_diag. reflexivity. Qed.

(* the children of a node of an extended heap: an old node keeps its children, a new node is one of the extension,
   and beyond the end there is the empty nil document *)
Lemma children_app : forall (Q : hval -> Prop) (h e : heap) r,
  ((r < length h)%nat -> Forall Q (children (node_at h r))) ->
  Forall (fun c => Forall Q (children c)) e -> Forall Q (children (node_at (h ++ e) r)).
Proof.
  intros Q h e r Hold Hnew. unfold node_at in *. destruct (Nat.lt_ge_cases r (length h)) as [Hr|Hr].
  - rewrite app_nth1 by exact Hr. exact (Hold Hr).
  - rewrite app_nth2 by exact Hr. destruct (nth_in_or_default (r - length h) e CNilDoc) as [Hin|E].
    + exact (proj1 (Forall_forall _ _) Hnew _ Hin).
    + rewrite E. constructor.
Qed.

(* [h1] is [h] followed by new nodes whose children point into the new part, and so do the values [vs] *)
Definition alloc_ok (h h1 : heap) (vs : list hval) : Prop :=
  exists ext, h1 = h ++ ext /\ Forall (vfresh (length h) (length h1)) vs /\ ext_ok (length h) (length h1) ext.

Lemma alloc_ok_same : forall h vs, Forall (vfresh (length h) (length h)) vs -> alloc_ok h h vs.
Proof. intros h vs H. exists []. rewrite app_nil_r. split; [reflexivity|]. split; [exact H|constructor]. Qed.

Lemma alloc_ok_app : forall h ha hb vs1 vs2,
  alloc_ok h ha vs1 -> alloc_ok ha hb vs2 -> alloc_ok h hb (vs1 ++ vs2).
Proof.
  intros h ha hb vs1 vs2 [e1 [E1 [H1 X1]]] [e2 [E2 [H2 X2]]]. subst ha hb. exists (e1 ++ e2).
  rewrite <- app_assoc in *. rewrite !app_length in *. split; [reflexivity|]. split; apply Forall_app; split.
  - eapply Forall_vfresh_mono; [| |exact H1]; lia.
  - eapply Forall_vfresh_mono; [| |exact H2]; lia.
  - eapply ext_mono; [| |exact X1]; lia.
  - eapply ext_mono; [| |exact X2]; lia.
Qed.

Lemma alloc_ok_incl : forall h h1 vs vs', incl vs' vs -> alloc_ok h h1 vs -> alloc_ok h h1 vs'.
Proof. intros h h1 vs vs' Hi [e [He [Hv X]]]. exists e. split; [exact He|]. split; [exact (incl_Forall Hi Hv)|exact X]. Qed.

(* a container is appended after the nodes of its elements *)
Lemma alloc_ok_node : forall h ha c, alloc_ok h ha (children c) -> alloc_ok h (ha ++ [c]) [HRef (length ha)].
Proof.
  intros h ha c [e [E [Hc X]]]. subst ha. exists (e ++ [c]). rewrite <- app_assoc. rewrite !app_length in *.
  cbn [length]. split; [reflexivity|]. split; [constructor; [cbn; lia|constructor]|]. apply Forall_app. split.
  - eapply ext_mono; [| |exact X]; lia.
  - constructor; [|constructor]. eapply Forall_vfresh_mono; [| |exact Hc]; lia.
Qed.

Definition load_ok (j : json) : Prop := forall h v h1, load j h = (v, h1) -> alloc_ok h h1 [v].

Lemma load_list_ok : forall l, Forall load_ok l ->
  forall h vs h1, load_list l h = (vs, h1) -> alloc_ok h h1 vs.
Proof.
  induction l as [|x r IH]; intros HF h vs h1 H.
  - inversion H. apply alloc_ok_same. constructor.
  - inversion HF as [|x' r' Hx Hr]. subst.
    cbn [load_list] in H. destruct (load x h) as [v ha] eqn:Ea.
    fold load_list in H. destruct (load_list r ha) as [vs' hb] eqn:Eb. inversion H. subst vs h1.
    exact (alloc_ok_app _ _ _ [v] vs' (Hx _ _ _ Ea) (IH Hr _ _ _ Eb)).
Qed.

Lemma load_members_ok : forall m, Forall (fun kv => load_ok (snd kv)) m ->
  forall h ms h1, load_members m h = (ms, h1) -> alloc_ok h h1 (map snd ms).
Proof.
  induction m as [|[k x] r IH]; intros HF h ms h1 H.
  - inversion H. apply alloc_ok_same. constructor.
  - inversion HF as [|x' r' Hx Hr]. subst.
    cbn [load_members] in H. destruct (load x h) as [v ha] eqn:Ea.
    fold load_members in H. destruct (load_members r ha) as [ms' hb] eqn:Eb. inversion H. subst ms h1.
    apply (alloc_ok_incl _ _ ([v] ++ map snd ms')); [|exact (alloc_ok_app _ _ _ _ _ (Hx _ _ _ Ea) (IH Hr _ _ _ Eb))].
    destruct (has_key k ms'); [apply incl_tl|]; apply incl_refl.
Qed.

Lemma load_spec : forall j, load_ok j.
Proof.
  apply JcsProofs.json_ind'.
  1-4: intros; intros h v h1 H; inversion H; apply alloc_ok_same; repeat constructor.
  - intros l HF h v h1 H. rewrite load_arr_eq in H. destruct (load_list l h) as [vs ha] eqn:Ea. inversion H.
    exact (alloc_ok_node h ha (CAry vs) (load_list_ok l HF h vs ha Ea)).
  - intros m HF h v h1 H. rewrite load_obj_eq in H. destruct (load_members m h) as [ms ha] eqn:Ea. inversion H.
    exact (alloc_ok_node h ha (CDoc ms) (load_members_ok m HF h ms ha Ea)).
Qed.

Lemma load_list_spec : forall l h vs h1, load_list l h = (vs, h1) -> alloc_ok h h1 vs.
Proof. intro l. apply load_list_ok. apply Forall_forall. intros x _. apply load_spec. Qed.

Lemma load_members_spec : forall m h ms h1, load_members m h = (ms, h1) -> alloc_ok h h1 (map snd ms).
Proof. intro m. apply load_members_ok. apply Forall_forall. intros x _. apply load_spec. Qed.

(* the node the operation value becomes; null is not loaded *)
Lemma value_node_spec : forall o h v h1, value_node o h = (v, h1) -> alloc_ok h h1 [v].
Proof.
  intros o h v h1 H. unfold value_node in H.
  destruct (o_value o) as [[| | | | |]|]; try exact (load_spec _ h v h1 H);
    inversion H; apply alloc_ok_same; repeat constructor.
Qed.

Lemma Forall_upd_nth : forall A (Q : A -> Prop) l n x, Forall Q l -> Q x -> Forall Q (upd_nth n x l).
Proof.
  induction l as [|y l IH]; intros [|n] x Hl Hx; cbn; auto; inversion Hl; subst; constructor; auto.
Qed.

Lemma Forall_firstn_skipn : forall A (Q : A -> Prop) i l, Forall Q l -> Forall Q (firstn i l) /\ Forall Q (skipn i l).
Proof. intros A Q i l H. rewrite <- (firstn_skipn i l) in H. apply Forall_app in H. exact H. Qed.

Lemma hget_In : forall k m v, hget k m = Some v -> In (k, v) m.
Proof.
  induction m as [|[k' x] m IH]; intros v H; cbn in H; [discriminate|].
  destruct (bytes_eqb k k') eqn:E.
  - apply bytes_eqb_eq in E. subst k'. inversion H. subst. left. reflexivity.
  - right. auto.
Qed.

Lemma Forall_hset : forall (P : bytes * hval -> Prop) k v m, Forall P m -> P (k, v) -> Forall P (hset k v m).
Proof.
  intros P k v m Hm Hv. induction Hm as [|[k0 x0] m H0 Hm IH]; cbn [hset]; [repeat constructor; exact Hv|].
  destruct (bytes_eqb k k0); constructor; auto.
Qed.

Lemma Forall_hremove : forall (P : bytes * hval -> Prop) k m, Forall P m -> Forall P (hremove k m).
Proof.
  intros P k m Hm. induction Hm as [|[k0 x0] m H0 Hm IH]; cbn [hremove]; [constructor|].
  destruct (bytes_eqb k k0); auto.
Qed.

Lemma hget_hset_other : forall k v m k', bytes_eqb k' k = false -> hget k' (hset k v m) = hget k' m.
Proof.
  induction m as [|[k0 x0] m IH]; intros k' H; cbn.
  - rewrite H. reflexivity.
  - destruct (bytes_eqb k k0) eqn:E.
    + apply bytes_eqb_eq in E. subst k0. cbn. rewrite H. reflexivity.
    + cbn. destruct (bytes_eqb k' k0); auto.
Qed.

Lemma hget_hremove_other : forall k m k', bytes_eqb k' k = false -> hget k' (hremove k m) = hget k' m.
Proof.
  induction m as [|[k0 x0] m IH]; intros k' H; cbn; auto.
  destruct (bytes_eqb k k0) eqn:E.
  - apply bytes_eqb_eq in E. subst k0. rewrite H. auto.
  - cbn. destruct (bytes_eqb k' k0); auto.
Qed.

Lemma c_get_child : forall c k v, c_get c k = ROk v -> v = HNil \/ In v (children c).
Proof.
  intros [m|l|] k v H; cbn in H.
  - inversion H. destruct (hget k m) as [x|] eqn:E; auto.
    right. apply hget_In in E. cbn. apply in_map_iff. exists (k, x). auto.
  - destruct (atoi k) as [idx|]; [|discriminate].
    destruct (idx >=? zlen l)%Z eqn:E1; [discriminate|].
    destruct (idx <? 0)%Z eqn:E2; [discriminate|].
    inversion H. right. cbn. apply nth_In. unfold zlen in E1. lia.
  - inversion H. auto.
Qed.

(* What the three writing methods do to a container, as far as the invariant can see: whatever holds of the old
   members (of the old elements, the written value and nil) holds of the new ones, and an object keeps the slots of
   all other names. *)
Inductive wrote (key : bytes) (v : hval) : cnode -> cnode -> Prop :=
| wrote_doc : forall rm rm',
    (forall P : bytes * hval -> Prop, Forall P rm -> P (key, v) -> Forall P rm') ->
    (forall k, bytes_eqb k key = false -> hget k rm' = hget k rm) -> wrote key v (CDoc rm) (CDoc rm')
| wrote_ary : forall l l',
    (forall Q : hval -> Prop, Forall Q l -> Q v -> Q HNil -> Forall Q l') -> wrote key v (CAry l) (CAry l').

Lemma wrote_hset : forall key v rm, wrote key v (CDoc rm) (CDoc (hset key v rm)).
Proof. intros. constructor; [intros P; apply Forall_hset|intros k; apply hget_hset_other]. Qed.

Lemma c_set_wrote : forall c key v c', c_set c key v = ROk c' -> wrote key v c c'.
Proof.
  intros [m|l|] key v c' H; cbn in H; [inversion H; apply wrote_hset| |discriminate].
  destruct (is_dash key).
  { inversion H. constructor. intros Q Hl Hv _. apply Forall_app. split; auto. }
  destruct (atoi key) as [idx|]; [|discriminate].
  destruct (idx =? max_int)%Z; [discriminate|].
  destruct (idx <? 0)%Z; [discriminate|].
  destruct (idx <? zlen l)%Z.
  { inversion H. constructor. intros Q Hl Hv _. apply Forall_upd_nth; auto. }
  destruct (idx >=? makeslice_limit)%Z; [discriminate|].
  destruct (idx - zlen l >? pad_limit)%Z; [discriminate|].
  inversion H. constructor. intros Q Hl Hv Hn.
  apply Forall_app. split; [exact Hl|]. apply Forall_app. split; [|auto].
  apply Forall_forall. intros x Hx. apply repeat_spec in Hx. subst x. exact Hn.
Qed.

Lemma c_add_wrote : forall c key v c', c_add c key v = ROk c' -> wrote key v c c'.
Proof.
  intros [m|l|] key v c' H; cbn in H; [inversion H; apply wrote_hset| |discriminate].
  destruct (is_dash key).
  { inversion H. constructor. intros Q Hl Hv _. apply Forall_app. split; auto. }
  destruct (atoi key) as [idx|]; [|discriminate].
  destruct (idx >=? zlen l + 1)%Z; [discriminate|].
  destruct (idx <? - (zlen l + 1))%Z; [discriminate|].
  cbv zeta in H. inversion H. constructor. intros Q Hl Hv _. set (i := Z.to_nat _).
  destruct (Forall_firstn_skipn _ Q i l Hl) as [Hf Hs]. apply Forall_app. split; auto.
Qed.

Lemma c_remove_wrote : forall c key v c', c_remove c key = ROk c' -> wrote key v c c'.
Proof.
  intros [m|l|] key v c' H; cbn in H; [| |discriminate].
  - destruct (has_key key m); [|discriminate]. inversion H.
    constructor; [intros P Hm _; apply Forall_hremove, Hm|intros k; apply hget_hremove_other].
  - destruct (atoi key) as [idx|]; [|discriminate].
    destruct (idx >=? zlen l)%Z; [discriminate|].
    destruct (idx <? - zlen l)%Z; [discriminate|].
    cbv zeta in H. inversion H. constructor. intros Q Hl _ _. set (i := Z.to_nat _).
    destruct (Forall_firstn_skipn _ Q i l Hl) as [Hf _]. destruct (Forall_firstn_skipn _ Q (S i) l Hl) as [_ Hs].
    apply Forall_app. split; auto.
Qed.

(* the inner loops of [unfold] *)
Definition unfold_members (f : nat) (h : heap) :=
  fix go (m : list (bytes * hval)) : option (list (bytes * json)) :=
    match m with
    | [] => Some []
    | (k, x) :: rest =>
      match unfold f h x, go rest with
      | Some j, Some js => Some ((k, j) :: js)
      | _, _ => None
      end
    end.

Definition unfold_list (f : nat) (h : heap) :=
  fix go (l : list hval) : option (list json) :=
    match l with
    | [] => Some []
    | x :: rest =>
      match unfold f h x, go rest with
      | Some j, Some js => Some (j :: js)
      | _, _ => None
      end
    end.

Lemma unfold_ref : forall f h r,
  unfold (S f) h (HRef r) =
  match node_at h r with
  | CNilDoc => Some JNull
  | CDoc m => match unfold_members f h m with Some js => Some (JObj js) | None => None end
  | CAry l => match unfold_list f h l with Some js => Some (JArr js) | None => None end
  end.
Proof. reflexivity. Qed.

Lemma unfold_members_ext : forall f h h' m,
  (forall x, In x (map snd m) -> unfold f h' x = unfold f h x) -> unfold_members f h' m = unfold_members f h m.
Proof.
  intros f h h' m. induction m as [|[k x] m IH]; intro H; [reflexivity|].
  change (match unfold f h' x, unfold_members f h' m with Some j, Some js => Some ((k, j) :: js) | _, _ => None end
          = match unfold f h x, unfold_members f h m with Some j, Some js => Some ((k, j) :: js) | _, _ => None end).
  rewrite (H x (or_introl eq_refl)), IH; [reflexivity|]. intros y Hy. apply H. right. exact Hy.
Qed.

Lemma unfold_list_ext : forall f h h' l,
  (forall x, In x l -> unfold f h' x = unfold f h x) -> unfold_list f h' l = unfold_list f h l.
Proof.
  intros f h h' l. induction l as [|x l IH]; intro H; [reflexivity|].
  change (match unfold f h' x, unfold_list f h' l with Some j, Some js => Some (j :: js) | _, _ => None end
          = match unfold f h x, unfold_list f h l with Some j, Some js => Some (j :: js) | _, _ => None end).
  rewrite (H x (or_introl eq_refl)), IH; [reflexivity|]. intros y Hy. apply H. right. exact Hy.
Qed.

Section Protected.
Variable prot : bytes -> bool.     (* protected member names of the root object *)
Variable S : nat -> bool.          (* protected container nodes; hides the successor [S] up to the end of the section *)
Variable root : nat.

(* a value that may sit in an unprotected place *)
Definition okv (n : nat) (v : hval) : Prop :=
  match v with HRef r => S r = false /\ r <> root /\ (r < n)%nat | _ => True end.

(* [S] and the root lie inside the heap, the root is not in [S], and no unprotected place - a node outside [S] other
   than the root, or a slot of the root with an unprotected name - holds a reference into [S] or to the root.  Hence a
   walk that leaves the root through an unprotected name never enters [S] ([walk_unprot]). *)
Record Inv (h : heap) : Prop := {
  inv_root_lt : (root < length h)%nat;
  inv_S_lt : forall r, S r = true -> (r < length h)%nat;
  inv_S_root : S root = false;
  inv_nodes : forall r, S r = false -> r <> root -> Forall (okv (length h)) (children (node_at h r));
  inv_rootnode : exists rm, node_at h root = CDoc rm
                            /\ forall k v, In (k, v) rm -> prot k = false -> okv (length h) v }.

(* what a run may make of [h]: no node is dropped, the nodes in [S] and the protected slots of the root keep their content *)
Definition Frame (h h' : heap) : Prop :=
  (length h <= length h')%nat
  /\ (forall r, S r = true -> node_at h' r = node_at h r)
  /\ (forall rm, node_at h root = CDoc rm ->
        exists rm', node_at h' root = CDoc rm' /\ forall k, prot k = true -> hget k rm' = hget k rm).

Lemma Frame_refl : forall h, Frame h h.
Proof. intros h. split; [lia|]. split; auto. intros rm H. exists rm. auto. Qed.

Lemma Frame_trans : forall h1 h2 h3, Frame h1 h2 -> Frame h2 h3 -> Frame h1 h3.
Proof.
  intros h1 h2 h3 [L1 [N1 R1]] [L2 [N2 R2]]. split; [lia|]. split.
  - intros r Hr. rewrite N2, N1; auto.
  - intros rm Hrm. destruct (R1 rm Hrm) as [rm2 [H2 K2]]. destruct (R2 rm2 H2) as [rm3 [H3 K3]].
    exists rm3. split; auto. intros k Hk. rewrite K3, K2; auto.
Qed.

Lemma okv_mono : forall n n' v, (n <= n')%nat -> okv n v -> okv n' v.
Proof. intros n n' [| | |r] Hle H; cbn in *; auto. destruct H as [A [B C]]. repeat split; auto. lia. Qed.

Lemma okv_nil : forall n, okv n HNil.
Proof. intros n. exact I. Qed.

(* reading from an unprotected place yields an unprotected value *)
Lemma get_okv : forall h r key v,
  Inv h -> S r = false -> (r = root -> prot key = false) ->
  c_get (node_at h r) key = ROk v -> okv (length h) v.
Proof.
  intros h r key v HI HS Hk Hg.
  destruct (Nat.eq_dec r root) as [E|E].
  - subst r. destruct (inv_rootnode h HI) as [rm [Hrm Hmem]]. rewrite Hrm in Hg. cbn in Hg.
    inversion Hg. destruct (hget key rm) as [x|] eqn:Ex; [|exact I].
    apply hget_In in Ex. eapply Hmem; eauto.
  - apply c_get_child in Hg. destruct Hg as [Hg|Hg]; [subst v; exact I|].
    pose proof (inv_nodes h HI r HS E) as HF. eapply Forall_forall in HF; eauto.
Qed.

(* findObject never enters a protected node when the first token is not a protected name *)
Lemma walk_unprot : forall h, Inv h -> forall parts r0 r,
  walk h r0 parts = ROk r -> S r0 = false -> (r0 < length h)%nat ->
  (r0 = root -> match parts with [] => True | p :: _ => prot p = false end) ->
  S r = false /\ (r < length h)%nat /\ (r = root -> parts = [] /\ r0 = root).
Proof.
  intros h HI parts. induction parts as [|p rest IH]; intros r0 r Hw HS Hlt Hfirst.
  - cbn in Hw. inversion Hw. subst. auto.
  - cbn [walk] in Hw. unfold rbind in Hw.
    destruct (c_get (node_at h r0) p) as [next| | |] eqn:Eg; try discriminate.
    assert (Hok : okv (length h) next) by (eapply get_okv; eauto).
    destruct next as [| | j | r']; try discriminate.
    cbn in Hok. destruct Hok as [HS' [Hne Hlt']].
    apply IH in Hw; auto; [|intros E; contradiction].
    destruct Hw as [A [B C]]. split; auto. split; auto.
    intros E. apply C in E. destruct E as [_ E]. contradiction.
Qed.

Definition unprot (p : bytes) : Prop :=
  match decode_pointer p with Some (t :: _) => prot t = false | _ => True end.

Lemma decode_pointer_nonempty : forall p, decode_pointer p <> Some [].
Proof.
  intros p. unfold decode_pointer. destruct (split_slash p) as [|x [|y l]]; try discriminate.
Qed.

Lemma removelast_first : forall (t : bytes) ts,
  match removelast (t :: ts) with [] => ts = [] | p :: _ => p = t end.
Proof. intros t [|t2 ts]; cbn; auto. Qed.

Lemma rbind_ok : forall (A B : Type) (r : res A) (f : A -> res B) b,
  rbind r f = ROk b -> exists a, r = ROk a /\ f a = ROk b.
Proof. intros A B [a| | |] f b H; try discriminate H. exists a. split; [reflexivity|exact H]. Qed.

(* an operation that gets past findObject on an unprotected pointer goes on with an unprotected place *)
Lemma find_step : forall h p (A : Type) (k : nat * bytes -> res A) a,
  Inv h -> unprot p -> rbind (find_object h root p) k = ROk a ->
  exists r key, S r = false /\ (r < length h)%nat /\ (r = root -> prot key = false) /\ k (r, key) = ROk a.
Proof.
  intros h p A k a HI Hu H. apply rbind_ok in H. destruct H as [[r key] [Hf H]]. exists r, key.
  unfold find_object in Hf. unfold unprot in Hu.
  destruct (decode_pointer p) as [toks|] eqn:Ed; [|discriminate].
  destruct (walk h root (removelast toks)) as [r1| | |] eqn:Ew; try discriminate.
  inversion Hf. subst r1 key. clear Hf.
  destruct toks as [|t ts]; [exfalso; eapply decode_pointer_nonempty; eauto|].
  pose proof (removelast_first t ts) as Hrl.
  apply (walk_unprot h HI) in Ew; [|apply (inv_S_root h HI)|apply (inv_root_lt h HI)|].
  - destruct Ew as [A0 [B C]]. split; auto. split; auto. split; [|exact H]. intros E. apply C in E. destruct E as [E _].
    rewrite E in Hrl. subst ts. cbn. exact Hu.
  - intros _. destruct (removelast (t :: ts)); auto. subst. exact Hu.
Qed.

Lemma length_put : forall h r c, length (put h r c) = length h.
Proof. unfold put. induction h as [|y h IH]; intros [|r] c; cbn; auto. Qed.

Lemma node_at_put_eq : forall h r c, (r < length h)%nat -> node_at (put h r c) r = c.
Proof. unfold put, node_at. induction h as [|y h IH]; intros [|r] c H; cbn in *; try lia; auto. apply IH. lia. Qed.

Lemma node_at_put_neq : forall h r r' c, r <> r' -> node_at (put h r c) r' = node_at h r'.
Proof. unfold put, node_at. induction h as [|y h IH]; intros [|r] [|r'] c H; cbn; auto; congruence. Qed.

Lemma prot_differs : forall k key, prot k = true -> prot key = false -> bytes_eqb k key = false.
Proof.
  intros k key H1 H2. destruct (bytes_eqb k key) eqn:E; auto.
  apply bytes_eqb_eq in E. subst. rewrite H1 in H2. discriminate.
Qed.

(* writing an unprotected value at an unprotected place *)
Lemma write_ok : forall h r key v c',
  Inv h -> S r = false -> (r < length h)%nat -> (r = root -> prot key = false) -> okv (length h) v ->
  wrote key v (node_at h r) c' -> Inv (put h r c') /\ Frame h (put h r c').
Proof.
  intros h r key v c' HI HS Hlt Hk Hv Hw.
  destruct (inv_rootnode h HI) as [rm [Hrm Hmem]].
  assert (Hch : r <> root -> Forall (okv (length h)) (children c')).
  { intro Hne. pose proof (inv_nodes h HI r HS Hne) as HF.
    destruct Hw as [rm0 rm' HP _|l l' HQ]; cbn [children] in *.
    - apply Forall_map. exact (HP _ (proj1 (Forall_map snd _ _) HF) Hv).
    - exact (HQ _ HF Hv I). }
  assert (Hrt : r = root -> exists rm', c' = CDoc rm'
            /\ (forall k x, In (k, x) rm' -> prot k = false -> okv (length h) x)
            /\ (forall k, prot k = true -> hget k rm' = hget k rm)).
  { intro E. subst r. rewrite Hrm in Hw. inversion Hw as [rm0 rm' HP Hg|]; subst. exists rm'.
    split; [reflexivity|]. split; [|intros k Hp; apply Hg, prot_differs; auto].
    assert (HF : Forall (fun kx => prot (fst kx) = false -> okv (length h) (snd kx)) rm').
    { apply HP; [apply Forall_forall; intros [k x] Hin; exact (Hmem k x Hin)|intros _; exact Hv]. }
    intros k x Hin. exact (proj1 (Forall_forall _ _) HF (k, x) Hin). }
  split.
  - constructor; rewrite ?length_put.
    + apply (inv_root_lt h HI).
    + apply (inv_S_lt h HI).
    + apply (inv_S_root h HI).
    + intros r1 HS1 Hne. destruct (Nat.eq_dec r r1) as [E|E].
      * subst r1. rewrite node_at_put_eq by auto. auto.
      * rewrite node_at_put_neq by auto. apply (inv_nodes h HI); auto.
    + destruct (Nat.eq_dec r root) as [E|E].
      * destruct (Hrt E) as [rm' [B [C D]]]. subst r c'. exists rm'. rewrite node_at_put_eq by auto. auto.
      * exists rm. rewrite node_at_put_neq by auto. auto.
  - split; [rewrite length_put; lia|]. split.
    + intros r1 HS1. apply node_at_put_neq. intros E. subst r1. rewrite HS in HS1. discriminate.
    + intros rm0 Hrm0. rewrite Hrm in Hrm0. inversion Hrm0. subst rm0. destruct (Nat.eq_dec r root) as [E|E].
      * destruct (Hrt E) as [rm' [B [C D]]]. subst r c'. exists rm'. rewrite node_at_put_eq by auto. auto.
      * exists rm. rewrite node_at_put_neq by auto. auto.
Qed.

Lemma vfresh_okv : forall h hi v, Inv h -> vfresh (length h) hi v -> okv hi v.
Proof.
  intros h hi [| | |r] HI Hv; cbn in *; auto. destruct Hv as [Hlo Hhi]. split; [|split; [|exact Hhi]].
  - destruct (S r) eqn:E; auto. apply (inv_S_lt h HI) in E. lia.
  - pose proof (inv_root_lt h HI). lia.
Qed.

(* loading the operation value only appends fresh nodes *)
Lemma value_node_ok : forall h o v h1,
  Inv h -> value_node o h = (v, h1) -> Inv h1 /\ Frame h h1 /\ okv (length h1) v.
Proof.
  intros h o v h1 HI H. destruct (value_node_spec o h v h1 H) as [ext [He [Hv Hext]]]. subst h1.
  assert (Hlen : (length h <= length (h ++ ext))%nat) by (rewrite app_length; lia).
  pose proof (inv_root_lt h HI) as Hroot.
  split; [|split; [|exact (vfresh_okv h _ v HI (Forall_inv Hv))]].
  - constructor.
    + lia.
    + intros r Hr. apply (inv_S_lt h HI) in Hr. lia.
    + apply (inv_S_root h HI).
    + intros r HS Hne. apply children_app.
      * intros _. eapply Forall_impl; [|apply (inv_nodes h HI r HS Hne)]. intros a. apply okv_mono. exact Hlen.
      * exact (ext_ok_impl _ _ _ _ (fun v => vfresh_okv h _ v HI) Hext).
    + destruct (inv_rootnode h HI) as [rm [Hrm Hmem]]. exists rm.
      rewrite node_at_app_old by exact Hroot. split; auto.
      intros k x Hin Hp. eapply okv_mono; [exact Hlen|]. eapply Hmem; eauto.
  - split; [exact Hlen|]. split.
    + intros r Hr. apply node_at_app_old. apply (inv_S_lt h HI). exact Hr.
    + intros rm Hrm. exists rm. rewrite node_at_app_old by exact Hroot. auto.
Qed.

Definition op_unprot (o : op) : Prop :=
  unprot (o_path o) /\ ((kind_is o "move" || kind_is o "copy") = true -> unprot (o_from o)).

(* Every operation finds its places by [find_step], reads by [get_okv], loads its value by [value_node_ok] and
   writes by [write_ok]. *)
Lemma apply_op_ok : forall h o h', Inv h -> op_unprot o -> apply_op h root o = ROk h' -> Inv h' /\ Frame h h'.
Proof.
  intros h o h' HI [Hp Hfrom] H. unfold apply_op in H.
  destruct (kind_is o "add").
  { unfold op_add in H. apply find_step in H; auto. destruct H as [r [key [HS [Hlt [Hk H]]]]].
    destruct (value_node o h) as [v h1] eqn:Ev. destruct (value_node_ok h o v h1 HI Ev) as [HI1 [HF1 Hv]].
    apply rbind_ok in H. destruct H as [c [Ec H]]. inversion H. subst h'.
    assert (Hlt1 : (r < length h1)%nat) by (destruct HF1 as [L _]; lia).
    destruct (write_ok h1 r key v c HI1 HS Hlt1 Hk Hv (c_add_wrote _ _ _ _ Ec)) as [A B].
    split; [exact A|exact (Frame_trans _ _ _ HF1 B)]. }
  destruct (kind_is o "remove").
  { unfold op_remove in H. apply find_step in H; auto. destruct H as [r [key [HS [Hlt [Hk H]]]]].
    apply rbind_ok in H. destruct H as [c [Ec H]]. inversion H. subst h'.
    exact (write_ok h r key HNil c HI HS Hlt Hk I (c_remove_wrote _ _ _ _ Ec)). }
  destruct (kind_is o "replace").
  { unfold op_replace in H. apply find_step in H; auto. destruct H as [r [key [HS [Hlt [Hk H]]]]].
    apply rbind_ok in H. destruct H as [old [_ H]].
    destruct (value_node o h) as [v h1] eqn:Ev. destruct (value_node_ok h o v h1 HI Ev) as [HI1 [HF1 Hv]].
    apply rbind_ok in H. destruct H as [c [Ec H]]. inversion H. subst h'.
    assert (Hlt1 : (r < length h1)%nat) by (destruct HF1 as [L _]; lia).
    destruct (write_ok h1 r key v c HI1 HS Hlt1 Hk Hv (c_set_wrote _ _ _ _ Ec)) as [A B].
    split; [exact A|exact (Frame_trans _ _ _ HF1 B)]. }
  destruct (kind_is o "move") eqn:Em.
  { unfold op_move in H. apply find_step in H; auto. destruct H as [r [key [HS [Hlt [Hk H]]]]].
    apply rbind_ok in H. destruct H as [v [Eg H]]. pose proof (get_okv h r key v HI HS Hk Eg) as Hv.
    apply rbind_ok in H. destruct H as [c [Ec H]].
    destruct (write_ok h r key HNil c HI HS Hlt Hk I (c_remove_wrote _ _ _ _ Ec)) as [HI1 HF1].
    apply find_step in H; auto. destruct H as [r2 [key2 [HS2 [Hlt2 [Hk2 H]]]]].
    apply rbind_ok in H. destruct H as [c2 [Ec2 H]]. inversion H. subst h'.
    rewrite <- (length_put h r c) in Hv.
    destruct (write_ok _ r2 key2 v c2 HI1 HS2 Hlt2 Hk2 Hv (c_set_wrote _ _ _ _ Ec2)) as [A B].
    split; [exact A|exact (Frame_trans _ _ _ HF1 B)]. }
  destruct (kind_is o "test").
  { unfold op_test in H. apply rbind_ok in H. destruct H as [[r key] [_ H]].
    apply rbind_ok in H. destruct H as [v [_ H]].
    assert (E : h' = h).
    { destruct (o_value o) as [ov|]; [|destruct v; discriminate]. destruct v.
      - destruct ov; try discriminate; inversion H; reflexivity.
      - destruct (hequal h HRawNil ov true); try discriminate; inversion H; reflexivity.
      - destruct (hequal h (HScalar j) ov true); try discriminate; inversion H; reflexivity.
      - destruct (hequal h (HRef r0) ov true); try discriminate; inversion H; reflexivity. }
    subst h'. split; [exact HI|apply Frame_refl]. }
  destruct (kind_is o "copy") eqn:Ec; [|discriminate].
  unfold op_copy in H. apply find_step in H; auto. destruct H as [r [key [HS [Hlt [Hk H]]]]].
  apply rbind_ok in H. destruct H as [v [Eg H]]. pose proof (get_okv h r key v HI HS Hk Eg) as Hv.
  apply find_step in H; auto. destruct H as [r2 [key2 [HS2 [Hlt2 [Hk2 H]]]]].
  apply rbind_ok in H. destruct H as [c2 [Ec2 H]]. inversion H. subst h'.
  exact (write_ok h r2 key2 v c2 HI HS2 Hlt2 Hk2 Hv (c_set_wrote _ _ _ _ Ec2)).
Qed.

Theorem apply_ops_frame : forall os h h',
  Inv h -> Forall op_unprot os -> apply_ops h root os = ROk h' -> Inv h' /\ Frame h h'.
Proof.
  induction os as [|o os IH]; intros h h' HI HF H.
  - cbn in H. inversion H. subst. split; [auto|apply Frame_refl].
  - inversion HF as [|o' os' Ho Hos]. subst.
    cbn [apply_ops] in H. apply rbind_ok in H. destruct H as [h1 [E1 H]].
    destruct (apply_op_ok h o h1 HI Ho E1) as [HI1 HF1].
    destruct (IH h1 h' HI1 Hos H) as [A B]. split; auto. eapply Frame_trans; eauto.
Qed.

(* the protected part marshals to the same JSON: nodes in [S] refer to nodes in [S] only ([closed]) *)
Definition vprot (v : hval) : Prop := match v with HRef r => S r = true | _ => True end.
Definition closed (h : heap) : Prop := forall r, S r = true -> Forall vprot (children (node_at h r)).

Lemma unfold_frame : forall h h', closed h -> (forall r, S r = true -> node_at h' r = node_at h r) ->
  forall f v, vprot v -> unfold f h' v = unfold f h v.
Proof.
  intros h h' Hcl Hsame. induction f as [|f IH]; intros v Hv.
  - destruct v; reflexivity.
  - destruct v as [| | j | r]; try reflexivity.
    cbn [vprot] in Hv. rewrite !unfold_ref, (Hsame r Hv).
    pose proof (proj1 (Forall_forall _ _) (Hcl r Hv)) as Hch.
    destruct (node_at h r) as [m|l|]; [| |reflexivity]; cbn [children] in Hch.
    + rewrite (unfold_members_ext f h h' m); [reflexivity|]. intros x Hx. apply IH, Hch, Hx.
    + rewrite (unfold_list_ext f h h' l); [reflexivity|]. intros x Hx. apply IH, Hch, Hx.
Qed.

(* The graph-level statement; [jsonpatch_protects] is its JSON-level form and rests on the same two lemmas,
   [apply_ops_frame] and [unfold_frame].
   If every operation's [path] - and, for move and copy, its [from] - has a first token that is not a
   protected name, then after a successful run every protected root member still holds the same slot
   content, no protected node was written, and so each protected member marshals to the same JSON. *)
Theorem jsonpatch_protects_partial : forall os h h',
  Inv h -> closed h -> Forall op_unprot os -> apply_ops h root os = ROk h' ->
  forall rm, node_at h root = CDoc rm ->
  exists rm', node_at h' root = CDoc rm'
    /\ forall k, prot k = true -> hget k rm' = hget k rm
       /\ forall f v, hget k rm = Some v -> vprot v -> unfold f h' v = unfold f h v.
Proof.
  intros os h h' HI Hcl HF H rm Hrm.
  destruct (apply_ops_frame os h h' HI HF H) as [_ [_ [Hsame Hroot]]].
  destruct (Hroot rm Hrm) as [rm' [Hrm' Hk]].
  exists rm'. split; auto. intros k Hp. split; auto.
  intros f v _ Hv. apply unfold_frame; auto.
Qed.

End Protected.

(* the hypotheses of [jsonpatch_protects_partial] hold for the heap loaded from [doc_pk] *)
Definition prot_sections (k : bytes) : bool := bytes_eqb k (bs "publicKey") || bytes_eqb k (bs "service").
Definition ex_heap : heap := match load_root doc_pk with Some (_, h) => h | None => [] end.
Definition ex_S (r : nat) : bool := (r <? 4)%nat.   (* nodes 0-3 are the two sections, 4 is the root *)

Example ex_inv : Inv prot_sections ex_S 4 ex_heap /\ closed ex_S ex_heap.
Proof.
  split.
  - constructor.
    + vm_compute. lia.
    + intros r H. unfold ex_S in H. apply Nat.ltb_lt in H. vm_compute. lia.
    + reflexivity.
    + intros r H Hne. unfold ex_S in H. apply Nat.ltb_ge in H.
      destruct r as [|[|[|[|[|r]]]]]; try lia. unfold node_at.
      rewrite nth_overflow; [constructor|]. change (length ex_heap) with 5%nat. lia.
    + eexists. split; [vm_compute; reflexivity|].
      intros k v [H|[H|[H|[]]]] Hp; inversion H; subst; try (vm_compute in Hp; discriminate). exact I.
  - intros r H. unfold ex_S in H. apply Nat.ltb_lt in H.
    destruct r as [|[|[|[|r]]]]; try lia; vm_compute; repeat constructor.
Qed.

Example ex_ops_unprot :
  match decode_patch (JArr [opj "add" "/x/y" [(bs "value", jn 1)]; opj "copy" "/z" [(bs "from", S_ "/x")]]) with
  | Some os => Forall (op_unprot prot_sections) os
  | None => False
  end.
Proof.
  destruct (decode_patch _) as [os|] eqn:E; vm_compute in E; [injection E as <-|discriminate E].
  constructor; [split; [reflexivity|intros _; exact I]|].
  constructor; [split; [reflexivity|intros _; reflexivity]|constructor].
Qed.

(* the code's rule is a string prefix test: names that START WITH "service" / "publicKey" *)
Definition prot_prefix (k : bytes) : bool := has_prefix (bs "service") k || has_prefix (bs "publicKey") k.

Lemma has_prefix_trans : forall p x s, has_prefix p x = true -> has_prefix x s = true -> has_prefix p s = true.
Proof.
  induction p as [|a p IH]; intros x s H1 H2; [reflexivity|].
  destruct x as [|b x]; [discriminate|]. destruct s as [|c s]; [discriminate|].
  cbn in *. apply andb_true_iff in H1. destruct H1 as [E1 H1]. apply andb_true_iff in H2. destruct H2 as [E2 H2].
  apply byte_eqb_eq in E1. apply byte_eqb_eq in E2. subst.
  apply andb_true_iff. split; [apply Byte.byte_dec_lb; reflexivity|]. eapply IH; eauto.
Qed.

Lemma split_first_prefix : forall s, exists x xs, split_slash s = x :: xs /\ has_prefix x s = true.
Proof.
  induction s as [|c r IH].
  - exists [], []. split; reflexivity.
  - cbn [split_slash]. destruct (Byte.eqb c slash).
    + exists [], (split_slash r). split; reflexivity.
    + destruct IH as [x [xs [E H]]]. rewrite E. exists (c :: x), xs. split; [reflexivity|].
      cbn. rewrite H. rewrite andb_true_r. apply Byte.byte_dec_lb. reflexivity.
Qed.

Definition plain (p : bytes) : Prop := Forall (fun b => Byte.eqb b tilde = false /\ Byte.eqb b slash = false) p.

(* unescaping cannot create a "~"- and "/"-free prefix that was not there before *)
Lemma prefix_decode_key : forall p x, plain p -> has_prefix p (decode_key x) = true -> has_prefix p x = true.
Proof.
  induction p as [|a p IH]; intros x Hp H; [reflexivity|].
  inversion Hp as [|a' p' [Ha1 Ha2] Hp']. subst.
  destruct x as [|c [|d r]].
  - cbn in H. discriminate.
  - cbn in H. exact H.
  - cbn [decode_key] in H.
    destruct (Byte.eqb c tilde) eqn:Ec.
    + apply byte_eqb_eq in Ec. subst c.
      (* the decoded text begins with "/" or "~" *)
      assert (Hhd : a = slash \/ a = tilde).
      { destruct (Byte.eqb d "1"%byte); [|destruct (Byte.eqb d "0"%byte)]; cbn in H;
          apply andb_true_iff in H; destruct H as [E _]; apply byte_eqb_eq in E; auto. }
      destruct Hhd; subst a; [vm_compute in Ha2|vm_compute in Ha1]; discriminate.
    + cbn [has_prefix] in H. apply andb_true_iff in H. destruct H as [E H].
      cbn [has_prefix]. rewrite E. cbn. apply IH; auto.
Qed.

(* a plain prefix that the text after the leading "/" does not have is not a prefix of its first decoded token *)
Lemma first_token_prefix : forall p x rest, plain p -> has_prefix x rest = true ->
  has_prefix p rest = false -> has_prefix p (decode_key x) = false.
Proof.
  intros p x rest Hp Hx Hn. destruct (has_prefix p (decode_key x)) eqn:Ep; [|reflexivity].
  rewrite (has_prefix_trans _ _ _ (prefix_decode_key _ _ Hp Ep) Hx) in Hn. discriminate.
Qed.

Lemma pointer_ok_unprot : forall s, pointer_ok (JStr s) = true -> unprot prot_prefix s.
Proof.
  intros s H. unfold pointer_ok in H. apply andb_true_iff in H. destruct H as [Hlead Hprot].
  apply negb_true_iff in Hprot. unfold protected_path in Hprot. apply orb_false_iff in Hprot.
  destruct Hprot as [Hs Hk].
  unfold unprot, decode_pointer.
  destruct s as [|c rest]; [exact I|].
  apply byte_eqb_eq in Hlead. subst c.
  change (split_slash ("/"%byte :: rest)) with ([] :: split_slash rest).
  destruct (split_first_prefix rest) as [x [xs [E Hx]]]. rewrite E. cbn [map].
  change (has_prefix (bs "service") rest = false) in Hs. change (has_prefix (bs "publicKey") rest = false) in Hk.
  unfold prot_prefix.
  rewrite (first_token_prefix (bs "service") x rest ltac:(repeat constructor) Hx Hs),
          (first_token_prefix (bs "publicKey") x rest ltac:(repeat constructor) Hx Hk). reflexivity.
Qed.

Lemma op_accepted_unprot : forall o,
  jsonpatch_op_out o = VAccept -> exists d, decode_op o = Some d /\ op_unprot prot_prefix d.
Proof.
  intros o H. unfold jsonpatch_op_out in H. destruct o as [| | | | |m]; try discriminate.
  destruct (jlast (B "path") m) as [pj|] eqn:Ep; [|discriminate].
  apply vbool_accept in H. apply andb_true_iff in H. destruct H as [Hp Hf].
  eexists. split; [reflexivity|]. unfold op_unprot. cbn [o_path o_from]. unfold str_member.
  change (bs "path") with (B "path"). change (bs "from") with (B "from"). rewrite Ep.
  destruct pj as [| | |s| |]; try discriminate.
  split; [apply pointer_ok_unprot; exact Hp|]. intros _.
  destruct (jlast (B "from") m) as [fj|]; [|exact I].
  destruct fj as [| | |f| |]; try discriminate. apply pointer_ok_unprot. exact Hf.
Qed.

Lemma ops_accepted_unprot : forall l,
  jsonpatch_ops_out l = VAccept -> exists os, decode_ops l = Some os /\ Forall (op_unprot prot_prefix) os.
Proof.
  induction l as [|o l IH]; intros H.
  - exists []. split; [reflexivity|constructor].
  - cbn [jsonpatch_ops_out] in H. destruct (jsonpatch_op_out o) eqn:Eo; cbn in H; try discriminate.
    destruct (op_accepted_unprot o Eo) as [d [Ed Hd]]. destruct (IH H) as [os [Eos Hos]].
    exists (d :: os). split; [cbn; rewrite Ed, Eos; reflexivity|constructor; auto].
Qed.

(* accepted by validateJSONPatches => every operation's path and from are unprotected *)
Lemma paths_ok_unprot : forall ops,
  jsonpatch_paths_ok ops = true -> exists os, decode_patch ops = Some os /\ Forall (op_unprot prot_prefix) os.
Proof.
  intros ops H. unfold jsonpatch_paths_ok, jsonpatch_paths_out in H.
  destruct ops as [| | | |l|]; try discriminate.
  - exists []. split; [reflexivity|constructor].
  - destruct (forallb _ l); [|discriminate].
    destruct (jsonpatch_ops_out l) eqn:E; try discriminate. apply ops_accepted_unprot. exact E.
Qed.

(* protected nodes of a freshly loaded root object: the heap is filled member by member, so the node
   ranges of the members form a partition; a node is protected iff the member that owns it is *)
Fixpoint Sfun (prot : bytes -> bool) (m : list (bytes * json)) (h : heap) (r : nat) : bool :=
  match m with
  | [] => false
  | (k, x) :: rest =>
    let '(_, h1) := load x h in
    if (r <? length h1)%nat then (length h <=? r)%nat && prot k else Sfun prot rest h1 r
  end.

Lemma load_members_cons : forall k x r h,
  load_members ((k, x) :: r) h =
  let '(v, h1) := load x h in let '(ms, h2) := load_members r h1 in
  (if has_key k ms then ms else (k, v) :: ms, h2).
Proof. reflexivity. Qed.

(* a value met while [m] is loaded from heap [h] to heap [h2]: a reference points at a node created by that load, and
   that node has protection status [b] *)
Definition same_status (prot : bytes -> bool) (m : list (bytes * json)) (h h2 : heap) (b : bool) (c : hval) : Prop :=
  match c with
  | HRef r' => (length h <= r' < length h2)%nat /\ Sfun prot m h r' = b
  | _ => True
  end.

Lemma vfresh_same_status : forall prot m h h2 b lo hi v,
  (length h <= lo)%nat -> (hi <= length h2)%nat -> (forall r, (lo <= r < hi)%nat -> Sfun prot m h r = b) ->
  vfresh lo hi v -> same_status prot m h h2 b v.
Proof. intros prot m h h2 b lo hi [| | |r] Hlo Hhi HS Hv; cbn in *; auto. split; [lia|auto]. Qed.

Lemma same_status_cons : forall prot k x rest h h1 h2 b v,
  (length h <= length h1)%nat ->
  (forall r, (length h1 <= r)%nat -> Sfun prot ((k, x) :: rest) h r = Sfun prot rest h1 r) ->
  same_status prot rest h1 h2 b v -> same_status prot ((k, x) :: rest) h h2 b v.
Proof.
  intros prot k x rest h h1 h2 b [| | |r] L Hout Hv; cbn in *; auto.
  destruct Hv as [Hb Hs]. split; [lia|]. rewrite Hout by lia. exact Hs.
Qed.

(* after loading [m] from [h] to [h2]: no node outside the new range is protected, the children of a new node have the
   status of that node, and the slot of a member [k] has the status [prot k] *)
Lemma Sfun_spec : forall prot m h ms h2,
  load_members m h = (ms, h2) ->
  (forall r, (r < length h)%nat \/ (length h2 <= r)%nat -> Sfun prot m h r = false)
  /\ (forall r, (length h <= r < length h2)%nat ->
        Forall (same_status prot m h h2 (Sfun prot m h r)) (children (node_at h2 r)))
  /\ (forall k v, In (k, v) ms -> same_status prot m h h2 (prot k) v).
Proof.
  intros prot. induction m as [|[k x] rest IH]; intros h ms h2 Hl.
  - cbn in Hl. inversion Hl. subst. split; [reflexivity|]. split; [intros r Hr; lia|intros k v []].
  - rewrite load_members_cons in Hl.
    destruct (load x h) as [v0 h1] eqn:Ex. destruct (load_members rest h1) as [ms' h2'] eqn:Er.
    inversion Hl as [[Hms HH]]. subst h2'. clear Hl.
    destruct (load_spec x h v0 h1 Ex) as [e1 [He1 [Hv0 Hext1]]]. apply Forall_inv in Hv0.
    destruct (load_members_spec rest h1 ms' h2 Er) as [e2 [He2 _]].
    destruct (IH h1 ms' h2 Er) as [P1 [P2 P3]].
    assert (L1 : (length h <= length h1)%nat) by (subst h1; rewrite app_length; lia).
    assert (L2 : (length h1 <= length h2)%nat) by (subst h2; rewrite app_length; lia).
    assert (Sin : forall r, (length h <= r < length h1)%nat -> Sfun prot ((k, x) :: rest) h r = prot k).
    { intros r Hr. cbn [Sfun]. rewrite Ex.
      destruct (Nat.ltb_spec r (length h1)); [|lia]. destruct (Nat.leb_spec (length h) r); [reflexivity|lia]. }
    assert (Sout : forall r, (length h1 <= r)%nat -> Sfun prot ((k, x) :: rest) h r = Sfun prot rest h1 r).
    { intros r Hr. cbn [Sfun]. rewrite Ex. destruct (Nat.ltb_spec r (length h1)); [lia|reflexivity]. }
    split; [|split].
    + intros r [Hr|Hr]; [|rewrite Sout by lia; apply P1; right; exact Hr].
      cbn [Sfun]. rewrite Ex. destruct (Nat.ltb_spec r (length h1)); [|lia].
      destruct (Nat.leb_spec (length h) r); [lia|reflexivity].
    + intros r Hr. destruct (Nat.lt_ge_cases r (length h1)) as [Hlt|Hge].
      * (* a node of this member: its children are in the same range *)
        rewrite Sin by lia.
        replace (node_at h2 r) with (node_at (h ++ e1) r)
          by (rewrite He2, He1; symmetry; apply node_at_app_old; rewrite <- He1; exact Hlt).
        apply children_app; [lia|].
        apply (ext_ok_impl _ _ _ _ (fun v => vfresh_same_status _ _ h h2 _ _ _ v (Nat.le_refl _) L2 Sin) Hext1).
      * rewrite Sout by lia. eapply Forall_impl; [|apply (P2 r); lia].
        intro c. exact (same_status_cons _ _ _ _ _ _ _ _ c L1 Sout).
    + intros k' v' Hin.
      assert (Hcase : (k' = k /\ v' = v0) \/ In (k', v') ms').
      { destruct (has_key k ms'); [right; exact Hin|]. destruct Hin as [E|Hin]; [inversion E; auto|auto]. }
      destruct Hcase as [[Ek Ev]|Hin'].
      * subst k' v'. exact (vfresh_same_status _ _ h h2 _ _ _ v0 (Nat.le_refl _) L2 Sin Hv0).
      * exact (same_status_cons _ _ _ _ _ _ _ _ _ L1 Sout (P3 k' v' Hin')).
Qed.

(* the root object loaded by jp_apply *)
Lemma load_root_obj : forall m,
  exists ms h2, load_members m [] = (ms, h2) /\ load_root (JObj m) = Some (length h2, h2 ++ [CDoc ms]).
Proof.
  intros m. destruct (load_members m []) as [ms h2] eqn:E. exists ms, h2. split; [reflexivity|].
  unfold load_root. rewrite load_obj_eq. rewrite E. reflexivity.
Qed.

Lemma same_status_okv : forall prot m h2 v,
  same_status prot m [] h2 false v -> okv (Sfun prot m []) (length h2) (S (length h2)) v.
Proof. intros prot m h2 [| | |r] Hv; cbn in *; auto. destruct Hv as [Hb Hs]. split; [exact Hs|lia]. Qed.

Lemma same_status_vprot : forall prot m h2 v, same_status prot m [] h2 true v -> vprot (Sfun prot m []) v.
Proof. intros prot m h2 [| | |r] Hv; cbn in *; auto. apply Hv. Qed.

Lemma loaded_root_inv : forall prot m ms h2,
  load_members m [] = (ms, h2) ->
  let St := Sfun prot m [] in
  let h0 := h2 ++ [CDoc ms] in
  Inv prot St (length h2) h0 /\ closed St h0
  /\ (forall k v, In (k, v) ms -> prot k = true -> vprot St v).
Proof.
  intros prot m ms h2 Hl St h0.
  destruct (Sfun_spec prot m [] ms h2 Hl) as [P1 [P2 P3]]. cbn [length] in *.
  assert (Hlen : length h0 = S (length h2)) by (unfold h0; rewrite app_length; cbn; lia).
  assert (Hroot : St (length h2) = false) by (apply P1; right; lia).
  assert (Hch : forall r, r <> length h2 -> Forall (same_status prot m [] h2 (St r)) (children (node_at h0 r))).
  { intros r Hne. destruct (Nat.lt_ge_cases r (length h2)) as [Hlt|Hge].
    - unfold h0. rewrite node_at_app_old by exact Hlt. apply P2. lia.
    - unfold node_at. rewrite nth_overflow by lia. constructor. }
  split; [|split].
  - constructor; rewrite ?Hlen.
    + lia.
    + intros r Hr. destruct (Nat.lt_ge_cases r (length h2)) as [Hlt|Hge]; [lia|].
      unfold St in Hr. rewrite P1 in Hr by (right; exact Hge). discriminate.
    + exact Hroot.
    + intros r HS Hne. eapply Forall_impl; [|exact (Hch r Hne)]. rewrite HS. apply same_status_okv.
    + exists ms. split; [apply node_at_app_last|].
      intros k v Hin Hp. pose proof (P3 k v Hin) as Hs. rewrite Hp in Hs. exact (same_status_okv _ _ _ _ Hs).
  - intros r Hr. assert (Hne : r <> length h2) by (intro E; rewrite E, Hroot in Hr; discriminate).
    eapply Forall_impl; [|exact (Hch r Hne)]. rewrite Hr. apply same_status_vprot.
  - intros k v Hin Hp. pose proof (P3 k v Hin) as Hs. rewrite Hp in Hs. exact (same_status_vprot _ _ _ _ Hs).
Qed.

(* member names pairwise distinct in every object (what Go-decoded documents satisfy) *)
Fixpoint wf (j : json) : bool :=
  match j with
  | JArr l => (fix go (l : list json) : bool := match l with [] => true | x :: r => wf x && go r end) l
  | JObj m => nodup_bytes (map fst m)
              && (fix go (m : list (bytes * json)) : bool :=
                    match m with [] => true | (_, x) :: r => wf x && go r end) m
  | _ => true
  end.

Definition wf_list := fix go (l : list json) : bool := match l with [] => true | x :: r => wf x && go r end.
Definition wf_members := fix go (m : list (bytes * json)) : bool :=
  match m with [] => true | (_, x) :: r => wf x && go r end.

Lemma wf_arr : forall l, wf (JArr l) = wf_list l.
Proof. reflexivity. Qed.
Lemma wf_obj : forall m, wf (JObj m) = nodup_bytes (map fst m) && wf_members m.
Proof. reflexivity. Qed.

Definition extends (h h2 : heap) : Prop := exists e, h2 = h ++ e.

Lemma extends_trans : forall a b c, extends a b -> extends b c -> extends a c.
Proof. intros a b c [e1 E1] [e2 E2]. exists (e1 ++ e2). subst. rewrite app_assoc. reflexivity. Qed.

Lemma extends_len : forall a b, extends a b -> (length a <= length b)%nat.
Proof. intros a b [e E]. subst. rewrite app_length. lia. Qed.

(* loading [j] and marshalling the result gives [j] back, in every extension of the heap and with every fuel that is at
   least the size of the heap when the load ended *)
Definition RT (j : json) : Prop :=
  wf j = true -> forall h v h1, load j h = (v, h1) ->
  forall h2 f, extends h1 h2 -> (length h1 <= f)%nat -> unfold f h2 v = Some j.

Lemma has_key_mem : forall A k (m : list (bytes * A)), has_key k m = mem_bytes k (map fst m).
Proof. induction m as [|[k' x] m IH]; cbn; [reflexivity|]. rewrite IH. reflexivity. Qed.

(* names of the loaded members are names of the source members *)
Lemma load_members_keys : forall m h ms h2 k,
  load_members m h = (ms, h2) -> has_key k ms = true -> has_key k m = true.
Proof.
  induction m as [|[k0 x] rest IH]; intros h ms h2 k Hl Hk.
  - cbn in Hl. inversion Hl. subst. discriminate.
  - rewrite load_members_cons in Hl. destruct (load x h) as [v0 h1]. destruct (load_members rest h1) as [ms' h2'] eqn:Er.
    inversion Hl. subst. cbn [has_key].
    destruct (has_key k0 ms') eqn:E0.
    + apply orb_true_iff. right. eapply IH; eauto.
    + cbn [has_key] in Hk. apply orb_true_iff in Hk. apply orb_true_iff. destruct Hk as [Hk|Hk]; [left; exact Hk|right; eapply IH; eauto].
Qed.

Lemma RT_list : forall l, Forall RT l -> wf_list l = true ->
  forall h vs ha, load_list l h = (vs, ha) ->
  forall h2 f, extends ha h2 -> (length ha <= f)%nat -> unfold_list f h2 vs = Some l.
Proof.
  induction l as [|x r IH]; intros HF Hwf h vs ha Hl h2 f Hext Hf.
  - cbn in Hl. inversion Hl. reflexivity.
  - inversion HF as [|x' r' Hx Hr]. subst.
    cbn [wf_list] in Hwf. apply andb_true_iff in Hwf. destruct Hwf as [Wx Wr].
    cbn [load_list] in Hl. destruct (load x h) as [v hb] eqn:Ea.
    fold load_list in Hl. destruct (load_list r hb) as [vs' hc] eqn:Eb.
    inversion Hl. subst vs ha. clear Hl.
    assert (Hbc : extends hb hc).
    { destruct (load_list_spec r hb vs' hc Eb) as [e [He _]]. exists e. exact He. }
    cbn [unfold_list].
    rewrite (Hx Wx h v hb Ea h2 f (extends_trans _ _ _ Hbc Hext)) by (pose proof (extends_len _ _ Hbc); lia).
    fold (unfold_list f h2). rewrite (IH Hr Wr hb vs' hc Eb h2 f Hext Hf). reflexivity.
Qed.

Lemma RT_members : forall m, Forall (fun kv => RT (snd kv)) m ->
  nodup_bytes (map fst m) = true -> wf_members m = true ->
  forall h ms ha, load_members m h = (ms, ha) ->
  forall h2 f, extends ha h2 -> (length ha <= f)%nat -> unfold_members f h2 ms = Some m.
Proof.
  induction m as [|[k x] r IH]; intros HF Hnd Hwf h ms ha Hl h2 f Hext Hf.
  - cbn in Hl. inversion Hl. reflexivity.
  - inversion HF as [|x' r' Hx Hr]. subst. cbn [snd] in Hx.
    cbn [wf_members] in Hwf. apply andb_true_iff in Hwf. destruct Hwf as [Wx Wr].
    cbn [map fst nodup_bytes] in Hnd. apply andb_true_iff in Hnd. destruct Hnd as [Hk Hnd].
    apply negb_true_iff in Hk.
    rewrite load_members_cons in Hl. destruct (load x h) as [v hb] eqn:Ea.
    destruct (load_members r hb) as [ms' hc] eqn:Eb.
    assert (Hnk : has_key k ms' = false).
    { destruct (has_key k ms') eqn:E; [|reflexivity].
      apply (load_members_keys r hb ms' hc k Eb) in E. rewrite has_key_mem in E. rewrite E in Hk. discriminate. }
    rewrite Hnk in Hl. inversion Hl. subst ms ha. clear Hl.
    assert (Hbc : extends hb hc).
    { destruct (load_members_spec r hb ms' hc Eb) as [e [He _]]. exists e. exact He. }
    cbn [unfold_members].
    rewrite (Hx Wx h v hb Ea h2 f (extends_trans _ _ _ Hbc Hext)) by (pose proof (extends_len _ _ Hbc); lia).
    fold (unfold_members f h2). rewrite (IH Hr Hnd Wr hb ms' hc Eb h2 f Hext Hf). reflexivity.
Qed.

(* a container that was appended last: it is found where it was put, and marshalling it takes one unit of fuel *)
Lemma unfold_appended : forall ha (c : cnode) h2 f, extends (ha ++ [c]) h2 -> (length (ha ++ [c]) <= f)%nat ->
  exists f', f = S f' /\ (length ha <= f')%nat /\ node_at h2 (length ha) = c /\ extends ha h2.
Proof.
  intros ha c h2 f [e E] Hf. rewrite app_length in Hf. cbn [length] in Hf.
  destruct f as [|f']; [lia|]. exists f'. split; [reflexivity|]. split; [lia|]. subst h2. split.
  - unfold node_at. rewrite app_nth1 by (rewrite app_length; cbn; lia). rewrite app_nth2 by lia.
    rewrite Nat.sub_diag. reflexivity.
  - exists ([c] ++ e). rewrite app_assoc. reflexivity.
Qed.

Lemma RT_all : forall j, RT j.
Proof.
  apply JcsProofs.json_ind'; unfold RT.
  1: intros _ h v h1 Hl h2 f _ _. 2-4: intros x _ h v h1 Hl h2 f _ _. 1-4: inversion Hl; destruct f; reflexivity.
  - intros l HF Hwf h v h1 Hl h2 f Hext Hf. rewrite wf_arr in Hwf. rewrite load_arr_eq in Hl.
    destruct (load_list l h) as [vs ha] eqn:Ea. inversion Hl. subst v h1.
    destruct (unfold_appended ha _ h2 f Hext Hf) as [f' [Ef [Hf' [Hn Hx]]]]. subst f.
    rewrite unfold_ref, Hn, (RT_list l HF Hwf h vs ha Ea h2 f' Hx Hf'). reflexivity.
  - intros m HF Hwf h v h1 Hl h2 f Hext Hf. rewrite wf_obj in Hwf. apply andb_true_iff in Hwf.
    destruct Hwf as [Hnd Hwm]. rewrite load_obj_eq in Hl.
    destruct (load_members m h) as [ms ha] eqn:Ea. inversion Hl. subst v h1.
    destruct (unfold_appended ha _ h2 f Hext Hf) as [f' [Ef [Hf' [Hn Hx]]]]. subst f.
    rewrite unfold_ref, Hn, (RT_members m HF Hnd Hwm h ms ha Ea h2 f' Hx Hf'). reflexivity.
Qed.

(* lookup commutes with marshalling the members *)
Lemma jget_unfold_members : forall f h rm js k,
  unfold_members f h rm = Some js ->
  jget k js = match hget k rm with Some v => unfold f h v | None => None end.
Proof.
  induction rm as [|[k0 v0] rm IH]; intros js k Hu.
  - cbn in Hu. inversion Hu. reflexivity.
  - cbn [unfold_members] in Hu. destruct (unfold f h v0) as [j0|] eqn:E0; [|discriminate].
    fold (unfold_members f h) in Hu. destruct (unfold_members f h rm) as [js'|] eqn:Er; [|discriminate].
    inversion Hu. subst js. cbn [jget hget]. destruct (bytes_eqb k k0); [symmetry; exact E0|].
    apply IH. reflexivity.
Qed.

Definition jfield (k : bytes) (d : json) : option json := match d with JObj m => jget k m | _ => None end.

(* Hypotheses: the document is a JSON object whose objects have pairwise distinct member names ([wf],
   true of every document the composer passes, since it comes from a Go map); the operation list was
   accepted by validateJSONPatches (as it is since commits cb19e9e, 4fc3d15); the library returned a document.
   Conclusion: every root member whose name starts with "service" or "publicKey" - in particular the
   members "publicKey" and "service" - is present/absent as before and has the same value. *)
Theorem jsonpatch_protects_prefix : forall ops m d' k,
  wf (JObj m) = true -> jsonpatch_paths_ok ops = true -> jp_apply ops (JObj m) = Ok d' ->
  prot_prefix k = true -> jfield k d' = jget k m.
Proof.
  intros ops m d' k Hwf Hok Happ Hk.
  destruct (paths_ok_unprot ops Hok) as [os [Hdec Hun]].
  destruct (load_root_obj m) as [ms [h2 [Hl Hroot]]].
  unfold jp_apply in Happ. rewrite Hdec, Hroot in Happ.
  destruct (apply_ops (h2 ++ [CDoc ms]) (length h2) os) as [h'| | |] eqn:Eops; try discriminate.
  destruct (unfold (S (length h')) h' (HRef (length h2))) as [j|] eqn:Eun; [|discriminate].
  inversion Happ. subst j. clear Happ.
  destruct (loaded_root_inv prot_prefix m ms h2 Hl) as [HI [Hcl Hvp]].
  destruct (apply_ops_frame prot_prefix _ _ os _ h' HI Hun Eops) as [_ [Hlen [Hsame Hrootf]]].
  destruct (Hrootf ms (node_at_app_last h2 (CDoc ms))) as [rm' [Hrm' Hslots]].
  rewrite unfold_ref in Eun. rewrite Hrm' in Eun.
  destruct (unfold_members (length h') h' rm') as [js|] eqn:Ejs; [|discriminate].
  inversion Eun. subst d'. clear Eun. cbn [jfield].
  rewrite (jget_unfold_members _ _ _ _ k Ejs). rewrite (Hslots k Hk).
  (* the source side *)
  rewrite wf_obj in Hwf. apply andb_true_iff in Hwf. destruct Hwf as [Hnd Hwm].
  assert (Hext0 : extends h2 (h2 ++ [CDoc ms])) by (exists [CDoc ms]; reflexivity).
  assert (Hf : (length h2 <= length h')%nat).
  { rewrite app_length in Hlen. lia. }
  assert (HRT : unfold_members (length h') (h2 ++ [CDoc ms]) ms = Some m).
  { apply (RT_members m) with (h := []) (ha := h2); auto.
    apply Forall_forall. intros kv _. apply RT_all. }
  rewrite (jget_unfold_members _ _ _ _ k HRT).
  destruct (hget k ms) as [v|] eqn:Ev; [|reflexivity].
  apply (unfold_frame (Sfun prot_prefix m []) _ h' Hcl Hsame).
  apply (Hvp k v); [apply hget_In; exact Ev|exact Hk].
Qed.

(* C18, JSON-patch clause: the two sections are untouched *)
Corollary jsonpatch_protects : forall ops m d',
  wf (JObj m) = true -> jsonpatch_paths_ok ops = true -> jp_apply ops (JObj m) = Ok d' ->
  jmember "publicKey" d' = jget (bs "publicKey") m /\ jmember "service" d' = jget (bs "service") m.
Proof.
  intros ops m d' Hwf Hok Happ. split.
  - apply (jsonpatch_protects_prefix ops m d' (bs "publicKey") Hwf Hok Happ). reflexivity.
  - apply (jsonpatch_protects_prefix ops m d' (bs "service") Hwf Hok Happ). reflexivity.
Qed.

(* the composer-level outcome returns the same documents *)
Corollary apply_json_protects : forall ops m d',
  wf (JObj m) = true -> jsonpatch_paths_ok ops = true -> apply_json_outcome ops (JObj m) = Ok d' ->
  jmember "publicKey" d' = jget (bs "publicKey") m /\ jmember "service" d' = jget (bs "service") m.
Proof.
  intros ops m d' Hwf Hok Happ. apply (jsonpatch_protects ops m d' Hwf Hok).
  unfold apply_json_outcome in Happ. destruct (jp_apply ops (JObj m)); try discriminate. exact Happ.
Qed.

(* hypotheses are satisfiable and the conclusion is not trivial: an accepted list that rewrites the rest *)
Example jsonpatch_protects_nonvacuous :
  let ops := JArr [opj "add" "/x" [(bs "value", JObj [(bs "publicKey", jn 7)])];
                   opj "copy" "/y" [(bs "from", S_ "/x")]; opj "remove" "/x/publicKey" []] in
  wf doc_pk = true /\ jsonpatch_paths_ok ops = true
  /\ jp_apply ops doc_pk = Ok (JObj [(bs "publicKey", JArr [JObj [(bs "id", S_ "k1")]]);
                                     (bs "service", JArr [JObj [(bs "id", S_ "s1")]]);
                                     (bs "x", JObj []); (bs "y", JObj [])]).
Proof. repeat split; vm_compute; reflexivity. Qed.

(* Where Fatal comes from.  In the model [jp_apply] yields Fatal in two places: a container write that returns RFatal,
   or the final marshal of a graph in which a container is reachable from itself (read off [apply_op] and [jp_apply];
   no lemma states it).  What is proved is the container level: [c_get], [c_add] and [c_remove] never return RFatal,
   and [c_set] (the destination write of copy and move; replace reaches it only for an existing index) does exactly
   for an array index far behind the end: *)
Lemma c_set_fatal : forall c k v,
  c_set c k v = RFatal <->
  exists l idx, c = CAry l /\ is_dash k = false /\ atoi k = Some idx
                /\ (idx - zlen l > pad_limit)%Z /\ (idx < makeslice_limit)%Z.
Proof.
  intros c k v. split.
  - destruct c as [m|l|]; cbn; try discriminate.
    destruct (is_dash k) eqn:Ed; [discriminate|].
    destruct (atoi k) as [idx|] eqn:Ea; [|discriminate].
    destruct (idx =? max_int)%Z; [discriminate|].
    destruct (idx <? 0)%Z; [discriminate|].
    destruct (idx <? zlen l)%Z; [discriminate|].
    destruct (idx >=? makeslice_limit)%Z eqn:Em; [discriminate|].
    destruct (idx - zlen l >? pad_limit)%Z eqn:Ep; [|discriminate].
    intros _. exists l, idx. repeat split; auto; lia.
  - intros [l [idx [Hc [Hd [Ha [Hp Hm]]]]]]. subst c. cbn. rewrite Hd, Ha.
    assert (Hpl : (pad_limit = 65536)%Z) by reflexivity.
    assert (Hml : (makeslice_limit = 35184372088832)%Z) by reflexivity.
    assert (Hmi : (max_int = 9223372036854775807)%Z) by reflexivity.
    assert (Hz : (0 <= zlen l)%Z) by (unfold zlen; lia).
    destruct (idx =? max_int)%Z eqn:E1; [lia|].
    destruct (idx <? 0)%Z eqn:E2; [lia|].
    destruct (idx <? zlen l)%Z eqn:E3; [lia|].
    destruct (idx >=? makeslice_limit)%Z eqn:E4; [lia|].
    destruct (idx - zlen l >? pad_limit)%Z eqn:E5; [reflexivity|lia].
Qed.

Lemma c_add_not_fatal : forall c k v, c_add c k v <> RFatal.
Proof.
  intros [m|l|] k v; cbn; try discriminate.
  destruct (is_dash k); [discriminate|]. destruct (atoi k); [|discriminate].
  destruct (_ >=? _)%Z; [discriminate|]. destruct (_ <? _)%Z; discriminate.
Qed.

Lemma c_remove_not_fatal : forall c k, c_remove c k <> RFatal.
Proof.
  intros [m|l|] k; cbn; try discriminate.
  - destruct (has_key k m); discriminate.
  - destruct (atoi k); [|discriminate].
    destruct (_ >=? _)%Z; [discriminate|]. destruct (_ <? _)%Z; discriminate.
Qed.

Lemma c_get_not_fatal : forall c k, c_get c k <> RFatal.
Proof.
  intros [m|l|] k; cbn; try discriminate.
  destruct (atoi k); [|discriminate].
  destruct (_ >=? _)%Z; [discriminate|]. destruct (_ <? _)%Z; discriminate.
Qed.

(* accepted by validateJSONPatches, fatal when applied (F11-cycle, F11-oom; confirmed on the real composer in a
   child process): *)
Example fatal_cycle_accepted :
  let ops := JArr [opj "copy" "/a/-" [(bs "from", S_ "/a")]] in
  jsonpatch_paths_ok ops = true /\ apply_json_outcome ops doc_a12 = Fatal.
Proof. split; vm_compute; reflexivity. Qed.

Example fatal_cycle_via_alias_accepted :
  let ops := JArr [opj "copy" "/b" [(bs "from", S_ "/a")]; opj "move" "/b/c" [(bs "from", S_ "/a")]] in
  jsonpatch_paths_ok ops = true /\ apply_json_outcome ops (JObj [(bs "a", JObj [(bs "x", jn 1)])]) = Fatal.
Proof. split; vm_compute; reflexivity. Qed.

Example fatal_far_index_accepted :
  let ops := JArr [opj "copy" "/a/99999999999" [(bs "from", S_ "/a/0")]] in
  jsonpatch_paths_ok ops = true /\ apply_json_outcome ops doc_a12 = Fatal.
Proof. split; vm_compute; reflexivity. Qed.

(* the recoverable panics are errors at the composer level *)
Example panics_become_errors :
  apply_json_outcome (JArr [opj "replace" "/a/-1" [(bs "value", jn 9)]]) doc_a12 = Err
  /\ apply_json_outcome (JArr [opj "test" "/zz" []]) (JObj []) = Err
  /\ apply_json_outcome (JArr [opj "copy" "/a/9223372036854775806" [(bs "from", S_ "/a/0")]]) doc_a12 = Err.
Proof. repeat split; vm_compute; reflexivity. Qed.
