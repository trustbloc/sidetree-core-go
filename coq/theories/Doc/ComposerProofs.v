(* C17, patch application (model: Doc/Composer.v): what the four kinds of action do to a section, refinement of the
   ordered-map specification and preservation of distinct ids, atomicity of ApplyPatches, and the round trip
   PatchesFromDocument / ApplyPatches under an assumption on the JSON-patch engine (discharged for the engine model
   in Doc/RoundTripEngine.v), first up to permutation of the members, then as [json_equiv]. *)
From Coq Require Import List NArith Bool String Permutation Sorted.
From Coq.Strings Require Import Byte.
From SV Require Json.Utf Json.JcsProofs.
From SV Require Import Base.Bytes Base.BytesFacts Base.ListFacts Json.Ast Doc.Composer.
Import ListNotations.

Lemma bmem_In : forall x l, bmem x l = true <-> In x l.
Proof. exact existsb_bytes_eqb. Qed.

Lemma bmem_not_In : forall x l, bmem x l = false <-> ~ In x l.
Proof. exact existsb_bytes_eqb_false. Qed.

Lemma doc_get_set_same : forall k v m, doc_get k (JObj (jset k v m)) = v.
Proof.
  intros k v m. unfold doc_get. cbn [members]. induction m as [|[k' v'] r IH]; cbn [jset jget].
  - rewrite bytes_eqb_refl. reflexivity.
  - destruct (bytes_eqb k k') eqn:E; cbn [jget].
    + rewrite bytes_eqb_refl. reflexivity.
    + rewrite E. exact IH.
Qed.

Lemma doc_get_set_other : forall k k' v m, k <> k' -> doc_get k' (JObj (jset k v m)) = doc_get k' (JObj m).
Proof.
  intros k k' v m Hne. assert (E : bytes_eqb k' k = false) by (apply bytes_eqb_neq; congruence).
  unfold doc_get. cbn [members]. induction m as [|[k2 v2] r IH]; cbn [jset jget].
  - rewrite E. reflexivity.
  - destruct (bytes_eqb k k2) eqn:E2; cbn [jget].
    + apply bytes_eqb_eq in E2. subst k2. rewrite E. reflexivity.
    + destruct (bytes_eqb k' k2); [reflexivity|exact IH].
Qed.

Lemma jget_none_notin : forall k m, ~ In k (map fst m) -> jget k m = None.
Proof.
  intros k m. induction m as [|[k' v] r IH]; intro H; cbn [jget]; [reflexivity|].
  cbn [map fst In] in H. assert (Hk : k <> k') by (intro E; apply H; left; symmetry; exact E).
  apply bytes_eqb_neq in Hk. rewrite Hk. apply IH. tauto.
Qed.

Lemma jget_none_app : forall k k' v m, jget k m = None -> k <> k' -> jget k (m ++ [(k', v)]) = None.
Proof.
  intros k k' v m. induction m as [|[k2 v2] r IH]; intros H Hne; cbn [app jget] in *.
  - apply bytes_eqb_neq in Hne. rewrite Hne. reflexivity.
  - destruct (bytes_eqb k k2); [discriminate H|]. apply IH; assumption.
Qed.

Lemma jset_absent : forall k v m, jget k m = None -> jset k v m = m ++ [(k, v)].
Proof.
  intros k v m. induction m as [|[k' v'] r IH]; intro H; cbn [jset jget app] in *; [reflexivity|].
  destruct (bytes_eqb k k'); [discriminate H|]. rewrite IH by exact H. reflexivity.
Qed.

Definition abs_l (l : list json) : omap json := map (fun e => (jid e, e)) l.
Definition abs_u (l : list bytes) : omap unit := map (fun u => (u, tt)) l.

Lemma abs_entries_eq : forall v, abs_entries v = abs_l (parse_entries v).
Proof. reflexivity. Qed.

Lemma parse_entries_objs : forall v, Forall (fun e => is_obj e = true) (parse_entries v).
Proof.
  intros v. apply Forall_forall. intros e Hin. destruct v; cbn [parse_entries] in Hin; try contradiction.
  apply filter_In in Hin. destruct Hin as [_ H]. exact H.
Qed.

Lemma parse_entries_arr_or_null : forall l,
  Forall (fun e => is_obj e = true) l -> parse_entries (arr_or_null l) = l.
Proof.
  intros l H. destruct l as [|x r]; [reflexivity|]. cbn [arr_or_null parse_entries].
  apply filter_all. apply Forall_forall. exact H.
Qed.

Lemma strings_of_map_JStr : forall l, strings_of (map JStr l) = l.
Proof. induction l as [|x r IH]; cbn [map strings_of]; [reflexivity|]. rewrite IH. reflexivity. Qed.

Lemma string_array_arr_or_null : forall l, string_array (arr_or_null (map JStr l)) = l.
Proof.
  intros l. destruct l as [|x r]; [reflexivity|]. cbn [map arr_or_null string_array]. apply (strings_of_map_JStr (x :: r)).
Qed.

Lemma map_jid_update : forall cur e, map jid (update_entry cur e) = map jid cur.
Proof.
  intros cur e. unfold update_entry. induction cur as [|x r IH]; cbn [map]; [reflexivity|].
  rewrite IH. destruct (bytes_eqb (jid x) (jid e)) eqn:E; [|reflexivity].
  apply bytes_eqb_eq in E. rewrite E. reflexivity.
Qed.

Lemma update_absent : forall cur e, ~ In (jid e) (map jid cur) -> update_entry cur e = cur.
Proof.
  intros cur e. unfold update_entry. induction cur as [|x r IH]; intro H; cbn [map]; [reflexivity|].
  cbn [map In] in H. assert (Hx : jid x <> jid e) by tauto. apply bytes_eqb_neq in Hx. rewrite Hx.
  rewrite IH by tauto. reflexivity.
Qed.

(* on lists with pairwise distinct ids, updateKey (overwrite every match) is the ordered-map update *)
Lemma update_refines : forall cur e,
  NoDup (map jid cur) -> In (jid e) (map jid cur) -> abs_l (update_entry cur e) = omap_add (jid e) e (abs_l cur).
Proof.
  intros cur e. induction cur as [|x r IH]; intros Hnd Hin; [contradiction|].
  cbn [map] in Hnd. inversion Hnd as [|? ? Hnotin Hnd']; subst.
  unfold abs_l, update_entry. cbn [map omap_add]. rewrite (bytes_eqb_sym (jid e) (jid x)).
  destruct (bytes_eqb (jid x) (jid e)) eqn:E.
  - apply bytes_eqb_eq in E. rewrite E in Hnotin.
    fold (update_entry r e). rewrite (update_absent r e Hnotin). reflexivity.
  - f_equal. apply IH; [exact Hnd'|]. cbn [map In] in Hin. destruct Hin as [H|H]; [|exact H].
    apply bytes_eqb_neq in E. contradiction.
Qed.

Lemma omap_add_absent : forall (V : Type) k (v : V) m, ~ In k (map fst m) -> omap_add k v m = m ++ [(k, v)].
Proof.
  intros V k v m. induction m as [|[k' v'] r IH]; intro H; cbn [omap_add app]; [reflexivity|].
  cbn [map In fst] in H. assert (Hk : k <> k') by (intro E; apply H; left; symmetry; exact E).
  apply bytes_eqb_neq in Hk. rewrite Hk. rewrite IH by tauto. reflexivity.
Qed.

Lemma map_fst_abs_l : forall l, map fst (abs_l l) = map jid l.
Proof. intro l. unfold abs_l. rewrite map_map. reflexivity. Qed.

Lemma map_fst_abs_u : forall l, map fst (abs_u l) = l.
Proof. intro l. unfold abs_u. rewrite map_map. cbn [fst]. apply map_id. Qed.

Lemma abs_l_app : forall a b, abs_l (a ++ b) = abs_l a ++ abs_l b.
Proof. intros. unfold abs_l. apply map_app. Qed.

Lemma NoDup_snoc : forall (A : Type) (l : list A) x, NoDup l -> ~ In x l -> NoDup (l ++ [x]).
Proof.
  intros A l x Hl Hx. apply NoDup_app_iff. split; [exact Hl|]. split.
  - constructor; [intros []|constructor].
  - intros y Hy [E|[]]. subst y. exact (Hx Hy).
Qed.

(* the loop of applyAddPublicKeys / applyAddServiceEndpoints: the threaded id set is exactly the ids of [cur] *)
Lemma add_go_refines : forall adds cur,
  NoDup (map jid cur) ->
  abs_l (add_entries_go (map jid cur) cur adds) = omap_add_all adds (abs_l cur)
  /\ NoDup (map jid (add_entries_go (map jid cur) cur adds)).
Proof.
  induction adds as [|e r IH]; intros cur Hcur; cbn [add_entries_go].
  - split; [reflexivity|exact Hcur].
  - unfold omap_add_all. cbn [fold_left]. fold (omap_add_all r (omap_add (jid e) e (abs_l cur))).
    destruct (bmem (jid e) (map jid cur)) eqn:Em.
    + apply bmem_In in Em.
      rewrite <- (update_refines cur e Hcur Em).
      pose proof (IH (update_entry cur e)) as H. rewrite map_jid_update in H. apply H. exact Hcur.
    + apply bmem_not_In in Em.
      rewrite (omap_add_absent json (jid e) e (abs_l cur)) by (rewrite map_fst_abs_l; exact Em).
      change [(jid e, e)] with (abs_l [e]). rewrite <- abs_l_app.
      change [jid e] with (map jid [e]). rewrite <- map_app.
      apply IH. rewrite map_app. cbn [map]. apply NoDup_snoc; assumption.
Qed.

Lemma add_entries_refines : forall ex adds,
  NoDup (map jid ex) ->
  abs_l (add_entries ex adds) = omap_add_all adds (abs_l ex) /\ NoDup (map jid (add_entries ex adds)).
Proof. intros ex adds Hex. unfold add_entries. apply add_go_refines. exact Hex. Qed.

(* entries whose ids are fresh and pairwise distinct are simply appended *)
Lemma add_go_fresh : forall adds cur,
  NoDup (map jid adds) -> (forall e, In e adds -> ~ In (jid e) (map jid cur)) ->
  add_entries_go (map jid cur) cur adds = cur ++ adds.
Proof.
  induction adds as [|e r IH]; intros cur Hnd Hfresh; cbn [add_entries_go].
  - rewrite app_nil_r. reflexivity.
  - cbn [map] in Hnd. inversion Hnd as [|? ? He Hr]; subst.
    assert (Em : bmem (jid e) (map jid cur) = false) by (apply bmem_not_In; apply Hfresh; left; reflexivity).
    rewrite Em. change [jid e] with (map jid [e]). rewrite <- map_app. rewrite IH.
    + rewrite <- app_assoc. reflexivity.
    + exact Hr.
    + intros e' He'. rewrite map_app. cbn [map]. rewrite in_app_iff. cbn [In]. intros [H|[H|[]]].
      * exact (Hfresh e' (or_intror He') H).
      * apply He. rewrite H. apply in_map. exact He'.
Qed.

Lemma add_entries_nil : forall l, NoDup (map jid l) -> add_entries [] l = l.
Proof. intros l H. exact (add_go_fresh l [] H (fun e _ F => F)). Qed.

Lemma add_go_objs : forall adds cur ids,
  Forall (fun e => is_obj e = true) cur -> Forall (fun e => is_obj e = true) adds ->
  Forall (fun e => is_obj e = true) (add_entries_go ids cur adds).
Proof.
  induction adds as [|e r IH]; intros cur ids Hc Ha; cbn [add_entries_go]; [exact Hc|].
  inversion Ha as [|? ? He Hr]; subst.
  destruct (bmem (jid e) ids).
  - apply IH; [|exact Hr].
    unfold update_entry. apply Forall_forall. intros x Hx. apply in_map_iff in Hx. destruct Hx as [y [Hy Hin]].
    destruct (bytes_eqb (jid y) (jid e)); subst x; [exact He|].
    rewrite Forall_forall in Hc. apply Hc. exact Hin.
  - apply IH; [|exact Hr]. apply Forall_app. split; [exact Hc|]. constructor; [exact He|constructor].
Qed.

Lemma remove_objs : forall ex ids,
  Forall (fun e => is_obj e = true) ex -> Forall (fun e => is_obj e = true) (remove_entries ex ids).
Proof. intros ex ids. apply incl_Forall, incl_filter. Qed.

Lemma list_eq_filter_bmem_nil : forall (A : Type) (g : A -> bytes) l, filter (fun e => negb (bmem (g e) [])) l = l.
Proof. intros. apply filter_all. reflexivity. Qed.

(* [remove_entries] and [remove_uris] are the same filter, on the id [g := jid] of an entry and on the URI itself
   [g := fun u => u]; [abs_l] and [abs_u] are [map (fun e => (g e, h e))]. *)
Section RemoveById.
  Context {A V : Type} (g : A -> bytes) (h : A -> V).

  Lemma filter_bmem_cons : forall l i r,
    filter (fun e => negb (bmem (g e) (i :: r))) l
    = filter (fun e => negb (bmem (g e) r)) (filter (fun e => negb (bytes_eqb (g e) i)) l).
  Proof.
    intros l i r. induction l as [|x l IH]; [reflexivity|].
    cbn [filter bmem existsb]. destruct (bytes_eqb (g x) i); cbn [negb orb filter]; [exact IH|].
    fold (bmem (g x) r). destruct (bmem (g x) r); cbn [negb]; [exact IH|]. f_equal. exact IH.
  Qed.

  Lemma abs_filter_neq : forall l i,
    map (fun e => (g e, h e)) (filter (fun e => negb (bytes_eqb (g e) i)) l)
    = omap_remove i (map (fun e => (g e, h e)) l).
  Proof.
    intros l i. induction l as [|x r IH]; [reflexivity|].
    cbn [filter map omap_remove]. rewrite (bytes_eqb_sym i (g x)).
    destruct (bytes_eqb (g x) i); cbn [negb map]; [exact IH|]. f_equal. exact IH.
  Qed.

  Lemma abs_filter_bmem : forall ids l,
    map (fun e => (g e, h e)) (filter (fun e => negb (bmem (g e) ids)) l)
    = omap_remove_all ids (map (fun e => (g e, h e)) l).
  Proof.
    induction ids as [|i r IH]; intro l.
    - rewrite list_eq_filter_bmem_nil. reflexivity.
    - rewrite filter_bmem_cons, IH, abs_filter_neq. reflexivity.
  Qed.

  Lemma In_filter_bmem : forall l ids e,
    In e (filter (fun e => negb (bmem (g e) ids)) l) <-> In e l /\ ~ In (g e) ids.
  Proof. intros l ids e. rewrite filter_In, negb_true_iff, bmem_not_In. reflexivity. Qed.

  Lemma filter_bmem_absent : forall l ids,
    (forall i, In i ids -> ~ In i (map g l)) -> filter (fun e => negb (bmem (g e) ids)) l = l.
  Proof.
    intros l ids H. apply filter_all. intros e He. apply negb_true_iff, bmem_not_In.
    intro Hin. exact (H _ Hin (in_map g l e He)).
  Qed.
End RemoveById.

Lemma remove_entries_refines : forall ids ex, abs_l (remove_entries ex ids) = omap_remove_all ids (abs_l ex).
Proof. exact (abs_filter_bmem jid (fun e => e)). Qed.

Lemma remove_uris_refines : forall rem ex, abs_u (remove_uris ex rem) = omap_remove_all rem (abs_u ex).
Proof. exact (abs_filter_bmem (fun u => u) (fun _ => tt)). Qed.

Lemma omap_add_unit_present : forall u (m : omap unit), In u (map fst m) -> omap_add u tt m = m.
Proof.
  intros u m. induction m as [|[k []] r IH]; intro H; [contradiction|]. cbn [omap_add].
  destruct (bytes_eqb u k) eqn:E.
  - apply bytes_eqb_eq in E. subst. reflexivity.
  - f_equal. apply IH. cbn [map fst In] in H. destruct H as [H|H]; [|exact H].
    apply bytes_eqb_neq in E. exfalso. apply E. symmetry. exact H.
Qed.

Lemma add_uris_go_refines : forall adds cur,
  abs_u (add_uris_go cur cur adds) = omap_add_uris adds (abs_u cur)
  /\ (NoDup cur -> NoDup (add_uris_go cur cur adds)).
Proof.
  induction adds as [|u r IH]; intros cur; cbn [add_uris_go].
  - split; [reflexivity|tauto].
  - unfold omap_add_uris. cbn [fold_left]. fold (omap_add_uris r (omap_add u tt (abs_u cur))).
    destruct (bmem u cur) eqn:Em.
    + apply bmem_In in Em.
      rewrite omap_add_unit_present by (rewrite map_fst_abs_u; exact Em). apply IH.
    + apply bmem_not_In in Em.
      rewrite omap_add_absent by (rewrite map_fst_abs_u; exact Em).
      change [(u, tt)] with (abs_u [u]). unfold abs_u at 2 3. rewrite <- map_app. fold (abs_u (cur ++ [u])).
      destruct (IH (cur ++ [u])) as [IH1 IH2].
      split; [exact IH1|]. intro Hcur. apply IH2. apply NoDup_snoc; assumption.
Qed.

Lemma add_uris_refines : forall ex adds,
  abs_u (add_uris ex adds) = omap_add_uris adds (abs_u ex) /\ (NoDup ex -> NoDup (add_uris ex adds)).
Proof. intros ex adds. unfold add_uris. apply add_uris_go_refines. Qed.

Lemma add_uris_go_fresh : forall adds cur,
  NoDup adds -> (forall u, In u adds -> ~ In u cur) -> add_uris_go cur cur adds = cur ++ adds.
Proof.
  induction adds as [|u r IH]; intros cur Hnd Hfresh; cbn [add_uris_go].
  - rewrite app_nil_r. reflexivity.
  - inversion Hnd as [|? ? Hu Hr]; subst.
    assert (Em : bmem u cur = false) by (apply bmem_not_In; apply Hfresh; left; reflexivity).
    rewrite Em. rewrite IH.
    + rewrite <- app_assoc. reflexivity.
    + exact Hr.
    + intros u' Hu'. rewrite in_app_iff. cbn [In]. intros [H|[H|[]]].
      * exact (Hfresh u' (or_intror Hu') H).
      * subst u'. contradiction.
Qed.

Lemma add_uris_nil : forall l, NoDup l -> add_uris [] l = l.
Proof. intros l H. exact (add_uris_go_fresh l [] H (fun u _ F => F)). Qed.

Lemma add_entries_new : forall ex e, ~ In (jid e) (map jid ex) -> add_entries ex [e] = ex ++ [e].
Proof.
  intros ex e H. unfold add_entries. cbn [add_entries_go]. apply bmem_not_In in H. rewrite H. reflexivity.
Qed.

Lemma add_entries_existing : forall pre x post e,
  jid x = jid e -> ~ In (jid e) (map jid pre) -> ~ In (jid e) (map jid post) ->
  add_entries (pre ++ x :: post) [e] = pre ++ e :: post.
Proof.
  intros pre x post e Hx Hpre Hpost. unfold add_entries. cbn [add_entries_go].
  assert (Hin : bmem (jid e) (map jid (pre ++ x :: post)) = true).
  { apply bmem_In. rewrite map_app. apply in_or_app. right. left. exact Hx. }
  rewrite Hin. unfold update_entry. rewrite map_app. cbn [map].
  fold (update_entry pre e). fold (update_entry post e).
  rewrite (update_absent pre e Hpre), (update_absent post e Hpost).
  apply bytes_eqb_eq in Hx. rewrite Hx. reflexivity.
Qed.

Lemma add_uris_new : forall ex u, ~ In u ex -> add_uris ex [u] = ex ++ [u].
Proof. intros ex u H. unfold add_uris. cbn [add_uris_go]. apply bmem_not_In in H. rewrite H. reflexivity. Qed.

Lemma add_uris_existing : forall ex u, In u ex -> add_uris ex [u] = ex.
Proof. intros ex u H. unfold add_uris. cbn [add_uris_go]. apply bmem_In in H. rewrite H. reflexivity. Qed.

(* the entries of a section as the accessors see them *)
Definition sec (k : bytes) (d : json) : list json := parse_entries (doc_get k d).
Definition uris (d : json) : list bytes := string_array (doc_get d_alsoKnownAs d).

(* The six actions that rewrite one section, and what each does to the three sections. *)
Inductive set_act := AddPk | RemPk | AddSvc | RemSvc | AddAka | RemAka.

Definition act_name (a : set_act) : bytes :=
  match a with
  | AddPk => a_add_pk | RemPk => a_rem_pk | AddSvc => a_add_svc | RemSvc => a_rem_svc
  | AddAka => a_add_aka | RemAka => a_rem_aka
  end.

Definition sections (d : json) : list json * list json * list bytes := (sec d_publicKey d, sec d_service d, uris d).

Definition set_action (a : set_act) (v : json) (s : list json * list json * list bytes)
  : list json * list json * list bytes :=
  let '(ks, ss, us) := s in
  match a with
  | AddPk => (add_entries ks (parse_entries v), ss, us)
  | RemPk => (remove_entries ks (string_array v), ss, us)
  | AddSvc => (ks, add_entries ss (parse_entries v), us)
  | RemSvc => (ks, remove_entries ss (string_array v), us)
  | AddAka => (ks, ss, add_uris us (string_array v))
  | RemAka => (ks, ss, remove_uris us (string_array v))
  end.

Lemma sections_jset : forall k x m,
  sections (JObj (jset k x m)) =
  (if bytes_eqb k d_publicKey then parse_entries x else sec d_publicKey (JObj m),
   if bytes_eqb k d_service then parse_entries x else sec d_service (JObj m),
   if bytes_eqb k d_alsoKnownAs then string_array x else uris (JObj m)).
Proof.
  intros k x m. unfold sections, sec, uris.
  assert (H : forall k', doc_get k' (JObj (jset k x m)) = if bytes_eqb k k' then x else doc_get k' (JObj m)).
  { intro k'. destruct (bytes_eqb k k') eqn:E.
    - apply bytes_eqb_eq in E. subst k'. apply doc_get_set_same.
    - apply doc_get_set_other, bytes_eqb_neq, E. }
  rewrite !H. destruct (bytes_eqb k d_publicKey), (bytes_eqb k d_service), (bytes_eqb k d_alsoKnownAs); reflexivity.
Qed.

Lemma parse_add_entries : forall x v,
  parse_entries (arr_or_null (add_entries (parse_entries x) (parse_entries v)))
  = add_entries (parse_entries x) (parse_entries v).
Proof. intros. apply parse_entries_arr_or_null. unfold add_entries. apply add_go_objs; apply parse_entries_objs. Qed.

Lemma parse_remove_entries : forall x ids,
  parse_entries (arr_or_null (remove_entries (parse_entries x) ids)) = remove_entries (parse_entries x) ids.
Proof. intros. apply parse_entries_arr_or_null, remove_objs, parse_entries_objs. Qed.

Section SetActions.
  Variable jp : json -> json -> option json.

  (* a set action succeeds on an object document and acts on the sections as [set_action] says *)
  Lemma apply_set_action : forall m p a v,
    patch_action p = Some (act_name a) -> patch_value p = Some v ->
    exists d', apply_patch jp (JObj m) p = Some d' /\ sections d' = set_action a v (sections (JObj m)).
  Proof.
    intros m p a v Ha Hv. unfold apply_patch, apply_patch_r. rewrite Ha, Hv.
    destruct a; (eexists; split; [reflexivity|]);
      rewrite sections_jset, ?parse_add_entries, ?parse_remove_entries, ?string_array_arr_or_null; reflexivity.
  Qed.
End SetActions.

Section Behaviours.
  Variable jp : json -> json -> option json.

  (* adding an entry whose id is present (once) replaces that entry at its position; for URIs, adding a present URI
     changes nothing *)
  Theorem add_existing_replaces_in_place : forall m p,
    (forall pre x post e,
        patch_action p = Some a_add_pk -> patch_value p = Some (JArr [e]) -> is_obj e = true ->
        sec d_publicKey (JObj m) = pre ++ x :: post -> jid x = jid e ->
        ~ In (jid e) (map jid pre) -> ~ In (jid e) (map jid post) ->
        exists d', apply_patch jp (JObj m) p = Some d' /\ sec d_publicKey d' = pre ++ e :: post)
    /\ (forall pre x post e,
        patch_action p = Some a_add_svc -> patch_value p = Some (JArr [e]) -> is_obj e = true ->
        sec d_service (JObj m) = pre ++ x :: post -> jid x = jid e ->
        ~ In (jid e) (map jid pre) -> ~ In (jid e) (map jid post) ->
        exists d', apply_patch jp (JObj m) p = Some d' /\ sec d_service d' = pre ++ e :: post)
    /\ (forall u,
        patch_action p = Some a_add_aka -> patch_value p = Some (JArr [JStr u]) -> In u (uris (JObj m)) ->
        exists d', apply_patch jp (JObj m) p = Some d' /\ uris d' = uris (JObj m)).
  Proof.
    intros m p. split; [|split].
    - intros pre x post e Ha Hv He Hsec Hx Hpre Hpost.
      destruct (apply_set_action jp m p AddPk _ Ha Hv) as [d' [H1 H2]]. exists d'. split; [exact H1|].
      injection H2 as -> _ _. rewrite Hsec. cbn [parse_entries filter]. rewrite He. apply add_entries_existing; assumption.
    - intros pre x post e Ha Hv He Hsec Hx Hpre Hpost.
      destruct (apply_set_action jp m p AddSvc _ Ha Hv) as [d' [H1 H2]]. exists d'. split; [exact H1|].
      injection H2 as _ -> _. rewrite Hsec. cbn [parse_entries filter]. rewrite He. apply add_entries_existing; assumption.
    - intros u Ha Hv Hin.
      destruct (apply_set_action jp m p AddAka _ Ha Hv) as [d' [H1 H2]]. exists d'. split; [exact H1|].
      injection H2 as _ _ ->. apply add_uris_existing. exact Hin.
  Qed.

  (* adding an entry whose id is absent appends it *)
  Theorem add_new_appends : forall m p,
    (forall e, patch_action p = Some a_add_pk -> patch_value p = Some (JArr [e]) -> is_obj e = true ->
        ~ In (jid e) (map jid (sec d_publicKey (JObj m))) ->
        exists d', apply_patch jp (JObj m) p = Some d' /\ sec d_publicKey d' = sec d_publicKey (JObj m) ++ [e])
    /\ (forall e, patch_action p = Some a_add_svc -> patch_value p = Some (JArr [e]) -> is_obj e = true ->
        ~ In (jid e) (map jid (sec d_service (JObj m))) ->
        exists d', apply_patch jp (JObj m) p = Some d' /\ sec d_service d' = sec d_service (JObj m) ++ [e])
    /\ (forall u, patch_action p = Some a_add_aka -> patch_value p = Some (JArr [JStr u]) ->
        ~ In u (uris (JObj m)) ->
        exists d', apply_patch jp (JObj m) p = Some d' /\ uris d' = uris (JObj m) ++ [u]).
  Proof.
    intros m p. split; [|split].
    - intros e Ha Hv He Hnin.
      destruct (apply_set_action jp m p AddPk _ Ha Hv) as [d' [H1 H2]]. exists d'. split; [exact H1|].
      injection H2 as -> _ _. cbn [parse_entries filter]. rewrite He. apply add_entries_new. exact Hnin.
    - intros e Ha Hv He Hnin.
      destruct (apply_set_action jp m p AddSvc _ Ha Hv) as [d' [H1 H2]]. exists d'. split; [exact H1|].
      injection H2 as _ -> _. cbn [parse_entries filter]. rewrite He. apply add_entries_new. exact Hnin.
    - intros u Ha Hv Hnin.
      destruct (apply_set_action jp m p AddAka _ Ha Hv) as [d' [H1 H2]]. exists d'. split; [exact H1|].
      injection H2 as _ _ ->. apply add_uris_new. exact Hnin.
  Qed.

  (* removal keeps, in order, exactly the entries whose id is not listed; listed ids that are absent are ignored *)
  Theorem remove_deletes_ignores_absent : forall m p v,
    patch_value p = Some v ->
    (patch_action p = Some a_rem_pk ->
       exists d', apply_patch jp (JObj m) p = Some d'
         /\ sec d_publicKey d' = filter (fun e => negb (bmem (jid e) (string_array v))) (sec d_publicKey (JObj m))
         /\ (forall e, In e (sec d_publicKey d') <-> In e (sec d_publicKey (JObj m)) /\ ~ In (jid e) (string_array v))
         /\ ((forall i, In i (string_array v) -> ~ In i (map jid (sec d_publicKey (JObj m)))) ->
             sec d_publicKey d' = sec d_publicKey (JObj m)))
    /\ (patch_action p = Some a_rem_svc ->
       exists d', apply_patch jp (JObj m) p = Some d'
         /\ sec d_service d' = filter (fun e => negb (bmem (jid e) (string_array v))) (sec d_service (JObj m))
         /\ (forall e, In e (sec d_service d') <-> In e (sec d_service (JObj m)) /\ ~ In (jid e) (string_array v))
         /\ ((forall i, In i (string_array v) -> ~ In i (map jid (sec d_service (JObj m)))) ->
             sec d_service d' = sec d_service (JObj m)))
    /\ (patch_action p = Some a_rem_aka ->
       exists d', apply_patch jp (JObj m) p = Some d'
         /\ uris d' = filter (fun u => negb (bmem u (string_array v))) (uris (JObj m))
         /\ (forall u, In u (uris d') <-> In u (uris (JObj m)) /\ ~ In u (string_array v))
         /\ ((forall i, In i (string_array v) -> ~ In i (uris (JObj m))) -> uris d' = uris (JObj m))).
  Proof.
    intros m p v Hv. split; [|split]; intro Ha.
    - destruct (apply_set_action jp m p RemPk v Ha Hv) as [d' [H1 H2]]. exists d'. split; [exact H1|].
      injection H2 as -> _ _. split; [reflexivity|]. split; [intro e; apply In_filter_bmem|apply filter_bmem_absent].
    - destruct (apply_set_action jp m p RemSvc v Ha Hv) as [d' [H1 H2]]. exists d'. split; [exact H1|].
      injection H2 as _ -> _. split; [reflexivity|]. split; [intro e; apply In_filter_bmem|apply filter_bmem_absent].
    - destruct (apply_set_action jp m p RemAka v Ha Hv) as [d' [H1 H2]]. exists d'. split; [exact H1|].
      injection H2 as _ _ ->. split; [reflexivity|]. split; [intro u; apply (In_filter_bmem (fun u => u))|].
      intro H. apply (filter_bmem_absent (fun u => u)). rewrite map_id. exact H.
  Qed.

  (* a replace patch yields, whatever the document was (nil included), a document with exactly the members publicKey
     and service, holding the given keys and services; also-known-as URIs and all other members are gone *)
  Theorem replace_resets : forall d p rm,
    patch_action p = Some a_replace -> patch_value p = Some (JObj rm) ->
    apply_patch jp d p
      = Some (JObj [(d_publicKey, doc_get pk_publicKeys (JObj rm)); (d_service, doc_get pk_services (JObj rm))])
    /\ (forall d', apply_patch jp d p = Some d' ->
          sec d_publicKey d' = parse_entries (doc_get pk_publicKeys (JObj rm))
          /\ sec d_service d' = parse_entries (doc_get pk_services (JObj rm))
          /\ uris d' = []
          /\ (forall k, k <> d_publicKey -> k <> d_service -> jget k (members d') = None)).
  Proof.
    intros d p rm Ha Hv. unfold apply_patch, apply_patch_r. rewrite Ha, Hv. cbn [apply_replace res_opt].
    split; [reflexivity|]. intros d' Hd'. inversion Hd'; subst d'. clear Hd'.
    split; [reflexivity|]. split; [reflexivity|]. split; [reflexivity|].
    intros k H1 H2. cbn [members jget].
    apply bytes_eqb_neq in H1. apply bytes_eqb_neq in H2. rewrite H1, H2. reflexivity.
  Qed.
End Behaviours.

(* the invariant: ids are pairwise distinct inside each section *)
Definition sections_nodup (d : json) : Prop :=
  NoDup (map jid (sec d_publicKey d)) /\ NoDup (map jid (sec d_service d)) /\ NoDup (uris d).

Definition abs_sections (s : list json * list json * list bytes) : doc_abs :=
  let '(ks, ss, us) := s in {| da_keys := abs_l ks; da_services := abs_l ss; da_aka := abs_u us |}.

Lemma abs_doc_sections : forall d, abs_doc d = abs_sections (sections d).
Proof. reflexivity. Qed.

Section Refinement.
  Variable jp : json -> json -> option json.

  (* For a document (an object), the abstraction of the patched document is the ordered-map operation applied to
     the abstraction of the document: add-* = omap_add of the patch entries in order (an id repeated inside the patch
     overwrites, in place, the entry added earlier), remove-* = omap_remove of the listed ids; the other two
     sections are unchanged.
     Hypotheses: add-public-keys / add-services need the ids of the TOUCHED document section to be
     pairwise distinct (updateKey overwrites every entry with the id, the ordered map has one); nothing is assumed
     about the patch.  add-also-known-as and the three remove-* actions need no hypothesis at all. *)
  Theorem refines_ordered_map : forall m p v,
    patch_value p = Some v ->
    let a := abs_doc (JObj m) in
    (patch_action p = Some a_add_pk ->
       NoDup (map jid (sec d_publicKey (JObj m))) ->
       exists d', apply_patch jp (JObj m) p = Some d' /\
         abs_doc d' = {| da_keys := omap_add_all (parse_entries v) (da_keys a);
                         da_services := da_services a; da_aka := da_aka a |})
    /\ (patch_action p = Some a_rem_pk ->
       exists d', apply_patch jp (JObj m) p = Some d' /\
         abs_doc d' = {| da_keys := omap_remove_all (string_array v) (da_keys a);
                         da_services := da_services a; da_aka := da_aka a |})
    /\ (patch_action p = Some a_add_svc ->
       NoDup (map jid (sec d_service (JObj m))) ->
       exists d', apply_patch jp (JObj m) p = Some d' /\
         abs_doc d' = {| da_keys := da_keys a;
                         da_services := omap_add_all (parse_entries v) (da_services a); da_aka := da_aka a |})
    /\ (patch_action p = Some a_rem_svc ->
       exists d', apply_patch jp (JObj m) p = Some d' /\
         abs_doc d' = {| da_keys := da_keys a;
                         da_services := omap_remove_all (string_array v) (da_services a); da_aka := da_aka a |})
    /\ (patch_action p = Some a_add_aka ->
       exists d', apply_patch jp (JObj m) p = Some d' /\
         abs_doc d' = {| da_keys := da_keys a; da_services := da_services a;
                         da_aka := omap_add_uris (string_array v) (da_aka a) |})
    /\ (patch_action p = Some a_rem_aka ->
       exists d', apply_patch jp (JObj m) p = Some d' /\
         abs_doc d' = {| da_keys := da_keys a; da_services := da_services a;
                         da_aka := omap_remove_all (string_array v) (da_aka a) |}).
  Proof.
    intros m p v Hv a. subst a. rewrite (abs_doc_sections (JObj m)).
    cbv [abs_sections sections da_keys da_services da_aka].
    split; [|split; [|split; [|split; [|split]]]].
    - intros Ha Hex. destruct (apply_set_action jp m p AddPk v Ha Hv) as [d' [H1 H2]]. exists d'. split; [exact H1|].
      rewrite abs_doc_sections, H2. cbv [abs_sections set_action sections].
      rewrite (proj1 (add_entries_refines _ (parse_entries v) Hex)). reflexivity.
    - intros Ha. destruct (apply_set_action jp m p RemPk v Ha Hv) as [d' [H1 H2]]. exists d'. split; [exact H1|].
      rewrite abs_doc_sections, H2. cbv [abs_sections set_action sections]. rewrite remove_entries_refines. reflexivity.
    - intros Ha Hex. destruct (apply_set_action jp m p AddSvc v Ha Hv) as [d' [H1 H2]]. exists d'. split; [exact H1|].
      rewrite abs_doc_sections, H2. cbv [abs_sections set_action sections].
      rewrite (proj1 (add_entries_refines _ (parse_entries v) Hex)). reflexivity.
    - intros Ha. destruct (apply_set_action jp m p RemSvc v Ha Hv) as [d' [H1 H2]]. exists d'. split; [exact H1|].
      rewrite abs_doc_sections, H2. cbv [abs_sections set_action sections]. rewrite remove_entries_refines. reflexivity.
    - intros Ha. destruct (apply_set_action jp m p AddAka v Ha Hv) as [d' [H1 H2]]. exists d'. split; [exact H1|].
      rewrite abs_doc_sections, H2. cbv [abs_sections set_action sections].
      rewrite (proj1 (add_uris_refines _ (string_array v))). reflexivity.
    - intros Ha. destruct (apply_set_action jp m p RemAka v Ha Hv) as [d' [H1 H2]]. exists d'. split; [exact H1|].
      rewrite abs_doc_sections, H2. cbv [abs_sections set_action sections]. rewrite remove_uris_refines. reflexivity.
  Qed.

  (* no hypothesis on the patch: whatever a set action carries, ids stay pairwise distinct *)
  Theorem ids_unique_preserved : forall m p v d',
    patch_value p = Some v ->
    (patch_action p = Some a_add_pk \/ patch_action p = Some a_rem_pk \/ patch_action p = Some a_add_svc
     \/ patch_action p = Some a_rem_svc \/ patch_action p = Some a_add_aka \/ patch_action p = Some a_rem_aka) ->
    sections_nodup (JObj m) ->
    apply_patch jp (JObj m) p = Some d' -> sections_nodup d'.
  Proof.
    intros m p v d' Hv Hact [Hk [Hs Hu]] Happ.
    assert (Ha : exists a, patch_action p = Some (act_name a)).
    { destruct Hact as [H|[H|[H|[H|[H|H]]]]];
        [exists AddPk|exists RemPk|exists AddSvc|exists RemSvc|exists AddAka|exists RemAka]; exact H. }
    destruct Ha as [a Ha]. destruct (apply_set_action jp m p a v Ha Hv) as [d2 [H1 H2]].
    rewrite H1 in Happ. inversion Happ; subst d2. unfold sections_nodup. unfold sections in H2.
    destruct a; cbv [set_action] in H2; injection H2 as -> -> ->; (split; [|split]); try assumption.
    - apply (add_entries_refines _ _ Hk).
    - apply NoDup_map_filter, Hk.
    - apply (add_entries_refines _ _ Hs).
    - apply NoDup_map_filter, Hs.
    - apply (add_uris_refines _ _), Hu.
    - unfold remove_uris. rewrite <- (map_id (filter _ _)). apply NoDup_map_filter. rewrite map_id. exact Hu.
  Qed.
End Refinement.

(* Since commit 94b5572 (F8) an id carried twice by one patch yields ONE entry: the later one, at the position where
   the first was appended; before that commit the code appended both. *)
Example dup_in_patch_keys :
  apply_patch jp_none (JObj [])
    (mk_patch a_add_pk pk_publicKeys (JArr [ex_key "k1" "a"; ex_key "k2" "x"; ex_key "k1" "b"]))
  = Some (JObj [(d_publicKey, JArr [ex_key "k1" "b"; ex_key "k2" "x"])]).
Proof. vm_compute. reflexivity. Qed.

Example dup_in_patch_services :
  apply_patch jp_none (JObj [(d_service, JArr [ex_key "s0" "old"])])
    (mk_patch a_add_svc pk_services (JArr [ex_key "s1" "a"; ex_key "s0" "new"; ex_key "s1" "b"]))
  = Some (JObj [(d_service, JArr [ex_key "s0" "new"; ex_key "s1" "b"])]).
Proof. vm_compute. reflexivity. Qed.

Example dup_in_patch_uris :
  apply_patch jp_none (JObj []) (mk_patch a_add_aka pk_uris (JArr [JStr (bs "u"); JStr (bs "w"); JStr (bs "u")]))
  = Some (JObj [(d_alsoKnownAs, JArr [JStr (bs "u"); JStr (bs "w")])]).
Proof. vm_compute. reflexivity. Qed.

(* the input of F8 satisfies the refinement and keeps the ids distinct *)
Example dup_in_patch_refines :
  let v := JArr [ex_key "k1" "a"; ex_key "k1" "b"] in
  match apply_patch jp_none (JObj []) (mk_patch a_add_pk pk_publicKeys v) with
  | Some d' => da_keys (abs_doc d') = omap_add_all (parse_entries v) (da_keys (abs_doc (JObj [])))
               /\ da_keys (abs_doc d') = [(bs "k1", ex_key "k1" "b")]
  | None => False
  end.
Proof. vm_compute. split; reflexivity. Qed.

(* the hypothesis of [refines_ordered_map] (distinct ids in the touched section) holds for a non-trivial input, and is
   needed: on a section that already holds an id twice, updateKey overwrites both entries *)
Example refinement_hyps_inhabited :
  let d := JObj [(d_publicKey, JArr [ex_key "k1" "a"; ex_key "k2" "b"]); (d_alsoKnownAs, JArr [JStr (bs "u")])] in
  let v := JArr [ex_key "k2" "c"; ex_key "k3" "d"; ex_key "k3" "e"] in
  sections_nodup d /\
  apply_patch jp_none d (mk_patch a_add_pk pk_publicKeys v)
  = Some (JObj [(d_publicKey, JArr [ex_key "k1" "a"; ex_key "k2" "c"; ex_key "k3" "e"]);
                (d_alsoKnownAs, JArr [JStr (bs "u")])]).
Proof.
  cbv zeta. split.
  - unfold sections_nodup. vm_compute. repeat split; repeat constructor; cbn [In]; intuition discriminate.
  - vm_compute. reflexivity.
Qed.

Example section_nodup_needed :
  let d := JObj [(d_publicKey, JArr [ex_key "k1" "a"; ex_key "k1" "b"])] in
  let v := JArr [ex_key "k1" "c"] in
  match apply_patch jp_none d (mk_patch a_add_pk pk_publicKeys v) with
  | Some d' => da_keys (abs_doc d') = [(bs "k1", ex_key "k1" "c"); (bs "k1", ex_key "k1" "c")]
               /\ omap_add_all (parse_entries v) (da_keys (abs_doc d))
                  = [(bs "k1", ex_key "k1" "c"); (bs "k1", ex_key "k1" "b")]
  | None => False
  end.
Proof. vm_compute. split; reflexivity. Qed.

Section Atomic.
  Variable jp : json -> json -> option json.

  Lemma apply_patches_res : forall ps d, apply_patches jp d ps = res_opt (apply_patches_r jp d ps).
  Proof.
    induction ps as [|p r IH]; intro d; cbn [apply_patches apply_patches_r]; [reflexivity|].
    unfold apply_patch. destruct (apply_patch_r jp d p) as [d1| |]; cbn [res_opt]; [apply IH|reflexivity|reflexivity].
  Qed.

  Definition obind (o : option json) (f : json -> option json) : option json :=
    match o with Some d => f d | None => None end.

  Theorem atomic_app : forall ps1 ps2 d,
    apply_patches jp d (ps1 ++ ps2) = obind (apply_patches jp d ps1) (fun d' => apply_patches jp d' ps2).
  Proof.
    induction ps1 as [|p r IH]; intros ps2 d; cbn [app apply_patches obind]; [reflexivity|].
    destruct (apply_patch jp d p) as [d1|]; [apply IH|reflexivity].
  Qed.

  (* the call fails as a whole exactly when some patch fails on the result of the patches before it; otherwise every
     patch has been applied, in order *)
  Theorem atomic : forall ps d,
    apply_patches jp d ps = None <->
    exists k dk p, nth_error ps k = Some p /\ apply_patches jp d (firstn k ps) = Some dk /\ apply_patch jp dk p = None.
  Proof.
    induction ps as [|p r IH]; intro d.
    - cbn [apply_patches]. split; [discriminate|]. intros [k [dk [p [Hn _]]]]. destruct k; discriminate Hn.
    - cbn [apply_patches]. split.
      + intro H. destruct (apply_patch jp d p) as [d1|] eqn:E.
        * apply IH in H. destruct H as [k [dk [q [Hn [Hf Hq]]]]].
          exists (S k), dk, q. cbn [nth_error firstn apply_patches]. rewrite E. tauto.
        * exists 0, d, p. cbn [nth_error firstn apply_patches]. tauto.
      + intros [k [dk [q [Hn [Hf Hq]]]]]. destruct k as [|k]; cbn [nth_error firstn apply_patches] in Hn, Hf.
        * inversion Hn; subst q. inversion Hf; subst dk. rewrite Hq. reflexivity.
        * destruct (apply_patch jp d p) as [d1|]; [|reflexivity]. apply IH. exists k, dk, q. tauto.
  Qed.

  Corollary all_applied : forall ps d d',
    apply_patches jp d ps = Some d' ->
    forall k, k <= List.length ps -> exists dk, apply_patches jp d (firstn k ps) = Some dk
                                  /\ apply_patches jp dk (skipn k ps) = Some d'.
  Proof.
    intros ps d d' H k _. rewrite <- (firstn_skipn k ps) in H. rewrite atomic_app in H.
    destruct (apply_patches jp d (firstn k ps)) as [dk|]; [|discriminate H]. exists dk. split; [reflexivity|exact H].
  Qed.
End Atomic.

(* PatchesFromDocument followed by ApplyPatches on the empty document. *)

(* member names that need no JSON-pointer escaping *)
Definition name_plain (k : bytes) : bool :=
  forallb (fun b => negb (Byte.eqb b "/"%byte) && negb (Byte.eqb b "~"%byte)) k.

(* non-empty list of objects with pairwise distinct ids (a missing or non-string id counts as "") *)
Definition entries_ok (v : json) : Prop :=
  exists l, v = JArr l /\ l <> [] /\ Forall (fun e => is_obj e = true) l /\ NoDup (map jid l).

(* non-empty list of pairwise distinct strings *)
Definition uris_ok (v : json) : Prop := exists us, v = JArr (map JStr us) /\ us <> [] /\ NoDup us.

Definition is_section (k : bytes) : bool :=
  if bytes_eqb k d_publicKey then true else if bytes_eqb k d_service then true
  else if bytes_eqb k d_alsoKnownAs then true else false.

(* a well-formed member: the three sections are non-empty lists of objects / of strings WITHOUT REPEATED ids / URIs
   (the code collapses a repeated id to one entry since commit 94b5572, F8, so such a document is not reproduced);
   every other member name denotes itself as a JSON-pointer token ([name_plain]: no '/', no '~' - the property's
   premise "needs no JSON-pointer escaping").  Nothing is asked of quotes, backslashes or control bytes in a name
   ([key_plain]): since commit 5d68dd6 (F17) the code writes the name as a JSON string. *)
Definition wf_member (kv : bytes * json) : Prop :=
  if bytes_eqb (fst kv) d_publicKey then entries_ok (snd kv)
  else if bytes_eqb (fst kv) d_service then entries_ok (snd kv)
  else if bytes_eqb (fst kv) d_alsoKnownAs then uris_ok (snd kv)
  else name_plain (fst kv) = true.

Definition wf_document (m : list (bytes * json)) : Prop :=
  NoDup (map fst m) /\ has_id (JObj m) = false /\ Forall wf_member m.

Definition sec_patch (kv : bytes * json) : json :=
  if bytes_eqb (fst kv) d_publicKey then mk_patch a_add_pk pk_publicKeys (snd kv)
  else if bytes_eqb (fst kv) d_service then mk_patch a_add_svc pk_services (snd kv)
  else mk_patch a_add_aka pk_uris (snd kv).

Definition jp_op (kv : bytes * json) : json := jp_add_op (fst kv) (snd kv).
Definition issec (kv : bytes * json) : bool := is_section (fst kv).
Definition notsec (kv : bytes * json) : bool := negb (is_section (fst kv)).

Lemma insert_member_perm : forall k v l, Permutation (insert_member k v l) ((k, v) :: l).
Proof.
  intros k v l. induction l as [|[k' v'] r IH]; cbn [insert_member]; [apply Permutation_refl|].
  destruct (bytes_ltb k' k); [|apply Permutation_refl].
  eapply perm_trans; [apply perm_skip; exact IH|apply perm_swap].
Qed.

Lemma sort_members_perm : forall m, Permutation (sort_members m) m.
Proof.
  induction m as [|[k v] r IH]; cbn [sort_members]; [apply perm_nil|].
  eapply perm_trans; [apply insert_member_perm|apply perm_skip; exact IH].
Qed.

Lemma filter_partition_perm : forall (A : Type) (f : A -> bool) l,
  Permutation (filter f l ++ filter (fun x => negb (f x)) l) l.
Proof.
  intros A f l. induction l as [|x r IH]; cbn [filter]; [apply perm_nil|].
  destruct (f x); cbn [negb app].
  - apply perm_skip. exact IH.
  - eapply perm_trans; [apply Permutation_sym; apply Permutation_middle|apply perm_skip; exact IH].
Qed.

Lemma uris_of_ok : forall us, us <> [] -> uris_of (JArr (map JStr us)) = Some us.
Proof.
  intros us H. unfold uris_of.
  assert (E : uris_of_list (map JStr us) = Some us).
  { clear H. induction us as [|u r IH]; cbn [map uris_of_list]; [reflexivity|]. rewrite IH. reflexivity. }
  rewrite E. destruct us; [contradiction|reflexivity].
Qed.

(* what PatchesFromDocument emits for well-formed members, in the order of the members *)
Lemma pfd_go_wf : forall ms, Forall wf_member ms ->
  pfd_go ms = Some (map sec_patch (filter issec ms), map jp_op (filter notsec ms)).
Proof.
  induction ms as [|[k v] r IH]; intro H; cbn [pfd_go]; [reflexivity|].
  inversion H as [|? ? Hkv Hr]; subst. rewrite (IH Hr).
  unfold wf_member in Hkv. cbn [fst snd] in Hkv.
  cbn [filter]. change (issec (k, v)) with (is_section k). change (notsec (k, v)) with (negb (is_section k)).
  unfold is_section.
  destruct (bytes_eqb k d_publicKey) eqn:E1.
  - cbn [negb map]. unfold sec_patch. cbn [fst snd]. rewrite E1. reflexivity.
  - destruct (bytes_eqb k d_service) eqn:E2.
    + cbn [negb map]. unfold sec_patch. cbn [fst snd]. rewrite E1, E2. reflexivity.
    + destruct (bytes_eqb k d_alsoKnownAs) eqn:E3.
      * destruct Hkv as [us [Hv [Hne _]]]. subst v. rewrite (uris_of_ok us Hne).
        cbn [negb map]. unfold sec_patch. cbn [fst snd]. rewrite E1, E2. reflexivity.
      * cbn [negb map]. reflexivity.
Qed.

Lemma wf_member_notsec : forall kv, wf_member kv -> notsec kv = true -> name_plain (fst kv) = true.
Proof.
  intros kv Hwf Hns. unfold wf_member in Hwf. unfold notsec, is_section in Hns.
  destruct (bytes_eqb (fst kv) d_publicKey); [discriminate Hns|].
  destruct (bytes_eqb (fst kv) d_service); [discriminate Hns|].
  destruct (bytes_eqb (fst kv) d_alsoKnownAs); [discriminate Hns|exact Hwf].
Qed.

(* the patches PatchesFromDocument builds dispatch as their action says *)
Lemma apply_mk_add_pk : forall jp d v,
  apply_patch jp d (mk_patch a_add_pk pk_publicKeys v) = res_opt (apply_add_entries d_publicKey d v).
Proof. reflexivity. Qed.

Lemma apply_mk_add_svc : forall jp d v,
  apply_patch jp d (mk_patch a_add_svc pk_services v) = res_opt (apply_add_entries d_service d v).
Proof. reflexivity. Qed.

Lemma apply_mk_add_aka : forall jp d v,
  apply_patch jp d (mk_patch a_add_aka pk_uris v) = res_opt (apply_add_aka d v).
Proof. reflexivity. Qed.

Lemma apply_mk_json : forall jp d v,
  apply_patch jp d (mk_patch a_json pk_patches v) = res_opt (apply_json jp d v).
Proof. reflexivity. Qed.

(* The round trip under an assumption on the JSON-patch engine that is restricted to documents and values
   satisfying [Q]; [Q := fun _ => True] is the unrestricted assumption of [from_document_roundtrip], and
   Doc/RoundTripEngine.v discharges the assumption for the engine model with a [Q] that the model needs. *)
Section RoundTripOn.
  Variable jp : json -> json -> option json.
  Variable Q : json -> Prop.

  Hypothesis jp_add_fresh_members_on : forall kvs m,
    NoDup (map fst m) -> Forall (fun kv => Q (snd kv)) m -> Forall (fun kv => Q (snd kv)) kvs ->
    Forall (fun kv => name_plain (fst kv) = true) kvs -> NoDup (map fst kvs) ->
    (forall k, In k (map fst kvs) -> jget k m = None) ->
    exists m', jp (JArr (map jp_op kvs)) (JObj m) = Some (JObj m') /\ Permutation m' (m ++ kvs).

  (* an add patch for a section that the document does not have yet stores the section value itself *)
  Lemma apply_add_entries_fresh : forall k acc l,
    jget k acc = None -> l <> [] -> Forall (fun e => is_obj e = true) l -> NoDup (map jid l) ->
    apply_add_entries k (JObj acc) (JArr l) = ROk (JObj (acc ++ [(k, JArr l)])).
  Proof.
    intros k acc l Hnone Hne Hobj Hnd. unfold apply_add_entries, doc_get. cbn [members]. rewrite Hnone.
    cbn [parse_entries]. rewrite (filter_all _ _ (proj1 (Forall_forall _ _) Hobj)), (add_entries_nil l Hnd).
    destruct l as [|e l']; [contradiction|]. cbn [arr_or_null doc_set].
    rewrite (jset_absent _ _ _ Hnone). reflexivity.
  Qed.

  Lemma apply_sec_patch : forall k v acc,
    wf_member (k, v) -> is_section k = true -> jget k acc = None ->
    apply_patch jp (JObj acc) (sec_patch (k, v)) = Some (JObj (acc ++ [(k, v)])).
  Proof.
    intros k v acc Hwf Hsec Hnone. unfold wf_member in Hwf. unfold is_section in Hsec. unfold sec_patch.
    cbn [fst snd] in *.
    destruct (bytes_eqb k d_publicKey) eqn:E1; [|destruct (bytes_eqb k d_service) eqn:E2;
                                                   [|destruct (bytes_eqb k d_alsoKnownAs) eqn:E3; [|discriminate Hsec]]].
    - apply bytes_eqb_eq in E1. subst k. destruct Hwf as [l [Hv [Hne [Hobj Hndl]]]]. subst v.
      rewrite apply_mk_add_pk.
      rewrite (apply_add_entries_fresh _ acc l Hnone Hne Hobj Hndl). reflexivity.
    - apply bytes_eqb_eq in E2. subst k. destruct Hwf as [l [Hv [Hne [Hobj Hndl]]]]. subst v.
      rewrite apply_mk_add_svc.
      rewrite (apply_add_entries_fresh _ acc l Hnone Hne Hobj Hndl). reflexivity.
    - apply bytes_eqb_eq in E3. subst k. destruct Hwf as [us [Hv [Hne Hndu]]]. subst v.
      rewrite apply_mk_add_aka.
      unfold apply_add_aka, doc_get. cbn [members]. rewrite Hnone. cbn [string_array strings_of].
      rewrite strings_of_map_JStr. rewrite (add_uris_nil us Hndu).
      destruct us as [|u us']; [contradiction|]. cbn [map arr_or_null doc_set res_opt].
      rewrite (jset_absent _ _ _ Hnone). reflexivity.
  Qed.

  Lemma apply_sec_patches : forall secs acc,
    Forall wf_member secs -> Forall (fun kv => issec kv = true) secs -> NoDup (map fst secs) ->
    (forall k, In k (map fst secs) -> jget k acc = None) ->
    apply_patches jp (JObj acc) (map sec_patch secs) = Some (JObj (acc ++ secs)).
  Proof.
    induction secs as [|[k v] r IH]; intros acc Hwf Hsec Hnd Hnone; cbn [map apply_patches].
    - rewrite app_nil_r. reflexivity.
    - inversion Hwf as [|? ? Hwf1 Hwfr]; subst. inversion Hsec as [|? ? Hsec1 Hsecr]; subst.
      cbn [map fst] in Hnd. inversion Hnd as [|? ? Hk Hndr]; subst.
      rewrite (apply_sec_patch k v acc Hwf1 Hsec1 (Hnone k (or_introl eq_refl))).
      rewrite (IH (acc ++ [(k, v)]) Hwfr Hsecr Hndr).
      + rewrite <- app_assoc. reflexivity.
      + intros k' Hk'. apply jget_none_app.
        * apply Hnone. right. exact Hk'.
        * intro E. subst k'. contradiction.
  Qed.

  (* The sorted members split into the sections, which become one patch each and rebuild themselves on the empty
     document, and the other members, which become one ietf-json-patch of adds on the document built so far. *)
  Theorem from_document_roundtrip_on : forall m,
    wf_document m -> Forall (fun kv => Q (snd kv)) m ->
    exists ps m', patches_from_document (JObj m) = Some ps
                  /\ apply_patches jp (JObj []) ps = Some (JObj m') /\ Permutation m' m.
  Proof.
    intros m [Hnd [Hid Hwf]] HQ.
    pose proof (sort_members_perm m) as Hperm.
    set (ms := sort_members m) in *.
    pose proof (Permutation_Forall (Permutation_sym Hperm) Hwf) as Hwf'.
    pose proof (Permutation_Forall (Permutation_sym Hperm) HQ) as HQ'.
    pose proof (filter_partition_perm _ issec ms) as Hpart.
    change (fun x => negb (issec x)) with notsec in Hpart.
    pose proof (incl_Forall (incl_filter issec ms) Hwf') as Hsecs_wf.
    pose proof (incl_Forall (incl_filter issec ms) HQ') as HQs.
    pose proof (incl_Forall (incl_filter notsec ms) HQ') as HQo.
    assert (Hsecs_sec : Forall (fun kv => issec kv = true) (filter issec ms)).
    { apply Forall_forall. intros kv Hin. apply filter_In in Hin. tauto. }
    assert (Hplain : Forall (fun kv => name_plain (fst kv) = true) (filter notsec ms)).
    { apply Forall_forall. intros kv Hin. apply filter_In in Hin. destruct Hin as [Hin Hns].
      rewrite Forall_forall in Hwf'. exact (wf_member_notsec kv (Hwf' kv Hin) Hns). }
    set (secs := filter issec ms) in *. set (others := filter notsec ms) in *.
    assert (Hnd2 : NoDup (map fst secs ++ map fst others)).
    { rewrite <- map_app. apply (Permutation_NoDup (l := map fst m)); [|exact Hnd].
      apply Permutation_map, Permutation_sym. exact (perm_trans Hpart Hperm). }
    apply NoDup_app_iff in Hnd2. destruct Hnd2 as [Hnds [Hndo Hdisj]].
    assert (Happ : apply_patches jp (JObj []) (map sec_patch secs) = Some (JObj secs)).
    { apply (apply_sec_patches secs [] Hsecs_wf Hsecs_sec Hnds). intros k _. reflexivity. }
    unfold patches_from_document. rewrite Hid. fold ms. rewrite (pfd_go_wf ms Hwf'). fold secs. fold others.
    destruct (map jp_op others) as [|j js] eqn:Hjs.
    - assert (Eo : others = []) by (destruct others; [reflexivity|discriminate Hjs]).
      exists (map sec_patch secs), secs. split; [reflexivity|]. split; [exact Happ|].
      rewrite Eo in Hpart. rewrite app_nil_r in Hpart. exact (perm_trans Hpart Hperm).
    - destruct (jp_add_fresh_members_on others secs Hnds HQs HQo Hplain Hndo) as [m' [Hjp Hm']].
      { intros k Hk. apply jget_none_notin. intro Hin. exact (Hdisj k Hin Hk). }
      exists (map sec_patch secs ++ [mk_patch a_json pk_patches (JArr (j :: js))]), m'.
      split; [reflexivity|]. split.
      + rewrite atomic_app. rewrite Happ. unfold obind. cbn [apply_patches].
        rewrite apply_mk_json.
        unfold apply_json. rewrite <- Hjs. rewrite Hjp. reflexivity.
      + exact (perm_trans Hm' (perm_trans Hpart Hperm)).
  Qed.
End RoundTripOn.

Section RoundTrip.
  Variable jp : json -> json -> option json.

  (* ASSUMPTION on the JSON-patch engine (github.com/evanphx/json-patch, not modelled here): a list of
     {"op":"add","path":"/k","value":v} whose names k need no pointer escaping, are pairwise distinct and are not
     members of the object document succeeds and yields the document extended with exactly those members. *)
  Hypothesis jp_add_fresh_members : forall kvs m,
    Forall (fun kv => name_plain (fst kv) = true) kvs -> NoDup (map fst kvs) ->
    (forall k, In k (map fst kvs) -> jget k m = None) ->
    exists m', jp (JArr (map jp_op kvs)) (JObj m) = Some (JObj m') /\ Permutation m' (m ++ kvs).

  (* A well-formed document, converted to patches and applied to the empty document, gives back a document with
     exactly the same members (same names, same values; member order is not observable in Go).
     The conclusion [Permutation m' m] says: same member names with identical values.  The [json_equiv] form is
     [from_document_roundtrip_equiv] at the end of this file (via [perm_members_equiv]). *)
  Theorem from_document_roundtrip : forall m,
    wf_document m ->
    exists ps m', patches_from_document (JObj m) = Some ps
                  /\ apply_patches jp (JObj []) ps = Some (JObj m') /\ Permutation m' m.
  Proof.
    intros m Hwf. apply (from_document_roundtrip_on jp (fun _ => True)); [|exact Hwf|].
    - intros kvs acc _ _ _. apply jp_add_fresh_members.
    - apply Forall_forall. intros kv _. exact I.
  Qed.
End RoundTrip.

(* From [Permutation] to [json_equiv]: facts about [bytes_ltb], [insert_member] and [norm] of Json/Ast.v. *)

(* the bytewise order is the code-unit order of Json/Utf.v on the byte values *)
Lemma bytes_ltb_key_ltb : forall a b, bytes_ltb a b = Utf.key_ltb (map Byte.to_N a) (map Byte.to_N b).
Proof.
  induction a as [|x a IH]; intros [|y b]; cbn [bytes_ltb map Utf.key_ltb]; try reflexivity.
  rewrite IH. reflexivity.
Qed.

Lemma bytes_ltb_irrefl : forall a, bytes_ltb a a = false.
Proof. intro a. rewrite bytes_ltb_key_ltb. apply JcsProofs.key_ltb_irrefl. Qed.

Lemma bytes_ltb_trans : forall a b c, bytes_ltb a b = true -> bytes_ltb b c = true -> bytes_ltb a c = true.
Proof. intros a b c. rewrite !bytes_ltb_key_ltb. apply JcsProofs.key_ltb_trans. Qed.

Lemma bytes_ltb_total : forall a b, bytes_ltb a b = false -> bytes_ltb b a = false -> a = b.
Proof.
  intros a b H1 H2. rewrite bytes_ltb_key_ltb in H1, H2. pose proof (JcsProofs.key_ltb_total _ _ H1 H2) as E.
  clear H1 H2. revert b E. induction a as [|x a IH]; intros [|y b] E; try discriminate E; [reflexivity|].
  cbn [map] in E. inversion E as [[Hx Hr]]. rewrite (byte_to_N_inj x y Hx), (IH b Hr). reflexivity.
Qed.

(* the member sort inside [norm], as a named function *)
Fixpoint nsort (m : list (bytes * json)) : list (bytes * json) :=
  match m with
  | [] => []
  | (k, v) :: r => insert_member k (norm v) (nsort r)
  end.

Lemma norm_obj : forall m, norm (JObj m) = JObj (nsort m).
Proof.
  induction m as [|[k v] r IH]; [reflexivity|].
  change (norm (JObj ((k, v) :: r)))
    with (JObj (insert_member k (norm v) (match norm (JObj r) with JObj x => x | _ => [] end))).
  rewrite IH. reflexivity.
Qed.

Definition nmember (kv : bytes * json) : bytes * json := (fst kv, norm (snd kv)).

Lemma nsort_perm : forall m, Permutation (nsort m) (map nmember m).
Proof.
  induction m as [|[k v] r IH]; cbn [nsort map]; [apply perm_nil|].
  eapply perm_trans; [apply insert_member_perm|]. apply perm_skip. exact IH.
Qed.

(* strictly increasing member names *)
Definition name_lt (p q : bytes * json) : Prop := bytes_ltb (fst p) (fst q) = true.

Lemma insert_member_sorted : forall k v l,
  StronglySorted name_lt l -> ~ In k (map fst l) -> StronglySorted name_lt (insert_member k v l).
Proof.
  intros k v l. induction l as [|[k' v'] r IH]; intros Hs Hnin; cbn [insert_member].
  - constructor; constructor.
  - apply StronglySorted_inv in Hs. destruct Hs as [Hr Hk']. cbn [map fst In] in Hnin.
    destruct (bytes_ltb k' k) eqn:E.
    + constructor; [apply IH; tauto|].
      apply (Permutation_Forall (Permutation_sym (insert_member_perm k v r))). constructor; assumption.
    + assert (Hlt : bytes_ltb k k' = true).
      { destruct (bytes_ltb k k') eqn:E2; [reflexivity|]. exfalso. apply Hnin. left.
        symmetry. apply bytes_ltb_total; assumption. }
      constructor; [constructor; assumption|]. constructor; [exact Hlt|].
      eapply Forall_impl; [|exact Hk']. intros q Hq. exact (bytes_ltb_trans _ _ _ Hlt Hq).
Qed.

Lemma nsort_sorted : forall m, NoDup (map fst m) -> StronglySorted name_lt (nsort m).
Proof.
  induction m as [|[k v] r IH]; intro H; cbn [nsort]; [constructor|].
  cbn [map fst] in H. inversion H as [|? ? Hk Hr]; subst.
  apply insert_member_sorted; [apply IH; exact Hr|].
  intro Hin. apply Hk. apply (Permutation_in _ (Permutation_map fst (nsort_perm r))) in Hin.
  rewrite map_map in Hin. exact Hin.
Qed.

Fixpoint json_eqb_refl (j : json) : json_eqb j j = true.
Proof.
  destruct j as [|b|n|s|l|m]; cbn [json_eqb].
  - reflexivity.
  - destruct b; reflexivity.
  - apply N.eqb_refl.
  - apply bytes_eqb_refl.
  - induction l as [|x r IH]; [reflexivity|]. rewrite (json_eqb_refl x). exact IH.
  - induction m as [|[k v] r IH]; [reflexivity|]. rewrite bytes_eqb_refl, (json_eqb_refl v). exact IH.
Qed.

(* member order is irrelevant for [json_equiv] when names are pairwise distinct *)
Theorem perm_members_equiv : forall m m',
  NoDup (map fst m) -> Permutation m' m -> json_equiv (JObj m') (JObj m) = true.
Proof.
  intros m m' Hnd Hp. unfold json_equiv. rewrite !norm_obj.
  pose proof (Permutation_NoDup (Permutation_map fst (Permutation_sym Hp)) Hnd) as Hnd'.
  assert (E : nsort m' = nsort m).
  { apply (StronglySorted_perm_eq name_lt); [|apply nsort_sorted; exact Hnd'|apply nsort_sorted; exact Hnd|].
    - intros a b _ _ Hab Hba. pose proof (bytes_ltb_trans _ _ _ Hab Hba) as C.
      rewrite bytes_ltb_irrefl in C. discriminate C.
    - eapply perm_trans; [apply nsort_perm|]. eapply perm_trans; [|apply Permutation_sym; apply nsort_perm].
      apply Permutation_map. exact Hp. }
  rewrite E. apply json_eqb_refl.
Qed.

(* C17, round-trip clause: the patches of a well-formed document, applied to the empty document, give a document that is
   [json_equiv] to it (under the same assumption on the JSON-patch engine) *)
Theorem from_document_roundtrip_equiv : forall jp,
  (forall kvs m,
      Forall (fun kv => name_plain (fst kv) = true) kvs -> NoDup (map fst kvs) ->
      (forall k, In k (map fst kvs) -> jget k m = None) ->
      exists m', jp (JArr (map jp_op kvs)) (JObj m) = Some (JObj m') /\ Permutation m' (m ++ kvs)) ->
  forall m, wf_document m ->
  exists ps d', patches_from_document (JObj m) = Some ps
                /\ apply_patches jp (JObj []) ps = Some d' /\ json_equiv d' (JObj m) = true.
Proof.
  intros jp Hjp m Hwf. destruct (from_document_roundtrip jp Hjp m Hwf) as [ps [m' [H1 [H2 H3]]]].
  exists ps, (JObj m'). split; [exact H1|]. split; [exact H2|].
  apply perm_members_equiv; [exact (proj1 Hwf)|exact H3].
Qed.
