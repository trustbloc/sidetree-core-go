(* Extension theorems (C11): a correctly built request, once anchored inside its window on a DID
   whose current commitment matches the revealed key, produces precisely the intended state change
   on resolution.

   Setting: [fops] is a prepared (sorted, filtered) operation list that resolves to state [s]
   ([resolve_core fops = inr (Some (c0, s, ap))]).  ONE operation [o] is appended at the END of
   the list.  Then [resolve_core (fops ++ [o])] resolves to exactly [apply o s], and [o] is the
   last applied operation.  The examples at the end show that the hypotheses can be met and that
   those which look technical are forced by the model.

   Earliest.v, Chrono.v, VersionAdditional.v and IntakeTerminal.v take from this file [core_run]
   (the right-hand side of Core.resolve_core_some as a predicate), [resolve_of_full] and the
   example operations [xop], [unpublished], [hist]. *)
From Coq Require Import List ZArith Bool Lia.
From SV Require Import Base.ListFacts Resolve.Op Resolve.Apply Resolve.ApplyFacts Resolve.Process
  Resolve.ProcessFacts Resolve.Order Resolve.Chain Resolve.Core Resolve.Prepare Resolve.Terminal.
Import ListNotations.
Local Open Scope Z_scope.

(* A chain over [ops] ends in [s'] with a non-empty commitment in force; [o],
   appended, reveals that commitment, is accepted by Apply, does not re-commit to the same key, and
   its next commitment (when not empty) is revealed by no operation of [ops].  Then the chain over
   [ops ++ [o]] does the same steps, applies [o] and stops.  The only invariant needed about the
   consumed commitments is that each of them was revealed by an operation of [ops]. *)
Lemma crun_extend sel ops o s consumed s' cs ap s'' :
  crun sel ops s consumed s' cs ap ->
  incl consumed (map reveal_c ops) ->
  sel s' <> 0 ->
  cand_pred (sel s') o = true ->
  apply o s' = Some s'' ->
  next_c o <> sel s' ->
  sel s'' = next_c o ->
  (next_c o <> 0 -> forall q, In q ops -> reveal_c q <> next_c o) ->
  crun sel (ops ++ [o]) s consumed s'' (cs ++ [sel s']) (ap ++ [o]).
Proof.
  induction 1 as [s cs Hf | s cs x s1 Hf H0 | s cs x s1 s' cs' ap Hf H0 Hc IH];
    intros Hinc Hnz Hcand Ha Hne Hsel Hfresh.
  - (* where the chain over [ops] stopped, [o] is now the first valid candidate; nothing follows it *)
    assert (Hf' : first_valid (candidates (sel s) (ops ++ [o])) s (sel s) cs = Some (o, s'')).
    { rewrite candidates_app, first_valid_app, Hf, candidates_is_filter. cbn [filter]. rewrite Hcand, first_valid_cons.
      assert (Hsk : skipped o s (sel s) cs = false).
      { apply skipped_false_iff. split; [exact Hne | split; [|eauto]].
        destruct (Z.eq_dec (next_c o) 0) as [E0|E0]; [left; exact E0 | right].
        intros Hin. apply Hinc, in_map_iff in Hin. destruct Hin as (q & Hq & Hqi). exact (Hfresh E0 q Hqi Hq). }
      rewrite Hsk, Ha. reflexivity. }
    destruct (Z.eq_dec (sel s'') 0) as [E0|E0]; [apply crun_last; assumption|].
    apply crun_step with s''; [exact Hf' | exact E0|]. apply crun_stop. rewrite candidates_none; [reflexivity|].
    rewrite Hsel in *. intros q Hq. apply in_app_or in Hq. destruct Hq as [Hq|[<-|[]]]; [apply Hfresh; assumption|].
    apply cand_pred_iff in Hcand. destruct Hcand as (_ & _ & _ & ->). congruence.
  - contradiction.
  - apply crun_step with s1; [rewrite candidates_app, first_valid_app, Hf; reflexivity | exact H0|].
    apply IH; try assumption.
    intros z Hz. apply in_app_or in Hz. destruct Hz as [Hz|[<-|[]]]; [auto|].
    apply first_valid_cand in Hf. destruct Hf as (Hi & <- & _). apply in_map, Hi.
Qed.

Lemma run_chain_extend sel ops o s s' ap s'' :
  run_chain sel ops s = Some (s', ap) ->
  sel s' <> 0 ->
  cand_pred (sel s') o = true ->
  apply o s' = Some s'' ->
  next_c o <> sel s' ->
  sel s'' = next_c o ->
  (next_c o <> 0 -> forall q, In q ops -> reveal_c q <> next_c o) ->
  run_chain sel (ops ++ [o]) s = Some (s'', ap ++ [o]).
Proof.
  intros Hr Hnz Hcand Ha Hne Hsel Hfresh. apply run_chain_crun in Hr. destruct Hr as (cs & Hc & Hl).
  apply run_chain_crun. exists (cs ++ [sel s']). split; [apply crun_extend; try assumption; intros z []|].
  apply Z.eqb_neq in Hnz. rewrite Hnz in Hl. rewrite !app_length. cbn [length]. lia.
Qed.

(* every state Apply returns has a (possibly empty) document *)
Lemma apply_doc o s s' : apply o s = Some s' -> doc s' <> None.
Proof. intros Ha. apply apply_some in Ha. destruct Ha as [Hacc ->]. apply post_doc, Hacc. Qed.

(* the fields an update leaves alone *)
Definition same_base (s t : state) : Prop :=
  rec t = rec s /\ created t = created s /\ canon t = canon s /\ aorigin t = aorigin s.

Lemma apply_update_base o s s' :
  ty o = Update -> apply o s = Some s' -> same_base s s' /\ deact s' = false.
Proof.
  intros Hty Ha. rewrite (apply_post _ _ _ _ Hty Ha). repeat split.
Qed.

(* the update chain preserves rec, created, canon, aorigin, deact = false and doc <> None *)
Lemma update_chain_base ops s s' ap :
  Forall (fun o => ty o = Update) ops -> deact s = false -> doc s <> None ->
  run_chain upd ops s = Some (s', ap) ->
  same_base s s' /\ deact s' = false /\ doc s' <> None.
Proof.
  intros Hu Hd Hdoc Hr. rewrite Forall_forall in Hu.
  apply (run_chain_preserves (fun t => same_base s t /\ deact t = false /\ doc t <> None) _ _ _ _ _) in Hr.
  - exact Hr.
  - intros o t t' Hi Ha ((Hr1 & Hc1 & Hn1 & Ho1) & _ & _).
    destruct (apply_update_base _ _ _ (Hu o Hi) Ha) as ((Hr2 & Hc2 & Hn2 & Ho2) & Hd2).
    repeat split; try congruence. eapply apply_doc; exact Ha.
  - repeat split; assumption.
Qed.

Lemma chain_doc sel ops s s' ap :
  doc s <> None -> run_chain sel ops s = Some (s', ap) -> doc s' <> None.
Proof.
  intros Hd Hr. apply (run_chain_preserves (fun t => doc t <> None) _ _ _ _ _) in Hr; [exact Hr | | exact Hd].
  intros o t t' _ Ha _. eapply apply_doc; exact Ha.
Qed.

(* a recover / deactivate reads only "is there a document", created, canon and aorigin *)
Lemma apply_full_agree o s t :
  is_full o = true -> doc s <> None -> doc t <> None ->
  created t = created s -> canon t = canon s -> aorigin t = aorigin s ->
  apply o t = apply o s.
Proof.
  intros Hf Hs Ht Hc Hn Ho. apply is_full_true in Hf.
  rewrite !apply_eq, (accepts_full_agree o s t), (post_full_agree o s t) by assumption. reflexivity.
Qed.

(* the three phases of resolve_core: first valid create (c0, s0); recovery chain to s1 applying
   ap1; then, unless deactivated, update chain to s applying ap2 *)
Definition core_run (fops : list aop) (c0 : aop) (s0 s1 s : state) (ap1 ap2 : list aop) : Prop :=
  first_valid_create (creates_published_first (filter (is_ty Create) fops)) = Some (c0, s0) /\
  run_chain rec (filter is_full fops) s0 = Some (s1, ap1) /\
  (if deact s1 then s = s1 /\ ap2 = []
   else run_chain upd (filter (op_after (last_t s1) (last_n s1)) (filter (is_ty Update) fops)) s1
        = Some (s, ap2)).

Lemma resolve_core_iff fops c0 s ap :
  resolve_core fops = inr (Some (c0, s, ap)) <->
  exists s0 s1 ap1 ap2, core_run fops c0 s0 s1 s ap1 ap2 /\ ap = ap1 ++ ap2.
Proof. exact (resolve_core_some fops c0 s ap). Qed.

(* the state after the create has a document *)
Lemma core_run_docs fops c0 s0 s1 s ap1 ap2 :
  core_run fops c0 s0 s1 s ap1 ap2 -> doc s0 <> None /\ doc s1 <> None.
Proof.
  intros (Hfc & Hr1 & _). apply core_create in Hfc. destruct Hfc as (_ & _ & Hc).
  pose proof (apply_doc _ _ _ Hc) as H0. split; [exact H0|]. eapply chain_doc; eassumption.
Qed.

(* a resolved state always has a document *)
Theorem resolved_has_doc fops c0 s ap :
  resolve_core fops = inr (Some (c0, s, ap)) -> doc s <> None.
Proof.
  intros H. apply resolve_core_iff in H. destruct H as (s0 & s1 & ap1 & ap2 & Hrun & _).
  destruct (core_run_docs _ _ _ _ _ _ _ Hrun) as [_ H1]. destruct Hrun as (_ & _ & Hr2).
  destruct (deact s1); [destruct Hr2 as [-> _]; exact H1 | eapply chain_doc; eassumption].
Qed.

(* the applied list splits into the full operations and the updates *)
Lemma core_run_applied_split fops c0 s0 s1 s ap1 ap2 :
  core_run fops c0 s0 s1 s ap1 ap2 -> filter is_full (ap1 ++ ap2) = ap1.
Proof.
  intros (_ & Hr1 & Hr2). destruct (core_classes _ _ _ _ _ _ Hr1 Hr2) as [H1 H2]. rewrite Forall_forall in H1, H2.
  rewrite filter_app, (filter_all _ ap1), (filter_none _ ap2); [apply app_nil_r | |].
  - intros x Hx. apply is_full_false. right. apply (H2 x Hx).
  - intros x Hx. apply (H1 x Hx).
Qed.

(* [c] is a fresh commitment among the operations of [l] selected by [p]: none of them reveals
   it.  The empty commitment (0) ends a chain, so it needs no freshness. *)
Definition fresh_commitment (c : Z) (p : aop -> bool) (l : list aop) : Prop :=
  c <> 0 -> forall q, In q l -> p q = true -> reveal_c q <> c.

Lemma fresh_commitment_intro c p l : (forall q, In q l -> reveal_c q <> c) -> fresh_commitment c p l.
Proof. intros H _ q Hq _. apply H. exact Hq. Qed.

(* The replay point: the operation whose anchoring coordinates decide which updates are replayed
   - the last applied recover (or deactivate) or, when there is none, the create.  [o] passes the
   filter iff it is unpublished or anchored strictly after it
   (isOpWithTxnGreaterThanOrUnpublished). *)
Definition replay_point (c0 : aop) (ap : list aop) : aop := last (filter is_full ap) c0.
Definition after_replay_point (c0 : aop) (ap : list aop) (o : aop) : bool :=
  op_after (time (replay_point c0 ap)) (num (replay_point c0 ap)) o.

(* A condition on the list alone that implies it: [o] is after every create / recover / deactivate
   of [l] (or unpublished).  The position of [o] relative to the updates of [l] is irrelevant. *)
Definition after_fulls (l : list aop) (o : aop) : Prop :=
  forall q, In q l -> ty q <> Update -> op_after (time q) (num q) o = true.

Lemma after_fulls_unpublished l o : published o = false -> after_fulls l o.
Proof. intros H q _ _. apply op_after_spec. left. exact H. Qed.

Lemma after_fulls_later l o : (forall q, In q l -> op_lt q o = true) -> after_fulls l o.
Proof.
  intros H q Hq _. apply op_after_spec. right. specialize (H q Hq). apply op_lt_spec in H. exact H.
Qed.

(* both, decided on concrete lists *)
Lemma fresh_commitment_dec c p l :
  forallb (fun q => negb (p q) || negb (reveal_c q =? c)) l = true -> fresh_commitment c p l.
Proof.
  intros H _ q Hq Hp. rewrite forallb_forall in H. specialize (H q Hq). rewrite Hp in H.
  apply negb_true_iff, Z.eqb_neq in H. exact H.
Qed.

Lemma after_fulls_dec l o :
  forallb (fun q => is_ty Update q || op_after (time q) (num q) o) l = true -> after_fulls l o.
Proof.
  intros H q Hq Hty. rewrite forallb_forall in H. specialize (H q Hq). apply is_ty_false in Hty.
  rewrite Hty in H. exact H.
Qed.

(* the "after" test of the update chain is the test against the replay point *)
Lemma op_after_s1 fops c0 s0 s1 s ap1 ap2 q :
  core_run fops c0 s0 s1 s ap1 ap2 ->
  after_replay_point c0 (ap1 ++ ap2) q = op_after (last_t s1) (last_n s1) q.
Proof.
  intros Hrun. unfold after_replay_point, replay_point.
  rewrite (core_run_applied_split _ _ _ _ _ _ _ Hrun).
  destruct (replay_point_coords _ _ _ _ _ (proj1 Hrun) (proj1 (proj2 Hrun))) as (_ & _ & -> & -> & _). reflexivity.
Qed.

Lemma after_fulls_replay_point fops c0 s ap o :
  resolve_core fops = inr (Some (c0, s, ap)) -> after_fulls fops o -> after_replay_point c0 ap o = true.
Proof.
  intros Hres Hafter. apply resolve_core_iff in Hres. destruct Hres as (s0 & s1 & ap1 & ap2 & Hrun & ->).
  unfold after_replay_point, replay_point. rewrite (core_run_applied_split _ _ _ _ _ _ _ Hrun).
  destruct (replay_point_coords _ _ _ _ _ (proj1 Hrun) (proj1 (proj2 Hrun))) as (Hx & Hxty & _). exact (Hafter _ Hx Hxty).
Qed.

(* a resolved state with a commitment in force is not deactivated *)
Lemma commitment_in_force_active fops c0 s ap :
  resolve_core fops = inr (Some (c0, s, ap)) -> upd s <> 0 \/ rec s <> 0 -> deact s = false.
Proof.
  intros Hres Hnz. destruct (deact s) eqn:Ed; [|reflexivity].
  destruct (deactivated_shape _ _ _ _ Hres Ed) as (_ & Hu & Hr). destruct Hnz; congruence.
Qed.

Lemma apply_some_cand o s s' c :
  apply o s = Some s' -> ty o <> Create -> reveal_c o = c -> cand_pred c o = true.
Proof. intros Ha Hty <-. apply apply_some in Ha. eapply accepted_cand; [apply Ha | exact Hty]. Qed.

(* UPDATE, general form: whatever Apply makes of [o] on the resolved state is what resolution
   of the extended list returns, and [o] is the last applied operation.

   Hypotheses, all forced by the model (see the [needs_*] examples):
   - [reveal_c o = upd s]   : o reveals the update commitment in force;
   - [upd s <> 0]           : a chain whose commitment in force is empty has stopped for good
                              (this also says that the DID is not deactivated);
   - [upd_c o <> upd s]     : no key re-use (applyFirstValidOperation skips such operations);
   - [fresh_commitment ..]  : no update of fops reveals o's next commitment - otherwise that
                              operation would be applied after o, or o would be skipped because
                              its next commitment was consumed earlier in the chain;
   - [after_replay_point ..]: o passes the "after the last recover" filter; see
                              [update_not_after_inert] for the converse.
   Not needed: [upd_c o <> 0] (an update committing to nothing takes effect, and is the last). *)
Theorem update_extends fops c0 s ap o s' :
  resolve_core fops = inr (Some (c0, s, ap)) ->
  ty o = Update -> apply o s = Some s' ->
  reveal_c o = upd s -> upd s <> 0 -> upd_c o <> upd s ->
  fresh_commitment (upd_c o) (is_ty Update) fops ->
  after_replay_point c0 ap o = true ->
  resolve_core (fops ++ [o]) = inr (Some (c0, s', ap ++ [o])).
Proof.
  intros Hres Hty Ha Hrev Hnz Hreuse Hfresh Hafter.
  pose proof (commitment_in_force_active _ _ _ _ Hres (or_introl Hnz)) as Hd.
  apply resolve_core_iff in Hres. destruct Hres as (s0 & s1 & ap1 & ap2 & Hrun & ->).
  rewrite (op_after_s1 _ _ _ _ _ _ _ o Hrun) in Hafter. destruct Hrun as (Hfc & Hr1 & Hr2).
  apply resolve_core_iff. exists s0, s1, ap1, (ap2 ++ [o]). split; [|symmetry; apply app_assoc].
  destruct (class_update _ Hty) as (Hc & Hf & Hu). unfold core_run. rewrite !filter_snoc, Hc, Hf, Hu, filter_snoc.
  split; [exact Hfc|]. split; [exact Hr1|].
  destruct (deact s1) eqn:Ed1; [destruct Hr2 as [-> _]; congruence|]. rewrite Hafter.
  assert (Hnext : next_c o = upd_c o) by (unfold next_c; rewrite Hty; reflexivity).
  apply run_chain_extend with (s' := s); try assumption.
  - eapply apply_some_cand; [exact Ha | congruence | exact Hrev].
  - congruence.
  - exact (follows_upd [o] (Forall_cons _ Hty (Forall_nil _)) o s s' (or_introl eq_refl) Ha).
  - rewrite Hnext. intros H0 q Hq. apply filter_In in Hq. destruct Hq as [Hq _].
    apply filter_In in Hq. destruct Hq as [Hq Hqu]. exact (Hfresh H0 q Hq Hqu).
Qed.

(* conversely, an appended update that does not pass the filter changes nothing at all *)
Theorem update_not_after_inert fops c0 s ap o :
  resolve_core fops = inr (Some (c0, s, ap)) ->
  ty o = Update -> after_replay_point c0 ap o = false ->
  resolve_core (fops ++ [o]) = inr (Some (c0, s, ap)).
Proof.
  intros Hres Hty Hafter.
  apply resolve_core_iff in Hres. destruct Hres as (s0 & s1 & ap1 & ap2 & Hrun & ->).
  rewrite (op_after_s1 _ _ _ _ _ _ _ o Hrun) in Hafter.
  apply resolve_core_iff. exists s0, s1, ap1, ap2. split; [|reflexivity].
  destruct (class_update _ Hty) as (Hc & Hf & Hu). unfold core_run. rewrite !filter_snoc, Hc, Hf, Hu, filter_snoc, Hafter.
  exact Hrun.
Qed.

(* RECOVER / DEACTIVATE, general form.  The recovery chain gains [o]; the updates of fops that
   are unpublished or anchored after [o] are then replayed on top of it, so for a recover none of
   them may reveal the update commitment [o] installs.  The operations applied are the applied
   recovers of fops followed by [o]: the updates applied before are superseded.

   - [rec s <> 0], [next_c o <> rec s], [fresh_commitment ..] : as for updates;
   - the last hypothesis is vacuous for a deactivate ([deact s' = true]), and holds in particular
     when no update of fops is unpublished or anchored after [o]. *)
Theorem full_extends fops c0 s ap o s' :
  resolve_core fops = inr (Some (c0, s, ap)) ->
  is_full o = true -> apply o s = Some s' ->
  reveal_c o = rec s -> rec s <> 0 -> next_c o <> rec s ->
  fresh_commitment (next_c o) is_full fops ->
  (deact s' = false ->
   forall q, In q fops -> ty q = Update -> op_after (time o) (num o) q = true -> reveal_c q <> upd s') ->
  resolve_core (fops ++ [o]) = inr (Some (c0, s', filter is_full ap ++ [o])).
Proof.
  intros Hres Hfull Ha Hrev Hnz Hreuse Hfresh Hlater.
  pose proof (commitment_in_force_active _ _ _ _ Hres (or_intror Hnz)) as Hd.
  apply resolve_core_iff in Hres. destruct Hres as (s0 & s1 & ap1 & ap2 & Hrun & ->).
  rewrite (core_run_applied_split _ _ _ _ _ _ _ Hrun).
  destruct (core_run_docs _ _ _ _ _ _ _ Hrun) as [_ Hdoc1].
  destruct Hrun as (Hfc & Hr1 & Hr2).
  destruct (deact s1) eqn:Ed1; [destruct Hr2 as [-> _]; congruence|].
  destruct (update_chain_base _ _ _ _ (updates_are_updates _ fops) Ed1 Hdoc1 Hr2)
    as ((Hb1 & Hb2 & Hb3 & Hb4) & _ & Hdoc).
  assert (Ha1 : apply o s1 = Some s').
  { rewrite <- Ha. symmetry. apply apply_full_agree; assumption. }
  assert (Hnc : ty o <> Create) by (apply is_full_true in Hfull; destruct Hfull; congruence).
  apply resolve_core_iff. exists s0, s', (ap1 ++ [o]), []. split; [|symmetry; apply app_nil_r].
  destruct (class_full _ Hfull) as (Hc & Hu). unfold core_run. rewrite !filter_snoc, Hc, Hfull, Hu.
  split; [exact Hfc|]. split.
  - apply run_chain_extend with (s' := s1); try assumption.
    + congruence.
    + eapply apply_some_cand; [exact Ha1 | exact Hnc | congruence].
    + congruence.
    + exact (follows_rec [o] (Forall_cons _ Hfull (Forall_nil _)) o s1 s' (or_introl eq_refl) Ha1).
    + intros H0 q Hq. apply filter_In in Hq. destruct Hq as [Hq Hqf]. exact (Hfresh H0 q Hq Hqf).
  - destruct (deact s') eqn:Ed'; [split; reflexivity|].
    destruct (apply_sets_coords _ _ _ Ha) as [-> ->]. apply run_chain_stop. intros q Hq. apply filter_In in Hq. destruct Hq as [Hq Haft]. apply filter_In in Hq.
    destruct Hq as [Hq Hqu]. apply is_ty_true in Hqu. exact (Hlater eq_refl q Hq Hqu Haft).
Qed.

(* what the lower layers guarantee for a request built by the client library and anchored inside
   its window (C07-C12, C17, C18) *)
Definition well_formed (o : aop) : Prop :=
  parse_ok o = true /\ sig_ok o = true /\ sfx_ok o = true /\ dhash_ok o = true /\ dvalid o = true /\
  patch_ok o = true /\ mdelta o <> None /\ op_in_window o = true.

(* the part of [well_formed] each operation type actually needs *)
Definition good_update (o : aop) : Prop :=
  ty o = Update /\ parse_ok o = true /\ sig_ok o = true /\ dhash_ok o = true /\ dvalid o = true /\
  patch_ok o = true /\ op_in_window o = true.
Definition good_recover (o : aop) : Prop :=
  ty o = Recover /\ parse_ok o = true /\ sig_ok o = true /\ dhash_ok o = true /\ dvalid o = true /\
  patch_ok o = true /\ op_in_window o = true.
Definition good_deactivate (o : aop) : Prop :=
  ty o = Deactivate /\ parse_ok o = true /\ sig_ok o = true /\ sfx_ok o = true /\ op_in_window o = true.

Lemma well_formed_update o : well_formed o -> ty o = Update -> good_update o.
Proof. unfold well_formed, good_update. tauto. Qed.
Lemma well_formed_recover o : well_formed o -> ty o = Recover -> good_recover o.
Proof. unfold well_formed, good_recover. tauto. Qed.
Lemma well_formed_deactivate o : well_formed o -> ty o = Deactivate -> good_deactivate o.
Proof. unfold well_formed, good_deactivate. tauto. Qed.

(* the intended state changes *)
Definition update_result (o : aop) (s : state) : state :=
  {| doc := option_map (fun d => add_content d (delta o)) (doc s);
     upd := upd_c o; rec := rec s; deact := false;
     last_t := time o; last_n := num o; created := created s; updated := time o;
     vid := cref o; canon := canon s; aorigin := aorigin s |}.

Definition recover_result (o : aop) (s : state) : state :=
  {| doc := Some [delta o];
     upd := upd_c o; rec := rec_c o; deact := false;
     last_t := time o; last_n := num o; created := created s; updated := time o;
     vid := cref o; canon := cref o; aorigin := origin o |}.

Definition deactivate_result (o : aop) (s : state) : state :=
  {| doc := Some [];
     upd := 0; rec := 0; deact := true;
     last_t := time o; last_n := num o; created := created s; updated := time o;
     vid := cref o; canon := canon s; aorigin := aorigin s |}.

Lemma in_window_has_proto o : op_in_window o = true -> exists d, mdelta o = Some d.
Proof. unfold op_in_window. destruct (mdelta o) as [d|]; [eauto | discriminate]. Qed.

Lemma apply_good_update o s : good_update o -> doc s <> None -> apply o s = Some (update_result o s).
Proof.
  intros (Hty & Hp & Hs & Hh & Hv & Hpa & Hw) Hdoc. destruct (in_window_has_proto _ Hw) as [d Hm].
  unfold apply, update_result. rewrite Hm, Hty. unfold apply_update.
  destruct (doc s) as [dd|]; [|congruence]. rewrite Hp, Hs, Hh, Hv, Hpa, Hw. reflexivity.
Qed.

Lemma apply_good_recover o s : good_recover o -> doc s <> None -> apply o s = Some (recover_result o s).
Proof.
  intros (Hty & Hp & Hs & Hh & Hv & Hpa & Hw) Hdoc. destruct (in_window_has_proto _ Hw) as [d Hm].
  unfold apply, recover_result. rewrite Hm, Hty. unfold apply_recover.
  destruct (doc s) as [dd|]; [|congruence]. rewrite Hp, Hs, Hh, Hv, Hpa, Hw. reflexivity.
Qed.

Lemma apply_good_deactivate o s :
  good_deactivate o -> doc s <> None -> apply o s = Some (deactivate_result o s).
Proof.
  intros (Hty & Hp & Hs & Hx & Hw) Hdoc. destruct (in_window_has_proto _ Hw) as [d Hm].
  unfold apply, deactivate_result. rewrite Hm, Hty. unfold apply_deactivate.
  destruct (doc s) as [dd|]; [|congruence]. rewrite Hp, Hs, Hx, Hw. reflexivity.
Qed.

(* C11, UPDATE.  A well-formed update, anchored inside its window, revealing the DID's current
   update commitment and committing to a fresh one, appended to a history that resolves to the
   active state [s]: the extended history resolves to [s] with the delta's content added, the
   update commitment replaced by the operation's, and the version fields stamped by the operation;
   everything else (recovery commitment, creation time, canonical reference, anchor origin) is
   unchanged, and the operation is the last one applied. *)
Theorem update_takes_effect fops c0 s ap o :
  resolve_core fops = inr (Some (c0, s, ap)) ->
  good_update o ->
  reveal_c o = upd s -> upd s <> 0 ->                  (* reveals the commitment in force *)
  upd_c o <> upd s ->                                  (* no key re-use *)
  fresh_commitment (upd_c o) (is_ty Update) fops ->    (* no update of fops reveals the new key *)
  after_fulls fops o ->                                (* anchored after create / recovers, or unpublished *)
  apply o s = Some (update_result o s) /\
  resolve_core (fops ++ [o]) = inr (Some (c0, update_result o s, ap ++ [o])).
Proof.
  intros Hres Hgood Hrev Hnz Hreuse Hfresh Hafter.
  pose proof (apply_good_update o s Hgood (resolved_has_doc _ _ _ _ Hres)) as Ha.
  split; [exact Ha|]. destruct Hgood as (Hty & _).
  eapply update_extends; try eassumption.
  eapply after_fulls_replay_point; eassumption.
Qed.

Corollary update_takes_effect_later fops c0 s ap o :
  resolve_core fops = inr (Some (c0, s, ap)) -> good_update o ->
  reveal_c o = upd s -> upd s <> 0 -> upd_c o <> upd s ->
  fresh_commitment (upd_c o) (is_ty Update) fops ->
  (forall q, In q fops -> op_lt q o = true) ->
  resolve_core (fops ++ [o]) = inr (Some (c0, update_result o s, ap ++ [o])).
Proof.
  intros Hres Hgood Hrev Hnz Hreuse Hfresh Hlater.
  apply (update_takes_effect fops c0 s ap o); try assumption. apply after_fulls_later. exact Hlater.
Qed.

(* C11, RECOVER.  The extended history resolves to the recover's own state: document reset to
   the delta's content, both commitments replaced, canonical reference and anchor origin taken
   from the operation, creation time kept.  Applied operations: the recovers applied before,
   then [o] (the updates applied before are superseded). *)
Theorem recover_takes_effect fops c0 s ap o :
  resolve_core fops = inr (Some (c0, s, ap)) ->
  good_recover o ->
  reveal_c o = rec s -> rec s <> 0 ->                  (* reveals the recovery commitment in force *)
  rec_c o <> rec s ->                                  (* no key re-use *)
  fresh_commitment (rec_c o) is_full fops ->           (* no recover/deactivate of fops reveals the new key *)
  (forall q, In q fops -> ty q = Update ->             (* no update that would be replayed on top of o   *)
     op_after (time o) (num o) q = true ->             (* (unpublished or anchored after o) reveals the  *)
     reveal_c q <> upd_c o) ->                         (* update commitment o installs                   *)
  apply o s = Some (recover_result o s) /\
  resolve_core (fops ++ [o]) = inr (Some (c0, recover_result o s, filter is_full ap ++ [o])).
Proof.
  intros Hres Hgood Hrev Hnz Hreuse Hfresh Hlater.
  pose proof (apply_good_recover o s Hgood (resolved_has_doc _ _ _ _ Hres)) as Ha.
  split; [exact Ha|]. destruct Hgood as (Hty & _).
  assert (Hnext : next_c o = rec_c o) by (unfold next_c; rewrite Hty; reflexivity).
  eapply full_extends; try eassumption.
  - apply is_full_true. auto.
  - congruence.
  - rewrite Hnext. exact Hfresh.
  - intros _. exact Hlater.
Qed.

(* the simplest sufficient condition: no update of fops is unpublished or anchored after [o] *)
Corollary recover_takes_effect_last fops c0 s ap o :
  resolve_core fops = inr (Some (c0, s, ap)) -> good_recover o ->
  reveal_c o = rec s -> rec s <> 0 -> rec_c o <> rec s ->
  fresh_commitment (rec_c o) is_full fops ->
  (forall q, In q fops -> ty q = Update -> op_after (time o) (num o) q = false) ->
  resolve_core (fops ++ [o]) = inr (Some (c0, recover_result o s, filter is_full ap ++ [o])).
Proof.
  intros Hres Hgood Hrev Hnz Hreuse Hfresh Hnone.
  apply (recover_takes_effect fops c0 s ap o); try assumption.
  intros q Hq Hqu Haft. rewrite (Hnone q Hq Hqu) in Haft. discriminate.
Qed.

(* C11, DEACTIVATE.  No freshness or ordering hypothesis: a deactivate commits to nothing and
   nothing is processed after it. *)
Theorem deactivate_takes_effect fops c0 s ap o :
  resolve_core fops = inr (Some (c0, s, ap)) ->
  good_deactivate o ->
  reveal_c o = rec s -> rec s <> 0 ->
  apply o s = Some (deactivate_result o s) /\
  resolve_core (fops ++ [o]) = inr (Some (c0, deactivate_result o s, filter is_full ap ++ [o])).
Proof.
  intros Hres Hgood Hrev Hnz.
  pose proof (apply_good_deactivate o s Hgood (resolved_has_doc _ _ _ _ Hres)) as Ha.
  split; [exact Ha|]. destruct Hgood as (Hty & _).
  assert (Hnext : next_c o = 0) by (unfold next_c; rewrite Hty; reflexivity).
  eapply full_extends; try eassumption.
  - apply is_full_true. auto.
  - congruence.
  - intros H0. congruence.
  - intros Hdd. discriminate Hdd.
Qed.

(* the shape asked for in the property text *)
Corollary deactivate_takes_effect_shape fops c0 s ap o :
  resolve_core fops = inr (Some (c0, s, ap)) -> good_deactivate o ->
  reveal_c o = rec s -> rec s <> 0 ->
  exists s', resolve_core (fops ++ [o]) = inr (Some (c0, s', filter is_full ap ++ [o])) /\
             deact s' = true /\ doc s' = Some [] /\ upd s' = 0 /\ rec s' = 0.
Proof.
  intros Hres Hgood Hrev Hnz. exists (deactivate_result o s).
  split; [apply (deactivate_takes_effect fops c0 s ap o); assumption | repeat split].
Qed.

(* an operation that sorts behind all others stays at the end of the sorted list *)
Lemma sort_ops_snoc l o : (forall q, In q l -> op_le q o) -> sort_ops (l ++ [o]) = sort_ops l ++ [o].
Proof. intros Hle. rewrite sort_ops_app_later; [reflexivity|]. intros a b Ha [<-|[]]. apply Hle, Ha. Qed.

Theorem resolve_full_snoc_published pub o :
  (forall q, In q pub -> op_lt q o = true) ->
  resolve_full (pub ++ [o]) [] no_opts = resolve_core (sort_ops pub ++ [o]).
Proof.
  intros Hlt. rewrite resolve_full_published. apply f_equal, sort_ops_snoc.
  intros q Hq. apply op_lt_le, Hlt, Hq.
Qed.

Theorem resolve_full_snoc_unpublished pub unpub o :
  (forall q, In q unpub -> op_le q o) ->
  resolve_full pub (unpub ++ [o]) no_opts = resolve_core ((sort_ops pub ++ sort_ops unpub) ++ [o]).
Proof. intros Hle. rewrite resolve_full_no_opts, sort_ops_snoc by assumption. rewrite app_assoc. reflexivity. Qed.

Lemma resolve_of_full pub unpub c0 s ap :
  resolve_full pub unpub no_opts = inr (Some (c0, s, ap)) ->
  resolve pub unpub no_opts =
  OOk {| r_state := s; r_pub := map oid (sort_ops pub); r_unpub := map oid (sort_ops unpub);
         r_applied := map oid ap |}.
Proof. unfold resolve_full, resolve. rewrite prepare_no_opts. intros ->. reflexivity. Qed.

(* UPDATE anchored later than every stored operation.  [key_inj] is not used, here and in the
   other store theorems. *)
Theorem update_takes_effect_published_store pub c0 s ap o :
  resolve_full pub [] no_opts = inr (Some (c0, s, ap)) ->
  key_inj pub -> (forall q, In q pub -> op_lt q o = true) ->
  good_update o -> reveal_c o = upd s -> upd s <> 0 -> upd_c o <> upd s ->
  fresh_commitment (upd_c o) (is_ty Update) pub ->
  resolve_full (pub ++ [o]) [] no_opts = inr (Some (c0, update_result o s, ap ++ [o])).
Proof.
  intros Hres _ Hlt Hgood Hrev Hnz Hreuse Hfresh.
  rewrite resolve_full_published in Hres. rewrite (resolve_full_snoc_published pub o Hlt).
  apply update_takes_effect_later; try assumption.
  - intros H0 q Hq Hp. apply (Hfresh H0 q); [apply in_sort_ops; exact Hq | exact Hp].
  - intros q Hq. apply Hlt, in_sort_ops, Hq.
Qed.

Corollary update_takes_effect_resolve pub c0 s ap o :
  resolve_full pub [] no_opts = inr (Some (c0, s, ap)) ->
  key_inj pub -> (forall q, In q pub -> op_lt q o = true) ->
  good_update o -> reveal_c o = upd s -> upd s <> 0 -> upd_c o <> upd s ->
  fresh_commitment (upd_c o) (is_ty Update) pub ->
  resolve (pub ++ [o]) [] no_opts =
  OOk {| r_state := update_result o s; r_pub := map oid (sort_ops pub) ++ [oid o]; r_unpub := [];
         r_applied := map oid ap ++ [oid o] |}.
Proof.
  intros Hres Hk Hlt Hgood Hrev Hnz Hreuse Hfresh.
  rewrite (resolve_of_full _ _ _ _ _
             (update_takes_effect_published_store _ _ _ _ _ Hres Hk Hlt Hgood Hrev Hnz Hreuse Hfresh)).
  rewrite sort_ops_snoc, !map_app; [reflexivity|]. intros q Hq. apply op_lt_le, Hlt, Hq.
Qed.

(* UPDATE submitted but not yet anchored: it sits in the unpublished store, behind the other
   unpublished operations; resolution sees it at once *)
Theorem update_takes_effect_unpublished_store pub unpub c0 s ap o :
  resolve_full pub unpub no_opts = inr (Some (c0, s, ap)) ->
  key_inj (unpub ++ [o]) -> (forall q, In q unpub -> op_le q o) -> published o = false ->
  good_update o -> reveal_c o = upd s -> upd s <> 0 -> upd_c o <> upd s ->
  fresh_commitment (upd_c o) (is_ty Update) (pub ++ unpub) ->
  resolve_full pub (unpub ++ [o]) no_opts = inr (Some (c0, update_result o s, ap ++ [o])).
Proof.
  intros Hres _ Hle Hunpub Hgood Hrev Hnz Hreuse Hfresh.
  rewrite resolve_full_no_opts in Hres. rewrite resolve_full_snoc_unpublished by assumption.
  apply update_takes_effect; try assumption; [|apply after_fulls_unpublished, Hunpub].
  intros H0 q Hq Hp. apply (Hfresh H0 q); [apply in_sorted_app; exact Hq | exact Hp].
Qed.

(* RECOVER anchored later than every stored operation (stored updates carry a canonical
   reference, i.e. are "published" in the sense of the model's after-test) *)
Theorem recover_takes_effect_published_store pub c0 s ap o :
  resolve_full pub [] no_opts = inr (Some (c0, s, ap)) ->
  key_inj pub -> (forall q, In q pub -> op_lt q o = true) ->
  (forall q, In q pub -> ty q = Update -> published q = true) ->
  good_recover o -> reveal_c o = rec s -> rec s <> 0 -> rec_c o <> rec s ->
  fresh_commitment (rec_c o) is_full pub ->
  resolve_full (pub ++ [o]) [] no_opts
  = inr (Some (c0, recover_result o s, filter is_full ap ++ [o])).
Proof.
  intros Hres _ Hlt Hpub Hgood Hrev Hnz Hreuse Hfresh.
  rewrite resolve_full_published in Hres. rewrite (resolve_full_snoc_published pub o Hlt).
  apply recover_takes_effect_last; try assumption.
  - intros H0 q Hq Hp. apply (Hfresh H0 q); [apply in_sort_ops; exact Hq | exact Hp].
  - intros q Hq Hqu. apply in_sort_ops in Hq.
    destruct (op_after (time o) (num o) q) eqn:E; [|reflexivity]. exfalso.
    apply op_after_spec in E. pose proof (Hlt q Hq) as Hl. apply op_lt_spec in Hl.
    pose proof (Hpub q Hq Hqu) as Hp. destruct E as [E|E]; [congruence | lia].
Qed.

(* DEACTIVATE anchored later than every stored operation *)
Theorem deactivate_takes_effect_published_store pub c0 s ap o :
  resolve_full pub [] no_opts = inr (Some (c0, s, ap)) ->
  key_inj pub -> (forall q, In q pub -> op_lt q o = true) ->
  good_deactivate o -> reveal_c o = rec s -> rec s <> 0 ->
  resolve_full (pub ++ [o]) [] no_opts
  = inr (Some (c0, deactivate_result o s, filter is_full ap ++ [o])).
Proof.
  intros Hres _ Hlt Hgood Hrev Hnz.
  rewrite resolve_full_published in Hres. rewrite (resolve_full_snoc_published pub o Hlt).
  apply (deactivate_takes_effect (sort_ops pub) c0 s ap o); assumption.
Qed.

(* id type time number ; revealed commitment ; delta content, update / recovery commitment.
   Published (cref = id), correctly signed, inside its window; 7200 = 2 * 60 * 60 is the
   MaxOperationTimeDelta of pkg/mocks/protocol.go. *)
Definition xop (i : Z) (t : optype) (tm nm : Z) (rv : Z) (dl u r : Z) : aop :=
  {| oid := i; ty := t; time := tm; num := nm; cref := i; mdelta := Some 7200;
     parse_ok := true; reveal_c := rv; sig_ok := true; sfx_ok := true; dhash_ok := true; dvalid := true;
     patch_ok := true; a_from := 5; a_until := 100; delta := dl; upd_c := u; rec_c := r; origin := 1 |}.
Definition unpublished (o : aop) : aop :=
  {| oid := oid o; ty := ty o; time := time o; num := num o; cref := 0; mdelta := mdelta o;
     parse_ok := parse_ok o; reveal_c := reveal_c o; sig_ok := sig_ok o; sfx_ok := sfx_ok o;
     dhash_ok := dhash_ok o; dvalid := dvalid o; patch_ok := patch_ok o; a_from := a_from o;
     a_until := a_until o; delta := delta o; upd_c := upd_c o; rec_c := rec_c o; origin := origin o |}.

(* history: create; update; recover; update *)
Definition h_create := xop 1 Create 10 0 0 101 20 30.
Definition h_upd1 := xop 2 Update 11 0 20 102 21 0.
Definition h_rec := xop 3 Recover 12 0 30 103 22 31.
Definition h_upd2 := xop 4 Update 13 0 22 104 23 0.
Definition hist := [h_create; h_upd1; h_rec; h_upd2].
Definition s_hist : state :=
  {| doc := Some [103; 104]; upd := 23; rec := 31; deact := false; last_t := 13; last_n := 0;
     created := 10; updated := 13; vid := 4; canon := 3; aorigin := 1 |}.

Example hist_resolves : resolve_core hist = inr (Some (h_create, s_hist, [h_rec; h_upd2])).
Proof. vm_compute. reflexivity. Qed.

(* the operations to append *)
Definition n_upd := xop 5 Update 14 0 23 105 24 0.
Definition n_rec := xop 6 Recover 14 0 31 106 25 32.
Definition n_deact := xop 7 Deactivate 14 0 31 0 0 0.

Example n_ops_well_formed : well_formed n_upd /\ well_formed n_rec /\ well_formed n_deact.
Proof. unfold well_formed. cbn. repeat split; discriminate. Qed.

(* update_takes_effect applies ... *)
Example ex_update_takes_effect :
  resolve_core (hist ++ [n_upd]) = inr (Some (h_create, update_result n_upd s_hist, [h_rec; h_upd2] ++ [n_upd])).
Proof.
  apply (update_takes_effect hist h_create s_hist [h_rec; h_upd2] n_upd).
  - exact hist_resolves.
  - apply well_formed_update; [apply n_ops_well_formed | reflexivity].
  - reflexivity.
  - discriminate.
  - discriminate.
  - apply fresh_commitment_dec. reflexivity.
  - apply after_fulls_dec. reflexivity.
Qed.

(* ... and its conclusion computes to the intended state *)
Example ex_update_computes :
  resolve_core (hist ++ [n_upd]) =
  inr (Some (h_create,
             {| doc := Some [103; 104; 105]; upd := 24; rec := 31; deact := false; last_t := 14; last_n := 0;
                created := 10; updated := 14; vid := 5; canon := 3; aorigin := 1 |},
             [h_rec; h_upd2; n_upd])).
Proof. vm_compute. reflexivity. Qed.

(* the unpublished variant: the same update, not yet anchored *)
Example ex_update_unpublished :
  resolve_core (hist ++ [unpublished n_upd])
  = inr (Some (h_create, update_result (unpublished n_upd) s_hist, [h_rec; h_upd2] ++ [unpublished n_upd])).
Proof.
  apply (update_takes_effect hist h_create s_hist [h_rec; h_upd2] (unpublished n_upd)).
  - exact hist_resolves.
  - unfold good_update. cbn. repeat split.
  - reflexivity.
  - discriminate.
  - discriminate.
  - apply fresh_commitment_dec. reflexivity.
  - apply after_fulls_unpublished. reflexivity.
Qed.

Example ex_recover_takes_effect :
  resolve_core (hist ++ [n_rec]) = inr (Some (h_create, recover_result n_rec s_hist, [h_rec] ++ [n_rec])).
Proof.
  apply (recover_takes_effect hist h_create s_hist [h_rec; h_upd2] n_rec).
  - exact hist_resolves.
  - apply well_formed_recover; [apply n_ops_well_formed | reflexivity].
  - reflexivity.
  - discriminate.
  - discriminate.
  - apply fresh_commitment_dec. reflexivity.
  - intros q Hq Hty Haft. cbn [hist In] in Hq.
    destruct Hq as [<-|[<-|[<-|[<-|[]]]]]; (discriminate Hty || (cbv in Haft; discriminate Haft)).
Qed.

Example ex_recover_computes :
  resolve_core (hist ++ [n_rec]) =
  inr (Some (h_create,
             {| doc := Some [106]; upd := 25; rec := 32; deact := false; last_t := 14; last_n := 0;
                created := 10; updated := 14; vid := 6; canon := 6; aorigin := 1 |},
             [h_rec; n_rec])).
Proof. vm_compute. reflexivity. Qed.

Example ex_deactivate_takes_effect :
  resolve_core (hist ++ [n_deact]) = inr (Some (h_create, deactivate_result n_deact s_hist, [h_rec] ++ [n_deact])).
Proof.
  apply (deactivate_takes_effect hist h_create s_hist [h_rec; h_upd2] n_deact).
  - exact hist_resolves.
  - apply well_formed_deactivate; [apply n_ops_well_formed | reflexivity].
  - reflexivity.
  - discriminate.
Qed.

Example ex_deactivate_computes :
  resolve_core (hist ++ [n_deact]) =
  inr (Some (h_create,
             {| doc := Some []; upd := 0; rec := 0; deact := true; last_t := 14; last_n := 0;
                created := 10; updated := 14; vid := 7; canon := 3; aorigin := 1 |},
             [h_rec; n_deact])).
Proof. vm_compute. reflexivity. Qed.

(* store level: the history as the (unsorted) content of the published store *)
Definition store := [h_upd2; h_create; h_rec; h_upd1].

Example store_key_inj : key_inj store.
Proof. apply key_inj_dec. reflexivity. Qed.

Example ex_store_update :
  resolve_full (store ++ [n_upd]) [] no_opts
  = inr (Some (h_create, update_result n_upd s_hist, [h_rec; h_upd2] ++ [n_upd])).
Proof.
  apply update_takes_effect_published_store.
  - vm_compute. reflexivity.
  - exact store_key_inj.
  - apply Forall_forall. repeat constructor.
  - apply well_formed_update; [apply n_ops_well_formed | reflexivity].
  - reflexivity.
  - discriminate.
  - discriminate.
  - apply fresh_commitment_dec. reflexivity.
Qed.

Example ex_store_recover :
  resolve_full (store ++ [n_rec]) [] no_opts
  = inr (Some (h_create, recover_result n_rec s_hist, [h_rec] ++ [n_rec])).
Proof.
  apply (recover_takes_effect_published_store store h_create s_hist [h_rec; h_upd2] n_rec).
  - vm_compute. reflexivity.
  - exact store_key_inj.
  - apply Forall_forall. repeat constructor.
  - intros q Hq _. cbn [store In] in Hq. repeat (destruct Hq as [<-|Hq]; [reflexivity|]). destruct Hq.
  - apply well_formed_recover; [apply n_ops_well_formed | reflexivity].
  - reflexivity.
  - discriminate.
  - discriminate.
  - apply fresh_commitment_dec. reflexivity.
Qed.

Example ex_store_deactivate :
  resolve_full (store ++ [n_deact]) [] no_opts
  = inr (Some (h_create, deactivate_result n_deact s_hist, [h_rec] ++ [n_deact])).
Proof.
  apply (deactivate_takes_effect_published_store store h_create s_hist [h_rec; h_upd2] n_deact).
  - vm_compute. reflexivity.
  - exact store_key_inj.
  - apply Forall_forall. repeat constructor.
  - apply well_formed_deactivate; [apply n_ops_well_formed | reflexivity].
  - reflexivity.
  - discriminate.
Qed.

Example ex_store_update_unpublished :
  resolve_full store [unpublished n_upd] no_opts
  = inr (Some (h_create, update_result (unpublished n_upd) s_hist, [h_rec; h_upd2] ++ [unpublished n_upd])).
Proof.
  apply (update_takes_effect_unpublished_store store [] h_create s_hist [h_rec; h_upd2] (unpublished n_upd)).
  - vm_compute. reflexivity.
  - intros a b [<-|[]] [<-|[]] _. reflexivity.
  - intros q [].
  - reflexivity.
  - unfold good_update. cbn. repeat split.
  - reflexivity.
  - discriminate.
  - discriminate.
  - apply fresh_commitment_dec. reflexivity.
Qed.

(* In each [needs_*] example one hypothesis of a theorem fails, all others hold, and the
   conclusion is false. *)

(* [upd s <> 0]: after an update that commits to the empty commitment the chain has stopped;
   an operation revealing "0" is never looked at *)
Definition k_upd_to_0 := xop 2 Update 11 0 20 102 0 0.
Definition k_hist0 := [h_create; k_upd_to_0].
Definition k_s0 : state :=
  {| doc := Some [101; 102]; upd := 0; rec := 30; deact := false; last_t := 11; last_n := 0;
     created := 10; updated := 11; vid := 2; canon := 1; aorigin := 1 |}.
Definition k_reveals_0 := xop 3 Update 12 0 0 103 21 0.

Example needs_nonempty_update_commitment :
  resolve_core k_hist0 = inr (Some (h_create, k_s0, [k_upd_to_0])) /\ deact k_s0 = false /\
  good_update k_reveals_0 /\ reveal_c k_reveals_0 = upd k_s0 /\ upd_c k_reveals_0 <> upd k_s0 /\
  fresh_commitment (upd_c k_reveals_0) (is_ty Update) k_hist0 /\ after_fulls k_hist0 k_reveals_0 /\
  upd k_s0 = 0 /\
  resolve_core (k_hist0 ++ [k_reveals_0])
  <> inr (Some (h_create, update_result k_reveals_0 k_s0, [k_upd_to_0] ++ [k_reveals_0])).
Proof.
  split; [vm_compute; reflexivity|]. split; [reflexivity|].
  split; [unfold good_update; cbn; repeat split|]. split; [reflexivity|]. split; [discriminate|].
  split; [apply fresh_commitment_dec; reflexivity|].
  split; [apply after_fulls_dec; reflexivity|].
  split; [reflexivity | vm_compute; discriminate].
Qed.

(* [upd_c o <> upd s]: an update re-committing to the key it reveals is skipped *)
Definition hist1 := [h_create; h_upd1].
Definition s_hist1 : state :=
  {| doc := Some [101; 102]; upd := 21; rec := 30; deact := false; last_t := 11; last_n := 0;
     created := 10; updated := 11; vid := 2; canon := 1; aorigin := 1 |}.
Definition k_reuse := xop 3 Update 12 0 21 103 21 0.

Example needs_no_key_reuse :
  resolve_core hist1 = inr (Some (h_create, s_hist1, [h_upd1])) /\ deact s_hist1 = false /\
  good_update k_reuse /\ reveal_c k_reuse = upd s_hist1 /\ upd s_hist1 <> 0 /\
  fresh_commitment (upd_c k_reuse) (is_ty Update) hist1 /\ after_fulls hist1 k_reuse /\
  upd_c k_reuse = upd s_hist1 /\
  resolve_core (hist1 ++ [k_reuse])
  <> inr (Some (h_create, update_result k_reuse s_hist1, [h_upd1] ++ [k_reuse])).
Proof.
  split; [vm_compute; reflexivity|]. split; [reflexivity|].
  split; [unfold good_update; cbn; repeat split|]. split; [reflexivity|]. split; [discriminate|].
  split; [apply fresh_commitment_dec; reflexivity|].
  split; [apply after_fulls_dec; reflexivity|].
  split; [reflexivity | vm_compute; discriminate].
Qed.

(* [fresh_commitment], first reason: an update of the history reveals o's next commitment; it is
   applied after o, so o is not the last applied operation and the state is not [apply o s] *)
Definition k_orphan := xop 3 Update 12 0 22 104 23 0.       (* reveals 22; nothing commits to 22 yet *)
Definition k_hist2 := [h_create; h_upd1; k_orphan].
Definition k_bridge := xop 4 Update 13 0 21 103 22 0.       (* reveals 21, commits to 22 *)

Example needs_fresh_commitment_1 :
  resolve_core k_hist2 = inr (Some (h_create, s_hist1, [h_upd1])) /\ deact s_hist1 = false /\
  good_update k_bridge /\ reveal_c k_bridge = upd s_hist1 /\ upd s_hist1 <> 0 /\
  upd_c k_bridge <> upd s_hist1 /\ after_fulls k_hist2 k_bridge /\
  (In k_orphan k_hist2 /\ ty k_orphan = Update /\ reveal_c k_orphan = upd_c k_bridge) /\
  resolve_core (k_hist2 ++ [k_bridge])
  <> inr (Some (h_create, update_result k_bridge s_hist1, [h_upd1] ++ [k_bridge])) /\
  (* what happens instead: the orphan is applied on top of the bridge *)
  match resolve_core (k_hist2 ++ [k_bridge]) with
  | inr (Some (_, s, ap)) => ap = [h_upd1; k_bridge; k_orphan] /\ upd s = 23
  | _ => False
  end.
Proof.
  split; [vm_compute; reflexivity|]. split; [reflexivity|].
  split; [unfold good_update; cbn; repeat split|]. split; [reflexivity|]. split; [discriminate|].
  split; [discriminate|].
  split; [apply after_fulls_dec; reflexivity|].
  split; [split; [right; right; left; reflexivity | split; reflexivity]|].
  split; [vm_compute; discriminate | vm_compute; split; reflexivity].
Qed.

(* [fresh_commitment], second reason: o commits to a commitment consumed earlier in the chain
   (a cycle); applyFirstValidOperation skips it *)
Definition k_cycle := xop 3 Update 12 0 21 103 20 0.        (* reveals 21, commits back to 20 *)

Example needs_fresh_commitment_2 :
  resolve_core hist1 = inr (Some (h_create, s_hist1, [h_upd1])) /\ deact s_hist1 = false /\
  good_update k_cycle /\ reveal_c k_cycle = upd s_hist1 /\ upd s_hist1 <> 0 /\
  upd_c k_cycle <> upd s_hist1 /\ after_fulls hist1 k_cycle /\
  (In h_upd1 hist1 /\ ty h_upd1 = Update /\ reveal_c h_upd1 = upd_c k_cycle) /\
  resolve_core (hist1 ++ [k_cycle]) = inr (Some (h_create, s_hist1, [h_upd1])).
Proof.
  split; [vm_compute; reflexivity|]. split; [reflexivity|].
  split; [unfold good_update; cbn; repeat split|]. split; [reflexivity|]. split; [discriminate|].
  split; [discriminate|].
  split; [apply after_fulls_dec; reflexivity|].
  split; [split; [right; left; reflexivity | split; reflexivity]|].
  vm_compute. reflexivity.
Qed.

(* [after_replay_point] / [after_fulls]: a published update anchored before the last applied
   recover is filtered out, although it is last in the list and reveals the commitment in force
   (the general statement is [update_not_after_inert]) *)
Definition k_early := xop 5 Update 11 5 23 105 24 0.        (* anchored at (11,5), before h_rec at (12,0) *)

Example needs_after_replay_point :
  good_update k_early /\ reveal_c k_early = upd s_hist /\ upd s_hist <> 0 /\
  upd_c k_early <> upd s_hist /\ fresh_commitment (upd_c k_early) (is_ty Update) hist /\
  replay_point h_create [h_rec; h_upd2] = h_rec /\
  after_replay_point h_create [h_rec; h_upd2] k_early = false /\
  resolve_core (hist ++ [k_early]) = resolve_core hist.
Proof.
  split; [unfold good_update; cbn; repeat split|]. split; [reflexivity|].
  split; [discriminate|]. split; [discriminate|].
  split; [apply fresh_commitment_dec; reflexivity|].
  split; [reflexivity|]. split; [reflexivity|].
  vm_compute. reflexivity.
Qed.

(* a deactivated DID has no commitment in force ([commitment_in_force_active]); nothing takes
   effect after a deactivate *)
Example deactivated_is_final :
  match resolve_core (hist ++ [n_deact]) with
  | inr (Some (_, s, _)) => deact s = true
  | _ => False
  end /\
  resolve_core ((hist ++ [n_deact]) ++ [unpublished n_upd]) = resolve_core (hist ++ [n_deact]).
Proof. vm_compute. split; reflexivity. Qed.

(* recover, last hypothesis: an unpublished update of the history revealing the update
   commitment the recover installs is replayed on top of the recover *)
Definition k_pending := unpublished (xop 9 Update 50 0 25 107 26 0).   (* reveals 25 = upd_c n_rec *)
Definition k_hist3 := hist ++ [k_pending].

Example needs_no_replayed_update :
  resolve_core k_hist3 = inr (Some (h_create, s_hist, [h_rec; h_upd2])) /\ deact s_hist = false /\
  good_recover n_rec /\ reveal_c n_rec = rec s_hist /\ rec s_hist <> 0 /\ rec_c n_rec <> rec s_hist /\
  fresh_commitment (rec_c n_rec) is_full k_hist3 /\
  (In k_pending k_hist3 /\ ty k_pending = Update /\ op_after (time n_rec) (num n_rec) k_pending = true /\
   reveal_c k_pending = upd_c n_rec) /\
  resolve_core (k_hist3 ++ [n_rec])
  <> inr (Some (h_create, recover_result n_rec s_hist, filter is_full [h_rec; h_upd2] ++ [n_rec])) /\
  match resolve_core (k_hist3 ++ [n_rec]) with
  | inr (Some (_, s, ap)) => ap = [h_rec; n_rec; k_pending] /\ upd s = 26 /\ doc s = Some [106; 107]
  | _ => False
  end.
Proof.
  split; [vm_compute; reflexivity|]. split; [reflexivity|].
  split; [unfold good_recover; cbn; repeat split|]. split; [reflexivity|]. split; [discriminate|].
  split; [discriminate|].
  split; [apply fresh_commitment_dec; reflexivity|].
  split; [split; [apply in_or_app; right; left; reflexivity | repeat split; reflexivity]|].
  split; [vm_compute; discriminate | vm_compute; repeat split; reflexivity].
Qed.

(* [rec s <> 0]: after a recover that commits to the empty recovery commitment the recovery
   chain has stopped; a deactivate revealing "0" is never looked at *)
Definition k_rec_to_0 := xop 2 Recover 11 0 30 102 21 0.
Definition k_hist4 := [h_create; k_rec_to_0].
Definition k_s4 : state :=
  {| doc := Some [102]; upd := 21; rec := 0; deact := false; last_t := 11; last_n := 0;
     created := 10; updated := 11; vid := 2; canon := 2; aorigin := 1 |}.
Definition k_deact_0 := xop 3 Deactivate 12 0 0 0 0 0.

Example needs_nonempty_recovery_commitment :
  resolve_core k_hist4 = inr (Some (h_create, k_s4, [k_rec_to_0])) /\ deact k_s4 = false /\
  good_deactivate k_deact_0 /\ reveal_c k_deact_0 = rec k_s4 /\ rec k_s4 = 0 /\
  resolve_core (k_hist4 ++ [k_deact_0]) = resolve_core k_hist4.
Proof.
  split; [vm_compute; reflexivity|]. split; [reflexivity|].
  split; [unfold good_deactivate; cbn; repeat split|]. split; [reflexivity|]. split; [reflexivity|].
  vm_compute. reflexivity.
Qed.

(* [op_in_window] (part of [good_update]): an update anchored outside its signed window is still
   applied - the commitment advances and it is the last applied operation, as [update_extends]
   says - but its delta is dropped, so the state is not the intended one *)
Definition k_late_anchor := xop 5 Update 200 0 23 105 24 0.  (* anchored at 200, window is [5,100] *)

Example needs_in_window :
  op_in_window k_late_anchor = false /\
  (ty k_late_anchor = Update /\ parse_ok k_late_anchor = true /\ sig_ok k_late_anchor = true /\
   dhash_ok k_late_anchor = true /\ dvalid k_late_anchor = true /\ patch_ok k_late_anchor = true) /\
  resolve_core (hist ++ [k_late_anchor])
  <> inr (Some (h_create, update_result k_late_anchor s_hist, [h_rec; h_upd2] ++ [k_late_anchor])) /\
  exists s', apply k_late_anchor s_hist = Some s' /\ doc s' = doc s_hist /\ upd s' = 24 /\
    resolve_core (hist ++ [k_late_anchor]) = inr (Some (h_create, s', [h_rec; h_upd2] ++ [k_late_anchor])).
Proof.
  split; [reflexivity|]. split; [repeat split|]. split; [vm_compute; discriminate|].
  eexists. split; [vm_compute; reflexivity|]. split; [reflexivity|]. split; [reflexivity|].
  apply (update_extends hist h_create s_hist [h_rec; h_upd2] k_late_anchor).
  - exact hist_resolves.
  - reflexivity.
  - vm_compute. reflexivity.
  - reflexivity.
  - discriminate.
  - discriminate.
  - apply fresh_commitment_dec. reflexivity.
  - reflexivity.
Qed.

Print Assumptions update_extends.
Print Assumptions update_not_after_inert.
Print Assumptions full_extends.
Print Assumptions update_takes_effect.
Print Assumptions recover_takes_effect.
Print Assumptions deactivate_takes_effect.
Print Assumptions update_takes_effect_published_store.
Print Assumptions update_takes_effect_unpublished_store.
Print Assumptions update_takes_effect_resolve.
Print Assumptions recover_takes_effect_published_store.
Print Assumptions deactivate_takes_effect_published_store.
