(* Facts about commitment chains: candidate selection, the chain as a relation without fuel,
   removal of operations that are never applied, termination (fuel), and "a chain never revisits
   a commitment" (C12, C03, C01). *)
From Coq Require Import List ZArith Bool Lia Permutation.
From SV Require Import Resolve.Op Resolve.Apply Resolve.ApplyFacts Resolve.Process Resolve.ProcessFacts.
Import ListNotations.
Local Open Scope Z_scope.

Lemma memZ_In x l : memZ x l = true <-> In x l.
Proof.
  induction l as [|y r IH]; cbn [memZ In]; [split; [discriminate | tauto]|].
  rewrite orb_true_iff, Z.eqb_eq, IH. split; intros [H|H]; auto.
Qed.

Lemma memZ_false x l : memZ x l = false <-> ~ In x l.
Proof. rewrite <- memZ_In. destruct (memZ x l); split; congruence. Qed.

(* an operation is skipped by applyFirstValidOperation in the given context *)
Definition skipped (o : aop) (s : state) (curr : Z) (consumed : list Z) : bool :=
  (curr =? next_c o) || (negb (next_c o =? 0) && memZ (next_c o) consumed) ||
  match apply o s with None => true | Some _ => false end.

Lemma first_valid_cons o r s curr consumed :
  first_valid (o :: r) s curr consumed =
  if skipped o s curr consumed then first_valid r s curr consumed
  else match apply o s with Some s' => Some (o, s') | None => None end.
Proof.
  cbn [first_valid]. unfold skipped.
  destruct (curr =? next_c o); [reflexivity|].
  destruct (negb (next_c o =? 0) && memZ (next_c o) consumed); [reflexivity|].
  destruct (apply o s); reflexivity.
Qed.

Lemma skipped_false_iff o s curr consumed :
  skipped o s curr consumed = false <->
  next_c o <> curr /\ (next_c o = 0 \/ ~ In (next_c o) consumed) /\ exists s', apply o s = Some s'.
Proof.
  unfold skipped. rewrite !orb_false_iff, andb_false_iff, negb_false_iff, Z.eqb_neq, Z.eqb_eq, memZ_false.
  destruct (apply o s) as [s'|]; split.
  - intros [[Hn Hf] _]. split; [congruence | split; [exact Hf | exists s'; reflexivity]].
  - intros (Hn & Hf & _). split; [split; [congruence | exact Hf] | reflexivity].
  - intros [_ [=]].
  - intros (_ & _ & s' & [=]).
Qed.

Lemma first_valid_some cands s curr consumed o s' :
  first_valid cands s curr consumed = Some (o, s') ->
  In o cands /\ apply o s = Some s' /\ next_c o <> curr /\ (next_c o = 0 \/ ~ In (next_c o) consumed).
Proof.
  induction cands as [|x r IH]; [discriminate|].
  rewrite first_valid_cons. destruct (skipped x s curr consumed) eqn:Hs.
  - intros H. destruct (IH H) as (Hi & ?). split; [right; exact Hi | assumption].
  - apply skipped_false_iff in Hs. destruct Hs as (Hn & Hf & s1 & Ha). rewrite Ha. intros [= <- <-].
    split; [left; reflexivity | auto].
Qed.

Lemma first_valid_app l1 l2 s curr consumed :
  first_valid (l1 ++ l2) s curr consumed =
  match first_valid l1 s curr consumed with Some r => Some r | None => first_valid l2 s curr consumed end.
Proof.
  induction l1 as [|x t IH]; [reflexivity|]. cbn [app first_valid].
  destruct (curr =? next_c x); [exact IH|].
  destruct (negb (next_c x =? 0) && memZ (next_c x) consumed); [exact IH|].
  destruct (apply x s); [reflexivity | exact IH].
Qed.

(* removing candidates other than the winner does not change the winner *)
Lemma first_valid_filter_some (q : aop -> bool) cands s curr consumed o s' :
  first_valid cands s curr consumed = Some (o, s') -> q o = true ->
  first_valid (filter q cands) s curr consumed = Some (o, s').
Proof.
  induction cands as [|x r IH]; [discriminate|].
  rewrite first_valid_cons. cbn [filter]. destruct (skipped x s curr consumed) eqn:Hs.
  - intros H Hq. destruct (q x); [rewrite first_valid_cons, Hs|]; apply IH; assumption.
  - destruct (apply x s) eqn:E; [|discriminate]. intros [= <- <-] Hq.
    rewrite Hq, first_valid_cons, Hs, E. reflexivity.
Qed.

Lemma first_valid_filter_none (q : aop -> bool) cands s curr consumed :
  first_valid cands s curr consumed = None -> first_valid (filter q cands) s curr consumed = None.
Proof.
  induction cands as [|x r IH]; [reflexivity|].
  rewrite first_valid_cons. cbn [filter]. destruct (skipped x s curr consumed) eqn:Hs.
  - intros H. destruct (q x); [rewrite first_valid_cons, Hs|]; apply IH; assumption.
  - apply skipped_false_iff in Hs. destruct Hs as (_ & _ & s1 & ->). discriminate.
Qed.

(* the winner among the candidates of a commitment *)
Lemma first_valid_cand c ops s consumed o s1 :
  first_valid (candidates c ops) s c consumed = Some (o, s1) ->
  In o ops /\ reveal_c o = c /\ apply o s = Some s1.
Proof.
  intros H. apply first_valid_some in H. destruct H as (Hi & Ha & _).
  apply in_candidates in Hi. destruct Hi as [Hi Hc]. apply cand_pred_iff in Hc. tauto.
Qed.

(* chain, unfolded once; an empty candidate list and no valid candidate are the same case *)
Lemma chain_unfold fuel sel ops s consumed :
  chain fuel sel ops s consumed =
  match first_valid (candidates (sel s) ops) s (sel s) consumed with
  | None => Some (s, consumed, [])
  | Some (o, s') =>
    if sel s' =? 0 then Some (s', consumed ++ [sel s], [o])
    else match fuel with
         | O => None
         | S f => match chain f sel ops s' (consumed ++ [sel s]) with
                  | Some (s'', cs, ap) => Some (s'', cs, o :: ap)
                  | None => None
                  end
         end
  end.
Proof. destruct fuel; cbn [chain]; destruct (candidates (sel s) ops); reflexivity. Qed.

(* applyOperations as a relation, without fuel.  [crun sel ops s cs s' cs' ap]: started in [s]
   with [cs] consumed, the chain applies [ap] and ends in [s'] with [cs'] consumed *)
Inductive crun (sel : state -> Z) (ops : list aop) : state -> list Z -> state -> list Z -> list aop -> Prop :=
| crun_stop s cs :
    first_valid (candidates (sel s) ops) s (sel s) cs = None -> crun sel ops s cs s cs []
| crun_last s cs o s1 :
    first_valid (candidates (sel s) ops) s (sel s) cs = Some (o, s1) -> sel s1 = 0 ->
    crun sel ops s cs s1 (cs ++ [sel s]) [o]
| crun_step s cs o s1 s' cs' ap :
    first_valid (candidates (sel s) ops) s (sel s) cs = Some (o, s1) -> sel s1 <> 0 ->
    crun sel ops s1 (cs ++ [sel s]) s' cs' ap -> crun sel ops s cs s' cs' (o :: ap).

(* fuel is spent by every applied operation except one that ends the chain on the empty commitment *)
Lemma chain_crun fuel : forall sel ops s cs s' cs' ap,
  chain fuel sel ops s cs = Some (s', cs', ap) ->
  crun sel ops s cs s' cs' ap /\ (length ap <= fuel + if (sel s' =? 0)%Z then 1 else 0)%nat.
Proof.
  induction fuel as [|f IH]; intros sel ops s cs s' cs' ap; rewrite chain_unfold;
    destruct (first_valid (candidates (sel s) ops) s (sel s) cs) as [[o s1]|] eqn:Ef.
  - destruct (sel s1 =? 0) eqn:E0; [|discriminate]. intros [= <- <- <-]. rewrite E0.
    split; [apply crun_last; [exact Ef | apply Z.eqb_eq, E0] | cbn; lia].
  - intros [= <- <- <-]. split; [apply crun_stop; exact Ef | cbn; lia].
  - destruct (sel s1 =? 0) eqn:E0.
    + intros [= <- <- <-]. rewrite E0. split; [apply crun_last; [exact Ef | apply Z.eqb_eq, E0] | cbn; lia].
    + destruct (chain f sel ops s1 (cs ++ [sel s])) as [[[s2 cs2] ap2]|] eqn:Er; [|discriminate].
      intros [= <- <- <-]. destruct (IH _ _ _ _ _ _ _ Er) as [Hc Hl].
      split; [apply crun_step with s1; [exact Ef | apply Z.eqb_neq, E0 | exact Hc] | cbn [length]; lia].
  - intros [= <- <- <-]. split; [apply crun_stop; exact Ef | cbn; lia].
Qed.

Lemma crun_chain sel ops s cs s' cs' ap :
  crun sel ops s cs s' cs' ap ->
  forall fuel, (length ap <= fuel + if (sel s' =? 0)%Z then 1 else 0)%nat ->
  chain fuel sel ops s cs = Some (s', cs', ap).
Proof.
  induction 1 as [s cs Hf | s cs o s1 Hf H0 | s cs o s1 s' cs' ap Hf H0 Hc IH]; intros fuel Hl;
    rewrite chain_unfold, Hf; [reflexivity | |].
  - apply Z.eqb_eq in H0. rewrite H0. reflexivity.
  - apply Z.eqb_neq in H0. rewrite H0. destruct fuel as [|f].
    + exfalso. destruct ap; [inversion Hc; subst; rewrite H0 in Hl | destruct (sel s' =? 0)]; cbn in Hl; lia.
    + rewrite IH by (cbn [length] in Hl; lia). reflexivity.
Qed.

Lemma run_chain_crun sel ops s s' ap :
  run_chain sel ops s = Some (s', ap) <->
  exists cs, crun sel ops s [] s' cs ap /\ (length ap <= length ops + if (sel s' =? 0)%Z then 1 else 0)%nat.
Proof.
  unfold run_chain. split.
  - destruct (chain (length ops) sel ops s []) as [[[s1 cs1] ap1]|] eqn:Ec; [|discriminate].
    intros [= <- <-]. exists cs1. apply chain_crun. exact Ec.
  - intros (cs & Hc & Hl). rewrite (crun_chain _ _ _ _ _ _ _ Hc _ Hl). reflexivity.
Qed.

(* every applied operation was applicable: it is in the list and [apply] accepted it *)
Lemma crun_applied sel ops s cs s' cs' ap :
  crun sel ops s cs s' cs' ap -> Forall (fun o => In o ops /\ exists s1 s2, apply o s1 = Some s2) ap.
Proof.
  induction 1 as [s cs Hf | s cs o s1 Hf H0 | s cs o s1 s' cs' ap Hf H0 Hc IH]; [constructor | |];
    apply first_valid_cand in Hf; destruct Hf as (Hi & _ & Ha); constructor; eauto.
Qed.

Lemma crun_preserves (P : state -> Prop) sel ops s cs s' cs' ap :
  (forall o t t', In o ops -> apply o t = Some t' -> P t -> P t') ->
  crun sel ops s cs s' cs' ap -> P s -> P s'.
Proof.
  intros Hstep. induction 1 as [s cs Hf | s cs o s1 Hf H0 | s cs o s1 s' cs' ap Hf H0 Hc IH]; intros Hs; [exact Hs | |];
    apply first_valid_cand in Hf; destruct Hf as (Hi & _ & Ha); eauto.
Qed.

(* the consumed commitments are those the applied operations revealed *)
Lemma crun_consumed sel ops s cs s' cs' ap :
  crun sel ops s cs s' cs' ap -> cs' = cs ++ map reveal_c ap.
Proof.
  induction 1 as [s cs Hf | s cs o s1 Hf H0 | s cs o s1 s' cs' ap Hf H0 Hc IH]; cbn [map];
    [symmetry; apply app_nil_r | |]; apply first_valid_cand in Hf; destruct Hf as (_ & -> & _); [reflexivity|].
  rewrite IH, <- app_assoc. reflexivity.
Qed.

(* the state at the end is what Apply returned for the last applied operation *)
Lemma crun_last_apply sel ops s cs s' cs' ap o0 :
  crun sel ops s cs s' cs' ap ->
  (ap = [] /\ s' = s) \/ (ap <> [] /\ exists sp, apply (last ap o0) sp = Some s').
Proof.
  induction 1 as [s cs Hf | s cs o s1 Hf H0 | s cs o s1 s' cs' ap Hf H0 Hc IH]; [left; auto | |];
    right; (split; [discriminate|]); apply first_valid_cand in Hf; destruct Hf as (_ & _ & Ha); [eauto|].
  destruct IH as [[-> ->]|[Hne Hsp]]; [eauto|]. destruct ap; [congruence | exact Hsp].
Qed.

(* operations outside [q] that are never applied can be dropped from a chain *)
Theorem crun_filter (q : aop -> bool) sel ops s cs s' cs' ap :
  crun sel ops s cs s' cs' ap -> Forall (fun o => q o = true) ap ->
  crun sel (filter q ops) s cs s' cs' ap.
Proof.
  induction 1 as [s cs Hf | s cs o s1 Hf H0 | s cs o s1 s' cs' ap Hf H0 Hc IH]; intros Hq.
  - apply crun_stop. rewrite candidates_filter. apply first_valid_filter_none. exact Hf.
  - apply crun_last; [|exact H0]. rewrite candidates_filter. apply first_valid_filter_some; [exact Hf|].
    inversion Hq; assumption.
  - inversion Hq; subst. apply crun_step with s1; [|exact H0|auto].
    rewrite candidates_filter. apply first_valid_filter_some; assumption.
Qed.

(* [crun_applied], [crun_preserves], [crun_last_apply] for run_chain *)
Lemma run_chain_applied sel ops s s' ap :
  run_chain sel ops s = Some (s', ap) -> Forall (fun o => In o ops /\ exists s1 s2, apply o s1 = Some s2) ap.
Proof. intros H. apply run_chain_crun in H. destruct H as (cs & H & _). eapply crun_applied; exact H. Qed.

Lemma run_chain_preserves (P : state -> Prop) sel ops s s' ap :
  (forall o t t', In o ops -> apply o t = Some t' -> P t -> P t') ->
  P s -> run_chain sel ops s = Some (s', ap) -> P s'.
Proof. intros Hstep Hs H. apply run_chain_crun in H. destruct H as (cs & H & _). eapply crun_preserves; eassumption. Qed.

Lemma run_chain_last sel ops s s' ap o0 :
  run_chain sel ops s = Some (s', ap) ->
  (ap = [] /\ s' = s) \/ (ap <> [] /\ exists sp, apply (last ap o0) sp = Some s').
Proof. intros H. apply run_chain_crun in H. destruct H as (cs & H & _). eapply crun_last_apply; exact H. Qed.

(* no operation reveals the commitment in force: nothing is applied *)
Lemma run_chain_stop sel ops s : (forall q, In q ops -> reveal_c q <> sel s) -> run_chain sel ops s = Some (s, []).
Proof.
  intros H. apply run_chain_crun. exists []. split; [|cbn; lia].
  apply crun_stop. rewrite candidates_none; [reflexivity | exact H].
Qed.

(* the chain's selector follows the operation's next commitment *)
Definition follows (sel : state -> Z) (ops : list aop) : Prop :=
  forall o s s', In o ops -> apply o s = Some s' -> sel s' = next_c o.

Lemma follows_upd ops : Forall (fun o => ty o = Update) ops -> follows upd ops.
Proof.
  intros Hf o s s' Hi Ha. rewrite Forall_forall in Hf. apply apply_some in Ha. destruct Ha as [_ ->].
  unfold next_c. rewrite (post_ty _ _ _ (Hf o Hi)). cbn [post_of]. rewrite (Hf o Hi). reflexivity.
Qed.

Lemma follows_rec ops : Forall (fun o => is_full o = true) ops -> follows rec ops.
Proof.
  intros Hf o s s' Hi Ha. rewrite Forall_forall in Hf. apply apply_some in Ha. destruct Ha as [_ ->].
  apply post_rec_full, is_full_true, Hf, Hi.
Qed.

Lemma follows_incl sel ops ops' : incl ops' ops -> follows sel ops -> follows sel ops'.
Proof. intros Hi Hf o s s' Ho. apply Hf. apply Hi. exact Ho. Qed.

Definition chain_inv (ops : list aop) (curr : Z) (consumed : list Z) : Prop :=
  NoDup consumed /\ incl consumed (map reveal_c ops) /\ ~ In curr consumed.

Lemma chain_inv_start ops c : chain_inv ops c [].
Proof. repeat split; [constructor | intros ? [] | intros []]. Qed.

Lemma chain_inv_step sel ops s consumed o s1 :
  follows sel ops -> chain_inv ops (sel s) consumed ->
  first_valid (candidates (sel s) ops) s (sel s) consumed = Some (o, s1) ->
  NoDup (consumed ++ [sel s]) /\ incl (consumed ++ [sel s]) (map reveal_c ops) /\
  (sel s1 <> 0 -> chain_inv ops (sel s1) (consumed ++ [sel s])).
Proof.
  intros Hfo (Hnd & Hinc & Hnot) Ef.
  pose proof (first_valid_cand _ _ _ _ _ _ Ef) as (Hin & Hrv & Ha).
  apply first_valid_some in Ef. destruct Ef as (_ & _ & Hne & Hfresh).
  assert (Hnd' : NoDup (consumed ++ [sel s])).
  { apply Permutation_NoDup with (l := sel s :: consumed); [apply Permutation_cons_append | constructor; assumption]. }
  assert (Hinc' : incl (consumed ++ [sel s]) (map reveal_c ops)).
  { intros z Hz. apply in_app_or in Hz. destruct Hz as [Hz|[<-|[]]]; [auto|]. rewrite <- Hrv. apply in_map, Hin. }
  repeat split; try assumption.
  rewrite (Hfo o s s1 Hin Ha) in *. intros Hz. apply in_app_or in Hz. destruct Hz as [Hz|[Hz|[]]]; [|congruence].
  destruct Hfresh; [congruence | contradiction].
Qed.

(* consumed commitments stay pairwise distinct: a chain never revisits a commitment *)
Theorem crun_nodup sel ops s cs s' cs' ap :
  follows sel ops -> crun sel ops s cs s' cs' ap -> chain_inv ops (sel s) cs ->
  NoDup cs' /\ incl cs' (map reveal_c ops).
Proof.
  intros Hfo. induction 1 as [s cs Hf | s cs o s1 Hf H0 | s cs o s1 s' cs' ap Hf H0 Hc IH]; intros Hinv.
  - split; apply Hinv.
  - destruct (chain_inv_step _ _ _ _ _ _ Hfo Hinv Hf) as (? & ? & _). auto.
  - apply IH. apply (chain_inv_step _ _ _ _ _ _ Hfo Hinv Hf). exact H0.
Qed.

(* so a chain from scratch applies at most as many operations as there are *)
Lemma crun_length sel ops s s' cs ap :
  follows sel ops -> crun sel ops s [] s' cs ap -> (length ap <= length ops)%nat.
Proof.
  intros Hfo Hc. destruct (crun_nodup _ _ _ _ _ _ _ Hfo Hc (chain_inv_start _ _)) as [Hnd Hinc].
  apply NoDup_incl_length in Hinc; [|exact Hnd].
  rewrite (crun_consumed _ _ _ _ _ _ _ Hc) in Hinc. cbn [app] in Hinc. rewrite !map_length in Hinc. exact Hinc.
Qed.

Lemma crun_run_chain sel ops s s' cs ap :
  follows sel ops -> crun sel ops s [] s' cs ap -> run_chain sel ops s = Some (s', ap).
Proof.
  intros Hfo Hc. apply run_chain_crun. exists cs. split; [exact Hc|].
  pose proof (crun_length _ _ _ _ _ _ Hfo Hc). lia.
Qed.

(* the fuel handed to the chain by run_chain (number of operations) is never exhausted *)
Theorem chain_fuel fuel : forall sel ops s consumed,
  follows sel ops -> chain_inv ops (sel s) consumed ->
  (length ops <= fuel + length consumed)%nat ->
  chain fuel sel ops s consumed <> None.
Proof.
  induction fuel as [|f IH]; intros sel ops s consumed Hfo Hinv Hlen; rewrite chain_unfold;
    (destruct (first_valid (candidates (sel s) ops) s (sel s) consumed) as [[o s1]|] eqn:Ef; [|discriminate]);
    (destruct (sel s1 =? 0) eqn:E0; [discriminate|]); apply Z.eqb_neq in E0;
    destruct (chain_inv_step _ _ _ _ _ _ Hfo Hinv Ef) as (Hnd & Hinc & Hinv'); specialize (Hinv' E0).
  - apply NoDup_incl_length in Hinc; [|exact Hnd]. rewrite app_length, map_length in Hinc. cbn in Hinc. lia.
  - specialize (IH sel ops s1 (consumed ++ [sel s]) Hfo Hinv').
    rewrite app_length in IH. cbn in IH.
    destruct (chain f sel ops s1 (consumed ++ [sel s])) as [[[? ?] ?]|]; [discriminate|].
    exfalso. apply IH; [lia | reflexivity].
Qed.

Theorem run_chain_total sel ops s : follows sel ops -> run_chain sel ops s <> None.
Proof.
  intros Hfo. unfold run_chain.
  pose proof (chain_fuel (length ops) sel ops s [] Hfo (chain_inv_start _ _)) as H.
  destruct (chain (length ops) sel ops s []) as [[[? ?] ?]|]; [discriminate|].
  exfalso. apply H; [cbn; lia | reflexivity].
Qed.

(* [crun_filter] for run_chain; [follows] bounds the number of applied operations *)
Lemma run_chain_filter (q : aop -> bool) sel ops s s' ap :
  follows sel ops ->
  run_chain sel ops s = Some (s', ap) -> Forall (fun o => q o = true) ap ->
  run_chain sel (filter q ops) s = Some (s', ap).
Proof.
  intros Hfo Hr Hq. apply run_chain_crun in Hr. destruct Hr as (cs & Hc & _).
  apply crun_run_chain with cs; [eapply follows_incl; [apply incl_filter | exact Hfo] | apply crun_filter; assumption].
Qed.
