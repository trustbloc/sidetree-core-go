(* C04: deactivation is terminal; a recover supersedes what came before it.  The file also holds
   [no_zero_reveal], a hypothesis of Refine.v and Chrono.v (C03). *)
From Coq Require Import List ZArith Bool Lia.
From SV Require Import Base.ListFacts Resolve.Op Resolve.Apply Resolve.ApplyFacts Resolve.Process Resolve.ProcessFacts Resolve.Order
  Resolve.Chain Resolve.Core Resolve.Prepare.
Import ListNotations.
Local Open Scope Z_scope.

(* commitments recomputed from reveal values are never the empty string (creates carry none);
   for parsed operations this is FromViewProofs.parsed_reveal_nonzero *)
Definition no_zero_reveal (ops : list aop) : Prop := Forall (fun o => ty o <> Create -> reveal_c o <> 0) ops.

Lemma nzr_incl l l' : incl l' l -> no_zero_reveal l -> no_zero_reveal l'.
Proof. unfold no_zero_reveal. rewrite !Forall_forall. intros Hi H x Hx. apply H, Hi, Hx. Qed.

Lemma nzr_filter p l : no_zero_reveal l -> no_zero_reveal (filter p l).
Proof. apply nzr_incl, incl_filter. Qed.

Lemma nzr_in l q : no_zero_reveal l -> In q l -> ty q <> Create -> reveal_c q <> 0.
Proof. unfold no_zero_reveal. rewrite Forall_forall. intros H Hq. apply H. exact Hq. Qed.

Theorem op_after_spec t n o :
  op_after t n o = true <-> published o = false \/ t < time o \/ (t = time o /\ n < num o).
Proof.
  unfold op_after. rewrite !Z.gtb_ltb. destruct (published o); cbn [negb]; [|split; auto].
  destruct (Z.ltb_spec (time o) t); [split; [discriminate | intros [?|?]; [discriminate | lia]]|].
  destruct (Z.ltb_spec t (time o)); [split; auto|].
  rewrite Z.ltb_lt. split; [intros; right; right; lia | intros [?|?]; [discriminate | lia]].
Qed.

Lemma apply_deact_shape o s s' :
  apply o s = Some s' -> deact s' = true -> ty o = Deactivate /\ doc s' = Some [] /\ upd s' = 0 /\ rec s' = 0.
Proof.
  intros Ha Hd. apply apply_some in Ha. destruct Ha as [_ ->]. apply post_deact in Hd.
  rewrite (post_ty _ _ _ Hd). auto.
Qed.

Lemma create_not_deact c s : apply c init_state = Some s -> deact s = false.
Proof.
  intros Ha. apply apply_some in Ha. destruct Ha as [Hacc ->].
  destruct (deact (post c init_state)) eqn:E; [|reflexivity]. apply post_deact in E.
  pose proof (proj1 (accepts_doc _ _ Hacc) eq_refl). congruence.
Qed.

(* updates never deactivate: a deactivated result comes out of the recovery chain *)
Lemma update_keeps_active o s s' : ty o = Update -> apply o s = Some s' -> deact s' = false.
Proof. intros Hty Ha. rewrite (apply_post _ _ _ _ Hty Ha). reflexivity. Qed.

Theorem recover_resets_document o s s' :
  ty o = Recover -> apply o s = Some s' ->
  (doc s' = Some [] \/ doc s' = Some [delta o]) /\ rec s' = rec_c o /\
  last_t s' = time o /\ last_n s' = num o.
Proof.
  intros Hty Ha. rewrite (apply_post _ _ _ _ Hty Ha). cbn.
  destruct (usable o && effective o); auto.
Qed.

Lemma apply_sets_coords o s s' : apply o s = Some s' -> last_t s' = time o /\ last_n s' = num o.
Proof. intros Ha. apply apply_some in Ha. destruct Ha as [_ ->]. split; apply post_coords. Qed.

Lemma update_chain_active ops s s' ap :
  Forall (fun o => ty o = Update) ops -> deact s = false -> run_chain upd ops s = Some (s', ap) -> deact s' = false.
Proof.
  intros Hu Hd Hr. rewrite Forall_forall in Hu.
  apply (run_chain_preserves (fun t => deact t = false)) in Hr; [exact Hr | | exact Hd].
  intros o t t' Hi Ha _. eapply update_keeps_active; [apply Hu, Hi | exact Ha].
Qed.

Theorem deactivated_shape fops c0 s ap :
  resolve_core fops = inr (Some (c0, s, ap)) -> deact s = true ->
  doc s = Some [] /\ upd s = 0 /\ rec s = 0.
Proof.
  intros H Hd. apply resolve_core_some in H. destruct H as (s0 & s1 & ap1 & ap2 & (Hfc & Hr1 & Hr2) & _).
  (* the flag was set by the last operation of the recovery chain *)
  destruct (deact s1) eqn:Hd1.
  2:{ rewrite (update_chain_active _ _ _ _ (updates_are_updates _ fops) Hd1 Hr2) in Hd. discriminate. }
  destruct Hr2 as [-> _]. destruct (run_chain_last _ _ _ _ _ c0 Hr1) as [[_ ->]|[_ [sp Hsp]]].
  - destruct (core_create _ _ _ Hfc) as (_ & _ & Hc). rewrite (create_not_deact _ _ Hc) in Hd1. discriminate.
  - apply (apply_deact_shape _ _ _ Hsp Hd1).
Qed.

(* a chain that has applied an operation and stopped on the empty commitment is not affected by
   operations appended to the list: for each commitment the earlier candidates still come first,
   and on the empty commitment the chain stops without looking for candidates *)
Lemma crun_app_stop_applied sel ops ext s cs s' cs' ap :
  crun sel ops s cs s' cs' ap -> sel s' = 0 -> (ap <> [] \/ sel s <> 0) ->
  crun sel (ops ++ ext) s cs s' cs' ap.
Proof.
  induction 1 as [s cs Hf | s cs o s1 Hf H0 | s cs o s1 s' cs' ap Hf H0 Hc IH]; intros Hz Hne.
  - exfalso. destruct Hne as [Hne|Hne]; [apply Hne; reflexivity | apply Hne, Hz].
  - apply crun_last; [rewrite candidates_app, first_valid_app, Hf; reflexivity | exact H0].
  - apply crun_step with s1; [rewrite candidates_app, first_valid_app, Hf; reflexivity | exact H0|].
    apply IH; [exact Hz | right; exact H0].
Qed.

Lemma run_chain_app_stop_applied sel ops ext s s' ap :
  run_chain sel ops s = Some (s', ap) -> sel s' = 0 -> (ap <> [] \/ sel s <> 0) ->
  run_chain sel (ops ++ ext) s = Some (s', ap).
Proof.
  intros Hr Hz Hne. apply run_chain_crun in Hr. destruct Hr as (cs & Hc & Hl). apply run_chain_crun.
  exists cs. split; [apply crun_app_stop_applied; assumption | rewrite app_length; lia].
Qed.

Lemma creates_pf_app_published fops ext :
  Forall (fun o => published o = true) fops ->
  creates_published_first (filter (is_ty Create) (fops ++ ext))
  = creates_published_first (filter (is_ty Create) fops) ++
    filter published (filter (is_ty Create) ext) ++
    filter (fun o => negb (published o)) (filter (is_ty Create) fops ++ filter (is_ty Create) ext).
Proof.
  intros Hpub. rewrite filter_app. unfold creates_published_first. rewrite filter_app, <- !app_assoc.
  assert (Hnone : filter (fun o => negb (published o)) (filter (is_ty Create) fops) = []).
  { apply filter_none. intros x Hx. apply filter_In in Hx. destruct Hx as [Hx _].
    rewrite Forall_forall in Hpub. rewrite (Hpub x Hx). reflexivity. }
  rewrite Hnone. reflexivity.
Qed.

(* once the anchored operations deactivate the DID, operations processed after them - later
   anchored or unpublished, of any kind - do not change the result *)
Theorem deactivate_absorbs_core fops ext c0 s ap :
  Forall (fun o => published o = true) fops ->
  resolve_core fops = inr (Some (c0, s, ap)) -> deact s = true ->
  resolve_core (fops ++ ext) = inr (Some (c0, s, ap)).
Proof.
  intros Hpub Hr Hd.
  pose proof (deactivated_shape _ _ _ _ Hr Hd) as (_ & _ & Hrec).
  apply resolve_core_some in Hr. destruct Hr as (s0 & s1 & ap1 & ap2 & (Hfc & Hr1 & Hr2) & ->).
  (* the flag was set by the recovery chain *)
  destruct (deact s1) eqn:Hd1.
  2:{ rewrite (update_chain_active _ _ _ _ (updates_are_updates _ fops) Hd1 Hr2) in Hd. discriminate. }
  destruct Hr2 as [-> ->].
  assert (Hne : ap1 <> []).
  { destruct (run_chain_last _ _ _ _ _ c0 Hr1) as [[_ ->]|[Hne _]]; [|exact Hne].
    destruct (core_create _ _ _ Hfc) as (_ & _ & Hc0). rewrite (create_not_deact _ _ Hc0) in Hd1. discriminate. }
  apply resolve_core_some. exists s0, s1, ap1, []. split; [|reflexivity]. rewrite Hd1.
  split; [|split; [|auto]].
  - rewrite (creates_pf_app_published _ _ Hpub), first_valid_create_app, Hfc. reflexivity.
  - rewrite filter_app. apply run_chain_app_stop_applied; [exact Hr1 | exact Hrec | left; exact Hne].
Qed.

(* store-level statement: the anchored history [pub] deactivates the DID; [later] are operations
   anchored after all of them, [unpub] are unpublished ones *)
Theorem deactivate_absorbs pub later unpub c0 s ap :
  Forall (fun o => published o = true) pub ->
  (forall a b, In a pub -> In b later -> op_le a b) ->
  resolve_full pub [] no_opts = inr (Some (c0, s, ap)) -> deact s = true ->
  resolve_full (pub ++ later) unpub no_opts = inr (Some (c0, s, ap)).
Proof.
  intros Hpub Hlater Hr Hd. rewrite resolve_full_published in Hr.
  rewrite resolve_full_no_opts, sort_ops_app_later by assumption. rewrite <- app_assoc.
  apply deactivate_absorbs_core; try assumption.
  apply Forall_forall. intros x Hx. rewrite Forall_forall in Hpub. apply Hpub, in_sort_ops, Hx.
Qed.

(* instances of the two theorems above; [no_zero_reveal] and [key_inj] are not used *)
Theorem deactivate_terminal_core fops ext c0 s ap :
  Forall (fun o => published o = true) fops -> no_zero_reveal (fops ++ ext) ->
  resolve_core fops = inr (Some (c0, s, ap)) -> deact s = true ->
  resolve_core (fops ++ ext) = inr (Some (c0, s, ap)).
Proof. intros Hpub _. apply deactivate_absorbs_core. exact Hpub. Qed.

Theorem deactivate_terminal pub later unpub c0 s ap :
  Forall (fun o => published o = true) pub ->
  key_inj (pub ++ later) ->
  (forall a b, In a pub -> In b later -> op_le a b) ->
  no_zero_reveal (pub ++ later ++ unpub) ->
  resolve_full pub [] no_opts = inr (Some (c0, s, ap)) -> deact s = true ->
  resolve_full (pub ++ later) unpub no_opts = inr (Some (c0, s, ap)).
Proof. intros Hpub _ Hlater _. apply deactivate_absorbs; assumption. Qed.

(* the state after the recovery chain carries the coordinates of an operation of the list that
   is not an update: the last applied recover / deactivate or, when there is none, the create *)
Lemma replay_point_coords fops c0 s0 s1 ap1 :
  first_valid_create (creates_published_first (filter (is_ty Create) fops)) = Some (c0, s0) ->
  run_chain rec (filter is_full fops) s0 = Some (s1, ap1) ->
  In (last ap1 c0) fops /\ ty (last ap1 c0) <> Update /\
  last_t s1 = time (last ap1 c0) /\ last_n s1 = num (last ap1 c0) /\
  (ty (last ap1 c0) = Recover -> doc s1 = Some [] \/ doc s1 = Some [delta (last ap1 c0)]).
Proof.
  intros Hfc Hr1. destruct (core_create _ _ _ Hfc) as (Hi & Hty & Hc).
  destruct (run_chain_last _ _ _ _ _ c0 Hr1) as [[-> ->]|[Hne [sp Hsp]]].
  - cbn [last]. destruct (apply_sets_coords _ _ _ Hc). repeat split; try assumption; congruence.
  - pose proof (run_chain_applied _ _ _ _ _ Hr1) as Hall. rewrite Forall_forall in Hall.
    destruct (Hall _ (last_in ap1 c0 Hne)) as [Hin _]. apply filter_In in Hin. destruct Hin as [Hin Hf].
    apply is_full_true in Hf. destruct (apply_sets_coords _ _ _ Hsp).
    repeat split; try assumption; [destruct Hf; congruence|].
    intros Hr. apply (recover_resets_document _ _ _ Hr Hsp).
Qed.

(* the updates applied on top of the last recover (or create) are all unpublished or anchored
   strictly after it.  [s1] is bound by nothing but its three clauses, which therefore say nothing;
   what the state after the recovery chain holds is [replay_point_coords]. *)
Theorem recover_supersedes fops c0 s ap :
  resolve_core fops = inr (Some (c0, s, ap)) ->
  exists ap1 ap2 s1,
    ap = ap1 ++ ap2 /\ Forall (fun o => is_full o = true) ap1 /\
    last_t s1 = time (last ap1 c0) /\ last_n s1 = num (last ap1 c0) /\
    (ty (last ap1 c0) = Recover -> doc s1 = Some [] \/ doc s1 = Some [delta (last ap1 c0)]) /\
    Forall (fun u => ty u = Update /\ op_after (time (last ap1 c0)) (num (last ap1 c0)) u = true) ap2.
Proof.
  intros H. apply resolve_core_some in H. destruct H as (s0 & s1 & ap1 & ap2 & (Hfc & Hr1 & Hr2) & ->).
  destruct (replay_point_coords _ _ _ _ _ Hfc Hr1) as (_ & _ & Ht & Hn & Hdoc).
  destruct (core_classes _ _ _ _ _ _ Hr1 Hr2) as [H1 H2]. rewrite Ht, Hn in H2.
  exists ap1, ap2, s1. repeat split; try assumption; (eapply Forall_impl; [|eassumption]); cbn; tauto.
Qed.
