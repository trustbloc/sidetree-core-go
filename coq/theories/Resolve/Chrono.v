(* C03: an independent CHRONOLOGICAL characterisation of what Resolve computes.

   [chrono]: one pass over the operations in processing order (anchoring order, then the
   unpublished ones), starting from the empty state.  An operation takes effect iff
     - create            : Apply accepts it (i.e. there is no document yet and it parses),
     - update            : it reveals the update commitment in force and Apply accepts it,
     - recover/deactivate: it reveals the recovery commitment in force and Apply accepts it;
   every other operation is skipped for good.  The state is, by construction, the left fold of
   Apply over the operations that took effect, in the order in which they are reached.

   [resolve_core] does something else: it picks the create first and then follows the commitment
   chain through a hash map of ALL operations, whatever their position.  The two agree
   (resolve_core_is_chrono: same state, same create, same applied operations, same errors) when the
   history is
     - strictly ordered     : published operations in strictly increasing (time, number) order, then
                              the unpublished ones (what [prepare] produces from stores whose
                              anchored operations have distinct coordinates: prepared_strictly_ordered);
     - without empty reveal : no operation's recomputed commitment is the empty string;
     - causal               : no operation reveals a commitment that the SAME or a LATER operation
                              (in processing order) installs.
   FORKS ARE ALLOWED (several operations revealing the same commitment): the first one in
   processing order that Apply accepts wins in both.  In particular the theorem covers the
   fork-free histories of the property text.  Causality cannot be dropped, not even for fork-free
   histories: [needs_causal] (an operation anchored BEFORE the operation that commits to its key is
   applied by Resolve, but not by the chronological pass).
   [chrono] is a specification, not a model of code. *)
From Coq Require Import List ZArith Bool Lia Permutation Sorted.
From SV Require Import Base.ListFacts Resolve.Op Resolve.Apply Resolve.ApplyFacts Resolve.Process Resolve.ProcessFacts
  Resolve.Order Resolve.Chain Resolve.Core Resolve.Prepare Resolve.Terminal Resolve.Extend Resolve.Earliest.
Import ListNotations.
Local Open Scope Z_scope.

(* state, chosen create, effective applied operations (a recover / deactivate supersedes the
   updates applied before it, as in the list Resolve reports) *)
Definition cstate : Type := state * option aop * list aop.

Definition take (st : cstate) (o : aop) (keep : list aop -> list aop) : cstate :=
  let '(s, c, ap) := st in
  match apply o s with
  | Some s' => (s', c, keep ap ++ [o])
  | None => st
  end.

Definition chrono_step (st : cstate) (o : aop) : cstate :=
  let '(s, c, ap) := st in
  match ty o with
  | Create => match apply o s with Some s' => (s', Some o, []) | None => st end
  | Update => if reveal_c o =? upd s then take st o (fun l => l) else st
  | Recover | Deactivate => if reveal_c o =? rec s then take st o (filter is_full) else st
  end.

Definition chrono (l : list aop) : cstate := fold_left chrono_step l (init_state, None, []).

Definition chrono_outcome (l : list aop) : rerr + option (aop * state * list aop) :=
  match chrono l with
  | (s, Some c0, ap) => inr (Some (c0, s, ap))
  | (_, None, _) => inl (match filter (is_ty Create) l with [] => ENoCreate | _ => ENoValidCreate end)
  end.

Lemma chrono_snoc l o : chrono (l ++ [o]) = chrono_step (chrono l) o.
Proof. unfold chrono. rewrite fold_left_app. reflexivity. Qed.

Definition proc_lt (a b : aop) : Prop := published b = true -> published a = true /\ op_lt a b = true.
Definition strictly_ordered (l : list aop) : Prop := StronglySorted proc_lt l.

(* the commitments an operation installs when it is applied (0: none) *)
Definition next_rec (o : aop) : Z := match ty o with Create | Recover => rec_c o | _ => 0 end.
Definition next_upd (o : aop) : Z := match ty o with Deactivate => 0 | _ => upd_c o end.

(* [q], processed before [o] or [o] itself, does not reveal a commitment [o] installs *)
Definition not_ahead (q o : aop) : Prop :=
  (is_full q = true -> next_rec o <> 0 -> reveal_c q <> next_rec o) /\
  (ty q = Update -> next_upd o <> 0 -> reveal_c q <> next_upd o).

Definition causal (l : list aop) : Prop :=
  forall l1 o l2, l = l1 ++ o :: l2 -> forall q, In q (l1 ++ [o]) -> not_ahead q o.

Lemma ss_impl {A} (R R' : A -> A -> Prop) l :
  (forall a b, R a b -> R' a b) -> StronglySorted R l -> StronglySorted R' l.
Proof.
  intros H. induction 1 as [|a r Hs IH Ha]; constructor; [exact IH|].
  eapply Forall_impl; [|exact Ha]. intros b. apply H.
Qed.

Lemma ss_snoc {A} (R : A -> A -> Prop) l o : StronglySorted R (l ++ [o]) -> forall q, In q l -> R q o.
Proof.
  intros H q Hq. apply in_split in Hq. destruct Hq as (l1 & l2 & ->). rewrite <- app_assoc in H. cbn [app] in H.
  apply ss_split in H. rewrite Forall_forall in H. apply H. apply in_or_app. right. left. reflexivity.
Qed.

Lemma strictly_ordered_processing l : strictly_ordered l -> processing_order l.
Proof.
  apply ss_impl. intros a b H Hp. destruct (H Hp) as [Ha Hlt]. split; [exact Ha | apply op_lt_le; exact Hlt].
Qed.

Lemma strictly_ordered_prefix l o : strictly_ordered (l ++ [o]) -> strictly_ordered l.
Proof. apply ss_prefix. Qed.

Lemma causal_prefix l o : causal (l ++ [o]) -> causal l.
Proof. intros H l1 x l2 ->. apply (H l1 x (l2 ++ [o])). rewrite <- app_assoc. reflexivity. Qed.

Lemma causal_last l o : causal (l ++ [o]) -> forall q, In q (l ++ [o]) -> not_ahead q o.
Proof. intros H. apply (H l o []). reflexivity. Qed.

Lemma nzr_prefix l o : no_zero_reveal (l ++ [o]) -> no_zero_reveal l.
Proof. unfold no_zero_reveal. intros H. apply Forall_app in H. apply H. Qed.

Lemma nzr_last l o : no_zero_reveal (l ++ [o]) -> ty o <> Create -> reveal_c o <> 0.
Proof.
  unfold no_zero_reveal. intros H. apply Forall_app in H. destruct H as [_ H]. inversion H; subst. assumption.
Qed.

(* in a strictly ordered list every earlier create / recover / deactivate passes the "after" test *)
Lemma strictly_ordered_after_fulls l o : strictly_ordered (l ++ [o]) -> after_fulls l o.
Proof.
  intros H q Hq _. apply op_after_spec. pose proof (ss_snoc _ _ _ H q Hq) as Hlt.
  destruct (published o) eqn:Hp; [right | left; reflexivity].
  destruct (Hlt Hp) as [_ Hl]. apply op_lt_spec in Hl. exact Hl.
Qed.

(* a list in processing order already has its published elements first *)
Lemma cpf_processing_order l : processing_order l -> creates_published_first l = l.
Proof.
  unfold creates_published_first. induction 1 as [|a r Hs IH Ha]; [reflexivity|]. cbn [filter].
  destruct (published a) eqn:Hp; cbn [negb app].
  - f_equal. exact IH.
  - assert (Hun : forall x, In x r -> published x = false).
    { intros x Hx. rewrite Forall_forall in Ha. destruct (published x) eqn:Hpx; [|reflexivity].
      destruct (Ha x Hx Hpx) as [Hpa _]. congruence. }
    rewrite (filter_none _ r Hun), filter_all; [reflexivity|]. intros x Hx. rewrite (Hun x Hx). reflexivity.
Qed.

(* what Apply installs *)
Lemma apply_upd_installed o s s' : apply o s = Some s' -> upd s' = 0 \/ upd s' = next_upd o.
Proof. intros Ha. apply apply_some in Ha. destruct Ha as [_ ->]. apply post_upd. Qed.

Lemma apply_create_rec c s s' : ty c = Create -> apply c s = Some s' -> rec s' = rec_c c.
Proof. intros Hty Ha. rewrite (apply_post _ _ _ _ Hty Ha). reflexivity. Qed.

Lemma apply_create_needs_no_doc c s : ty c = Create -> doc s <> None -> apply c s = None.
Proof.
  intros Hty Hd. apply apply_none. destruct (accepts c s) eqn:E; [|reflexivity].
  elim Hd. apply (accepts_doc _ _ E), Hty.
Qed.

Lemma apply_noncreate_needs_doc o s : ty o <> Create -> doc s = None -> apply o s = None.
Proof.
  intros Hty Hd. apply apply_none. destruct (accepts o s) eqn:E; [|reflexivity].
  elim Hty. apply (accepts_doc _ _ E), Hd.
Qed.

(* no operation of a causal prefix reveals a commitment that [o] installs *)
Lemma not_ahead_rec l o :
  no_zero_reveal l -> (forall q, In q l -> not_ahead q o) ->
  forall q, In q l -> is_full q = true -> reveal_c q <> next_rec o.
Proof.
  intros Hnz Hc q Hq Hf. destruct (Z.eq_dec (next_rec o) 0) as [E0|E0]; [|apply (Hc q Hq); assumption].
  rewrite E0. apply (nzr_in _ _ Hnz Hq). apply is_full_true in Hf. destruct Hf; congruence.
Qed.

Lemma not_ahead_upd l o u :
  no_zero_reveal l -> (forall q, In q l -> not_ahead q o) -> u = 0 \/ u = next_upd o ->
  forall q, In q l -> ty q = Update -> reveal_c q <> u.
Proof.
  intros Hnz Hc Hu q Hq Hty. assert (Hz : reveal_c q <> 0) by (apply (nzr_in _ _ Hnz Hq); congruence).
  destruct Hu as [-> | ->]; [exact Hz|].
  destruct (Z.eq_dec (next_upd o) 0) as [E0|E0]; [rewrite E0; exact Hz | apply (Hc q Hq); assumption].
Qed.

(* "the first valid candidate in list order wins": an operation appended at the END of the list
   can matter only at the point where the chain stopped *)
Lemma crun_snoc_inert sel ops o s cs s' cs' ap :
  crun sel ops s cs s' cs' ap ->
  first_valid (candidates (sel s') [o]) s' (sel s') cs' = None ->
  crun sel (ops ++ [o]) s cs s' cs' ap.
Proof.
  induction 1 as [s cs Hf | s cs x s1 Hf H0 | s cs x s1 s' cs' ap Hf H0 Hc IH]; intros Hn.
  - apply crun_stop. rewrite candidates_app, first_valid_app, Hf. exact Hn.
  - apply crun_last; [rewrite candidates_app, first_valid_app, Hf; reflexivity | exact H0].
  - apply crun_step with s1; [rewrite candidates_app, first_valid_app, Hf; reflexivity | exact H0 | apply IH, Hn].
Qed.

Lemma run_chain_snoc_inert sel ops o s s' ap :
  run_chain sel ops s = Some (s', ap) ->
  (forall cs, first_valid (candidates (sel s') [o]) s' (sel s') cs = None) ->
  run_chain sel (ops ++ [o]) s = Some (s', ap).
Proof.
  intros Hr Hn. apply run_chain_crun in Hr. destruct Hr as (cs & Hc & Hl). apply run_chain_crun.
  exists cs. split; [apply crun_snoc_inert; [exact Hc | apply Hn] | rewrite app_length; lia].
Qed.

Lemma fv_single_none o s c : reveal_c o <> c \/ apply o s = None ->
  forall cs, first_valid (candidates c [o]) s c cs = None.
Proof.
  intros H cs. rewrite candidates_is_filter. cbn [filter]. destruct (cand_pred c o) eqn:Ec; [|reflexivity].
  destruct H as [H|H]; [elim H; apply cand_pred_iff in Ec; apply Ec|].
  rewrite first_valid_cons. destruct (skipped o s c cs); [reflexivity|]. rewrite H. reflexivity.
Qed.

Theorem update_snoc_inert fops c0 s ap o :
  resolve_core fops = inr (Some (c0, s, ap)) ->
  ty o = Update -> reveal_c o <> upd s \/ apply o s = None ->
  resolve_core (fops ++ [o]) = inr (Some (c0, s, ap)).
Proof.
  intros Hres Hty Hin.
  apply resolve_core_iff in Hres. destruct Hres as (s0 & s1 & ap1 & ap2 & (Hfc & Hr1 & Hr2) & ->).
  apply resolve_core_iff. exists s0, s1, ap1, ap2. split; [|reflexivity].
  destruct (class_update _ Hty) as (Hc & Hf & Hu). unfold core_run. rewrite !filter_snoc, Hc, Hf, Hu, filter_snoc.
  split; [exact Hfc|]. split; [exact Hr1|].
  destruct (deact s1); [exact Hr2|]. destruct (op_after (last_t s1) (last_n s1) o); [|exact Hr2].
  apply run_chain_snoc_inert; [exact Hr2|]. apply fv_single_none. exact Hin.
Qed.

Theorem full_snoc_inert fops c0 s ap o :
  resolve_core fops = inr (Some (c0, s, ap)) ->
  is_full o = true -> reveal_c o <> rec s \/ apply o s = None ->
  resolve_core (fops ++ [o]) = inr (Some (c0, s, ap)).
Proof.
  intros Hres Hfull Hin.
  apply resolve_core_iff in Hres. destruct Hres as (s0 & s1 & ap1 & ap2 & Hrun & ->).
  destruct (core_run_docs _ _ _ _ _ _ _ Hrun) as [_ Hdoc1].
  destruct Hrun as (Hfc & Hr1 & Hr2).
  (* the recovery chain ended in s1; s differs from s1 only in fields a full operation ignores *)
  assert (Hagree : rec s = rec s1 /\ apply o s = apply o s1).
  { destruct (deact s1) eqn:Ed1; [destruct Hr2 as [-> _]; split; reflexivity|].
    destruct (update_chain_base _ _ _ _ (updates_are_updates _ fops) Ed1 Hdoc1 Hr2)
      as ((Hb1 & Hb2 & Hb3 & Hb4) & _ & Hdoc).
    split; [exact Hb1 | apply apply_full_agree; assumption]. }
  destruct Hagree as [Hrec Happ]. rewrite Hrec, Happ in Hin.
  apply resolve_core_iff. exists s0, s1, ap1, ap2. split; [|reflexivity].
  destruct (class_full _ Hfull) as (Hc & Hu). unfold core_run. rewrite !filter_snoc, Hc, Hfull, Hu.
  split; [exact Hfc|]. split; [|exact Hr2].
  apply run_chain_snoc_inert; [exact Hr1|]. apply fv_single_none. exact Hin.
Qed.

Theorem create_snoc_inert fops c0 s ap o :
  processing_order (fops ++ [o]) ->
  resolve_core fops = inr (Some (c0, s, ap)) -> ty o = Create ->
  resolve_core (fops ++ [o]) = inr (Some (c0, s, ap)).
Proof.
  intros Hord Hres Hty.
  apply resolve_core_iff in Hres. destruct Hres as (s0 & s1 & ap1 & ap2 & (Hfc & Hr1 & Hr2) & ->).
  apply resolve_core_iff. exists s0, s1, ap1, ap2. split; [|reflexivity].
  destruct (class_create _ Hty) as (Hc & Hf & Hu). unfold core_run. rewrite !filter_snoc, Hc, Hf, Hu.
  split; [|split; assumption].
  assert (Hord' : processing_order (filter (is_ty Create) fops ++ [o])).
  { pose proof (ss_filter _ (is_ty Create) _ Hord) as H. rewrite filter_snoc, Hc in H. exact H. }
  rewrite cpf_processing_order by exact Hord'.
  rewrite cpf_processing_order in Hfc by (eapply ss_prefix; exact Hord').
  rewrite first_valid_create_app, Hfc. reflexivity.
Qed.

Definition no_valid_create (l : list aop) : Prop :=
  Forall (fun x => apply x init_state = None) (filter (is_ty Create) l).

Lemma no_valid_create_snoc l o :
  no_valid_create l -> (ty o = Create -> apply o init_state = None) -> no_valid_create (l ++ [o]).
Proof.
  unfold no_valid_create. intros Hnv Ho. rewrite filter_snoc. destruct (is_ty Create o) eqn:E; [|exact Hnv].
  apply Forall_app. split; [exact Hnv|]. constructor; [apply Ho, is_ty_true, E | constructor].
Qed.

Lemma resolve_core_no_valid_create l : no_valid_create l ->
  resolve_core l = inl (match filter (is_ty Create) l with [] => ENoCreate | _ => ENoValidCreate end).
Proof.
  intros H. apply resolve_core_err. split; [|reflexivity]. apply first_valid_create_none.
  unfold no_valid_create in H. rewrite Forall_forall in *. intros x Hx. apply H, (proj1 (in_creates_pf _ _)), Hx.
Qed.

Lemma first_valid_create_only l c s0 :
  In c l -> apply c init_state = Some s0 -> (forall x, In x l -> apply x init_state = None \/ x = c) ->
  first_valid_create l = Some (c, s0).
Proof.
  induction l as [|x r IH]; intros Hin Hc Hall; [destruct Hin|]. cbn [first_valid_create].
  destruct (Hall x (or_introl eq_refl)) as [Hx| ->].
  - rewrite Hx. apply IH; [|exact Hc|intros y Hy; apply Hall; right; exact Hy].
    destruct Hin as [->|Hin]; [congruence | exact Hin].
  - rewrite Hc. reflexivity.
Qed.

(* the first valid create arrives: nothing processed before it can belong to its chains *)
Theorem first_create_snoc l c s0 :
  no_valid_create l -> ty c = Create -> apply c init_state = Some s0 ->
  no_zero_reveal l -> (forall q, In q l -> not_ahead q c) ->
  resolve_core (l ++ [c]) = inr (Some (c, s0, [])).
Proof.
  intros Hnv Hty Hc Hnz Hcausal.
  apply resolve_core_iff. exists s0, s0, [], []. split; [|reflexivity].
  destruct (class_create _ Hty) as (Hcr & Hf & Hu). unfold core_run. rewrite !filter_snoc, Hcr, Hf, Hu.
  split; [|split].
  - apply first_valid_create_only; [apply (proj2 (in_creates_pf _ _)), in_or_app; right; left; reflexivity | exact Hc |].
    intros x Hx. apply (proj1 (in_creates_pf _ _)), in_app_or in Hx. destruct Hx as [Hx|[<-|[]]]; [left | right; reflexivity].
    unfold no_valid_create in Hnv. rewrite Forall_forall in Hnv. apply Hnv, Hx.
  - (* recovery chain: nobody reveals rec_c c *)
    apply run_chain_stop. intros q Hq. apply filter_In in Hq. destruct Hq as [Hq Hqf].
    rewrite (apply_create_rec _ _ _ Hty Hc). replace (rec_c c) with (next_rec c) by (unfold next_rec; rewrite Hty; reflexivity).
    apply (not_ahead_rec l); assumption.
  - rewrite (create_not_deact _ _ Hc). apply run_chain_stop. intros q Hq.
    apply filter_In in Hq. destruct Hq as [Hq _]. apply filter_In in Hq. destruct Hq as [Hq Hqu].
    apply (not_ahead_upd l c); [exact Hnz | exact Hcausal | apply (apply_upd_installed _ _ _ Hc) | exact Hq|].
    apply is_ty_true, Hqu.
Qed.

Definition agrees (st : cstate) (l : list aop) : Prop :=
  match st with
  | (s, Some c0, ap) => resolve_core l = inr (Some (c0, s, ap))
  | (s, None, ap) => s = init_state /\ ap = [] /\ no_valid_create l
  end.

Definition chrono_inv (l : list aop) : Prop :=
  match chrono l with
  | (s, Some c0, ap) => resolve_core l = inr (Some (c0, s, ap))
  | (s, None, ap) => s = init_state /\ ap = [] /\ no_valid_create l
  end.

Lemma chrono_inv_agrees l : chrono_inv l <-> agrees (chrono l) l.
Proof. reflexivity. Qed.

Section Step.
  Variables (l : list aop) (o : aop).
  Hypotheses (Hord : strictly_ordered (l ++ [o])) (Hnz : no_zero_reveal (l ++ [o]))
             (Hcausal : forall q, In q (l ++ [o]) -> not_ahead q o).

  Let Hcausal_l : forall q, In q l -> not_ahead q o.
  Proof. intros q Hq. apply Hcausal, in_or_app. left. exact Hq. Qed.

  Let Hself : not_ahead o o.
  Proof. apply Hcausal, in_or_app. right. left. reflexivity. Qed.

  (* one step of the pass on a history that resolves to [s], by the class of the operation *)
  Lemma chrono_step_create c0 s ap :
    resolve_core l = inr (Some (c0, s, ap)) -> ty o = Create -> agrees (chrono_step (s, Some c0, ap) o) (l ++ [o]).
  Proof.
    intros Hres Hty. unfold chrono_step. rewrite Hty.
    rewrite (apply_create_needs_no_doc _ _ Hty (resolved_has_doc _ _ _ _ Hres)).
    apply create_snoc_inert; [apply strictly_ordered_processing; exact Hord | exact Hres | exact Hty].
  Qed.

  Lemma chrono_step_update c0 s ap :
    resolve_core l = inr (Some (c0, s, ap)) -> ty o = Update -> agrees (chrono_step (s, Some c0, ap) o) (l ++ [o]).
  Proof.
    intros Hres Hty. unfold chrono_step, take. rewrite Hty.
    destruct (Z.eqb_spec (reveal_c o) (upd s)) as [Er|Er]; [|apply update_snoc_inert; auto].
    destruct (apply o s) as [s'|] eqn:Ha; [|apply update_snoc_inert; auto].
    assert (Hrv0 : reveal_c o <> 0) by (apply (nzr_last _ _ Hnz); congruence).
    assert (Hnext : next_upd o = upd_c o) by (unfold next_upd; rewrite Hty; reflexivity).
    apply update_extends with (s := s); try assumption.
    - congruence.
    - destruct Hself as [_ H2]. specialize (H2 Hty). rewrite Hnext in H2.
      destruct (Z.eq_dec (upd_c o) 0) as [E0|E0]; [congruence|]. specialize (H2 E0). congruence.
    - intros E0 q Hq Hqu. rewrite <- Hnext.
      apply (not_ahead_upd l o); [apply (nzr_prefix _ _ Hnz) | exact Hcausal_l | auto | exact Hq | apply is_ty_true, Hqu].
    - eapply after_fulls_replay_point; [exact Hres | apply strictly_ordered_after_fulls; exact Hord].
  Qed.

  Lemma chrono_step_full c0 s ap :
    resolve_core l = inr (Some (c0, s, ap)) -> is_full o = true -> agrees (chrono_step (s, Some c0, ap) o) (l ++ [o]).
  Proof.
    intros Hres Hfull.
    assert (Hstep : chrono_step (s, Some c0, ap) o =
                    if reveal_c o =? rec s then take (s, Some c0, ap) o (filter is_full) else (s, Some c0, ap)).
    { apply is_full_true in Hfull. unfold chrono_step. destruct Hfull as [-> | ->]; reflexivity. }
    assert (Hnext : next_c o = next_rec o).
    { apply is_full_true in Hfull. unfold next_c, next_rec. destruct Hfull as [-> | ->]; reflexivity. }
    rewrite Hstep. unfold take.
    destruct (Z.eqb_spec (reveal_c o) (rec s)) as [Er|Er]; [|apply full_snoc_inert; auto].
    destruct (apply o s) as [s'|] eqn:Ha; [|apply full_snoc_inert; auto].
    assert (Hrv0 : reveal_c o <> 0).
    { apply (nzr_last _ _ Hnz). apply is_full_true in Hfull. destruct Hfull; congruence. }
    apply full_extends with (s := s); try assumption.
    - congruence.
    - destruct Hself as [H1 _]. rewrite Hnext.
      destruct (Z.eq_dec (next_rec o) 0) as [E0|E0]; [congruence|]. specialize (H1 Hfull E0). congruence.
    - intros E0 q Hq Hqf. rewrite Hnext. apply (not_ahead_rec l); [apply (nzr_prefix _ _ Hnz) | | |]; assumption.
    - intros _ q Hq Hqu _.
      apply (not_ahead_upd l o); [apply (nzr_prefix _ _ Hnz) | exact Hcausal_l | apply (apply_upd_installed _ _ _ Ha) | |]; assumption.
  Qed.

  (* one step before any create was accepted *)
  Lemma chrono_step_before_create :
    no_valid_create l -> agrees (chrono_step (init_state, None, []) o) (l ++ [o]).
  Proof.
    intros Hnv. destruct (apply o init_state) as [s0|] eqn:Ha.
    - (* accepted in the empty state: a create *)
      assert (Hty : ty o = Create) by (apply apply_some in Ha; apply (accepts_doc _ _ (proj1 Ha)); reflexivity).
      unfold chrono_step. rewrite Hty, Ha. apply first_create_snoc; try assumption. apply (nzr_prefix _ _ Hnz).
    - assert (Hst : chrono_step (init_state, None, []) o = (init_state, None, [])).
      { unfold chrono_step, take. rewrite Ha. destruct (ty o); [reflexivity | destruct (_ =? _); reflexivity ..]. }
      rewrite Hst. repeat split. apply no_valid_create_snoc; auto.
  Qed.
End Step.

Lemma chrono_inv_snoc l o :
  strictly_ordered (l ++ [o]) -> no_zero_reveal (l ++ [o]) -> causal (l ++ [o]) ->
  chrono_inv l -> chrono_inv (l ++ [o]).
Proof.
  intros Hord Hnz Hcausal Hinv. pose proof (causal_last _ _ Hcausal) as Hlast.
  apply (proj1 (chrono_inv_agrees l)) in Hinv. apply (proj2 (chrono_inv_agrees (l ++ [o]))). rewrite chrono_snoc.
  destruct (chrono l) as [[s [c0|]] ap].
  - destruct (ty o) eqn:Hty; [apply chrono_step_create | apply chrono_step_update | apply chrono_step_full ..];
      try assumption; apply is_full_true; auto.
  - destruct Hinv as (-> & -> & Hnv). apply chrono_step_before_create; assumption.
Qed.

Lemma chrono_inv_all l :
  strictly_ordered l -> no_zero_reveal l -> causal l -> chrono_inv l.
Proof.
  induction l as [|o l IH] using rev_ind; intros Hord Hnz Hcausal.
  - unfold chrono_inv, chrono, no_valid_create. cbn. repeat split. constructor.
  - apply chrono_inv_snoc; try assumption. apply IH.
    + eapply strictly_ordered_prefix; exact Hord.
    + eapply nzr_prefix; exact Hnz.
    + eapply causal_prefix; exact Hcausal.
Qed.

(* C03.  On a strictly ordered, causal history Resolve computes exactly the chronological
   pass: same chosen create, same state, same (effective) applied operations, same errors. *)
Theorem resolve_core_is_chrono fops :
  strictly_ordered fops -> no_zero_reveal fops -> causal fops ->
  resolve_core fops = chrono_outcome fops.
Proof.
  intros Hord Hnz Hcausal. pose proof (chrono_inv_all _ Hord Hnz Hcausal) as Hinv.
  unfold chrono_inv, chrono_outcome in *. destruct (chrono fops) as [[s [c0|]] ap]; [exact Hinv|].
  destruct Hinv as (_ & _ & Hnv). apply resolve_core_no_valid_create. exact Hnv.
Qed.

(* the operations that took effect, in the order in which they were reached, create first *)
Definition took_effect (s : state) (o : aop) : bool :=
  match ty o with
  | Create => true
  | Update => reveal_c o =? upd s
  | Recover | Deactivate => reveal_c o =? rec s
  end && match apply o s with Some _ => true | None => false end.

Fixpoint taken (l : list aop) (s : state) : list aop :=
  match l with
  | [] => []
  | o :: r => if took_effect s o
              then o :: taken r (match apply o s with Some s' => s' | None => s end)
              else taken r s
  end.

Lemma chrono_step_state st o :
  fst (fst (chrono_step st o)) =
  if took_effect (fst (fst st)) o then match apply o (fst (fst st)) with Some s' => s' | None => fst (fst st) end
  else fst (fst st).
Proof.
  destruct st as [[s c] ap]. unfold chrono_step, took_effect, take. cbn [fst].
  destruct (ty o), (apply o s); try destruct (_ =? _); reflexivity.
Qed.

Lemma fold_chrono_state l : forall st,
  fold_apply (taken l (fst (fst st))) (fst (fst st)) = Some (fst (fst (fold_left chrono_step l st))).
Proof.
  induction l as [|o r IH]; intros st; [reflexivity|]. cbn [fold_left taken].
  rewrite <- IH, chrono_step_state. unfold took_effect.
  destruct (apply o (fst (fst st))) as [s'|] eqn:Ha; [|rewrite andb_false_r; reflexivity].
  rewrite andb_true_r.
  destruct (match ty o with Create => true | Update => reveal_c o =? upd (fst (fst st)) | _ => reveal_c o =? rec (fst (fst st)) end);
    [cbn [fold_apply]; rewrite Ha|]; reflexivity.
Qed.

(* the state of the chronological pass is the left fold of Apply over the operations that revealed
   the commitment in force, and were accepted, when they were reached *)
Theorem chrono_is_fold l : fold_apply (taken l init_state) init_state = Some (fst (fst (chrono l))).
Proof. exact (fold_chrono_state l (init_state, None, [])). Qed.

Corollary resolved_state_chronological fops c0 s ap :
  strictly_ordered fops -> no_zero_reveal fops -> causal fops ->
  resolve_core fops = inr (Some (c0, s, ap)) ->
  fold_apply (taken fops init_state) init_state = Some s /\ chrono fops = (s, Some c0, ap).
Proof.
  intros Hord Hnz Hcausal Hres. rewrite (resolve_core_is_chrono _ Hord Hnz Hcausal) in Hres.
  unfold chrono_outcome in Hres. pose proof (chrono_is_fold fops) as Hf.
  destruct (chrono fops) as [[s' [c|]] ap'] eqn:Ec; [|discriminate]. injection Hres as -> -> ->.
  split; [exact Hf | reflexivity].
Qed.

Lemma sorted_strict l : StronglySorted op_le l -> NoDup l -> key_inj l -> StronglySorted (fun a b => op_lt a b = true) l.
Proof.
  induction 1 as [|a r Hs IH Ha]; intros Hnd Hk; [constructor|].
  inversion Hnd as [|? ? Hni Hnd']; subst. constructor.
  - apply IH; [exact Hnd'|]. eapply key_inj_incl; [|exact Hk]. intros x Hx. right. exact Hx.
  - rewrite Forall_forall in *. intros x Hx. destruct (op_lt a x) eqn:E; [reflexivity|]. exfalso.
    apply Hni. rewrite (Hk a x (or_introl eq_refl) (or_intror Hx)); [exact Hx|].
    apply op_le_antisym; [apply Ha; exact Hx | exact E].
Qed.

Lemma strictly_ordered_app p u :
  StronglySorted (fun a b => op_lt a b = true) p -> Forall (fun o => published o = true) p ->
  Forall (fun o => published o = false) u -> strictly_ordered (p ++ u).
Proof. apply (published_first_sorted (fun a b => op_lt a b = true)). Qed.

(* what Resolve hands to its core (no options) is strictly ordered when the anchored operations
   of the store are pairwise distinct with distinct coordinates *)
Theorem prepared_strictly_ordered pub unpub :
  stores_ok pub unpub -> NoDup pub -> key_inj pub ->
  strictly_ordered (sort_ops pub ++ sort_ops unpub).
Proof.
  intros [Hp Hu] Hnd Hk. apply strictly_ordered_app.
  - apply sorted_strict; [apply sort_ops_sorted | |].
    + eapply Permutation_NoDup; [apply Permutation_sym, sort_ops_perm | exact Hnd].
    + eapply key_inj_perm; [apply Permutation_sym, sort_ops_perm | exact Hk].
  - apply Forall_sort_ops. exact Hp.
  - apply Forall_sort_ops. exact Hu.
Qed.

Corollary resolve_full_is_chrono pub unpub :
  stores_ok pub unpub -> NoDup pub -> key_inj pub ->
  no_zero_reveal (pub ++ unpub) -> causal (sort_ops pub ++ sort_ops unpub) ->
  resolve_full pub unpub no_opts = chrono_outcome (sort_ops pub ++ sort_ops unpub).
Proof.
  intros Hst Hnd Hk Hnz Hcausal. rewrite resolve_full_no_opts.
  apply resolve_core_is_chrono; [apply prepared_strictly_ordered; assumption | | exact Hcausal].
  eapply nzr_incl; [|exact Hnz]. intros x Hx. apply in_sorted_app, Hx.
Qed.

(* decision procedures for the hypotheses on concrete lists *)
Definition not_ahead_b (q o : aop) : bool :=
  (negb (is_full q) || (next_rec o =? 0) || negb (reveal_c q =? next_rec o)) &&
  (negb (is_ty Update q) || (next_upd o =? 0) || negb (reveal_c q =? next_upd o)).

Lemma not_ahead_b_ok q o : not_ahead_b q o = true -> not_ahead q o.
Proof.
  unfold not_ahead_b, not_ahead. intros H. apply andb_true_iff in H. destruct H as [H1 H2]. split.
  - intros Hf Hn. rewrite Hf in H1. apply Z.eqb_neq in Hn. rewrite Hn in H1. cbn in H1.
    apply negb_true_iff, Z.eqb_neq in H1. exact H1.
  - intros Hu Hn. apply is_ty_true in Hu. rewrite Hu in H2. apply Z.eqb_neq in Hn. rewrite Hn in H2. cbn in H2.
    apply negb_true_iff, Z.eqb_neq in H2. exact H2.
Qed.

Fixpoint causal_b (before : list aop) (l : list aop) : bool :=
  match l with
  | [] => true
  | o :: r => forallb (fun q => not_ahead_b q o) (before ++ [o]) && causal_b (before ++ [o]) r
  end.

Lemma causal_b_ok l : forall before, causal_b before l = true ->
  forall l1 o l2, l = l1 ++ o :: l2 -> forall q, In q (before ++ l1 ++ [o]) -> not_ahead q o.
Proof.
  induction l as [|x r IH]; intros before H l1 o l2 Hl q Hq; [destruct l1; discriminate|].
  cbn [causal_b] in H. apply andb_true_iff in H. destruct H as [H1 H2].
  destruct l1 as [|y l1']; cbn [app] in Hl; injection Hl as <- Hr.
  - apply not_ahead_b_ok. rewrite forallb_forall in H1. apply H1. exact Hq.
  - apply (IH _ H2 l1' o l2 Hr). rewrite <- app_assoc. exact Hq.
Qed.

Lemma causal_dec l : causal_b [] l = true -> causal l.
Proof. intros H l1 o l2 Hl q Hq. exact (causal_b_ok l [] H l1 o l2 Hl q Hq). Qed.

Definition proc_lt_b (a b : aop) : bool := negb (published b) || (published a && op_lt a b).
Fixpoint ordered_b (l : list aop) : bool :=
  match l with [] => true | a :: r => forallb (proc_lt_b a) r && ordered_b r end.

Lemma ordered_dec l : ordered_b l = true -> strictly_ordered l.
Proof.
  induction l as [|a r IH]; intros H; [constructor|]. cbn [ordered_b] in H. apply andb_true_iff in H.
  destruct H as [H1 H2]. constructor; [apply IH; exact H2|]. apply Forall_forall. intros x Hx Hp.
  rewrite forallb_forall in H1. specialize (H1 x Hx). unfold proc_lt_b in H1. rewrite Hp in H1. cbn in H1.
  apply andb_true_iff in H1. exact H1.
Qed.

Definition nzr_b (l : list aop) : bool := forallb (fun o => is_ty Create o || negb (reveal_c o =? 0)) l.
Lemma nzr_dec l : nzr_b l = true -> no_zero_reveal l.
Proof.
  unfold nzr_b, no_zero_reveal. rewrite forallb_forall, Forall_forall. intros H x Hx Hty. specialize (H x Hx).
  apply orb_true_iff in H. destruct H as [H|H]; [apply is_ty_true in H; contradiction|].
  apply negb_true_iff, Z.eqb_neq in H. exact H.
Qed.

(* (a) the fork of Earliest.v, in processing order: early (11,5), late (12,0), continuation of
   the winning branch, continuation of the losing branch, the unpublished competitor *)
Definition c_fork := [f_create; f_early; f_late; f_next42; f_next41; f_unpub].

Example c_fork_hyps : strictly_ordered c_fork /\ no_zero_reveal c_fork /\ causal c_fork.
Proof. split; [apply ordered_dec | split; [apply nzr_dec | apply causal_dec]]; vm_compute; reflexivity. Qed.

Example c_fork_chrono : chrono c_fork = (f_state, Some f_create, [f_early; f_next42]).
Proof. vm_compute. reflexivity. Qed.

Example c_fork_resolve : resolve_core c_fork = inr (Some (f_create, f_state, [f_early; f_next42])).
Proof.
  destruct c_fork_hyps as (H1 & H2 & H3). rewrite (resolve_core_is_chrono _ H1 H2 H3).
  unfold chrono_outcome. rewrite c_fork_chrono. reflexivity.
Qed.

Example c_fork_taken : taken c_fork init_state = [f_create; f_early; f_next42].
Proof. vm_compute. reflexivity. Qed.

(* (b) create, update, recover, update, deactivate, then operations after the deactivation;
   operations before the create and an invalid create in front *)
(* [xop 20 Create 8 0 0 120 60 61] with parse_ok := false *)
Definition c_bad_create :=
  {| oid := 20; ty := Create; time := 8; num := 0; cref := 20; mdelta := Some 7200;
     parse_ok := false; reveal_c := 0; sig_ok := true; sfx_ok := true; dhash_ok := true; dvalid := true;
     patch_ok := true; a_from := 5; a_until := 100; delta := 120; upd_c := 60; rec_c := 61; origin := 1 |}.
Definition c_life :=
  [c_bad_create; xop 21 Update 9 0 77 121 78 0; h_create; h_upd1; h_rec; h_upd2; n_deact;
   xop 8 Recover 20 0 31 108 26 33; xop 10 Create 22 0 0 110 28 34;
   unpublished (xop 11 Update 23 0 23 111 29 0)].

Example c_life_hyps : strictly_ordered c_life /\ no_zero_reveal c_life /\ causal c_life.
Proof. split; [apply ordered_dec | split; [apply nzr_dec | apply causal_dec]]; vm_compute; reflexivity. Qed.

Example c_life_agree : resolve_core c_life = chrono_outcome c_life.
Proof. destruct c_life_hyps as (H1 & H2 & H3). exact (resolve_core_is_chrono _ H1 H2 H3). Qed.

Example c_life_value :
  chrono c_life =
  ({| doc := Some []; upd := 0; rec := 0; deact := true; last_t := 14; last_n := 0;
      created := 10; updated := 14; vid := 7; canon := 3; aorigin := 1 |}, Some h_create, [h_rec; n_deact])
  /\ taken c_life init_state = [h_create; h_upd1; h_rec; h_upd2; n_deact].
Proof. vm_compute. split; reflexivity. Qed.

(* errors *)
Example c_no_create : resolve_core [h_upd1; h_rec] = chrono_outcome [h_upd1; h_rec] /\
                      chrono_outcome [h_upd1; h_rec] = inl ENoCreate.
Proof. vm_compute. split; reflexivity. Qed.

Example c_no_valid_create : resolve_core [c_bad_create; h_upd1] = chrono_outcome [c_bad_create; h_upd1] /\
                            chrono_outcome [c_bad_create; h_upd1] = inl ENoValidCreate.
Proof. vm_compute. split; reflexivity. Qed.

(* (c) causality is needed, also for fork-free histories.  Extend.v: k_orphan (anchored at 12)
   reveals 22; k_bridge (anchored at 13) reveals 21 and commits to 22.  No two operations reveal
   the same commitment.  Resolve follows the chain create -> h_upd1 -> k_bridge -> k_orphan,
   i.e. applies the operation anchored at 12 AFTER the one anchored at 13; the chronological pass
   skips k_orphan for good (22 was not in force when it was reached). *)
Definition c_out_of_order := [h_create; h_upd1; k_orphan; k_bridge].

Example needs_causal :
  strictly_ordered c_out_of_order /\ no_zero_reveal c_out_of_order /\
  NoDup (map reveal_c (filter (fun o => negb (is_ty Create o)) c_out_of_order)) /\
  ~ causal c_out_of_order /\
  (exists s, resolve_core c_out_of_order = inr (Some (h_create, s, [h_upd1; k_bridge; k_orphan])) /\ upd s = 23) /\
  (exists s, chrono c_out_of_order = (s, Some h_create, [h_upd1; k_bridge]) /\ upd s = 22).
Proof.
  split; [apply ordered_dec; vm_compute; reflexivity|]. split; [apply nzr_dec; vm_compute; reflexivity|].
  split; [vm_compute; repeat constructor; cbn; intuition discriminate|].
  split.
  - intros H. destruct (H [h_create; h_upd1; k_orphan] k_bridge [] eq_refl k_orphan) as [_ H2].
    + cbn. tauto.
    + apply H2; [reflexivity | vm_compute; discriminate | reflexivity].
  - split; eexists; vm_compute; split; reflexivity.
Qed.

Print Assumptions resolve_core_is_chrono.
Print Assumptions chrono_is_fold.
Print Assumptions resolved_state_chronological.
Print Assumptions prepared_strictly_ordered.
Print Assumptions resolve_full_is_chrono.
Print Assumptions update_snoc_inert.
Print Assumptions full_snoc_inert.
Print Assumptions create_snoc_inert.
Print Assumptions first_create_snoc.
