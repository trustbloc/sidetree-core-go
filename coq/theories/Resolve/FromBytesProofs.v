(* Proofs about Resolve/FromBytes.v: the table interning is injective on the strings it covers; the theorems of
   FromViewProofs.v that C01 / C11 rest on, for operations computed from BYTES; resolution cannot tell an operation
   from its normal form ([aop_norm]), hence operations that are equal up to it - what Corr/Bridge.v checks between
   the operation computed from the bytes and the operation the harness states - give the same resolution; a real
   operation (bytes of a generated case) for which the hypotheses hold. *)
From Coq Require Import String List ZArith Bool.
From SV Require Import Base.Bytes Base.BytesFacts Hash.Multihash Hash.MultihashProofs Jws.Compact
  Resolve.Op Parser.Accept Parser.AcceptProofs Parser.ViewOfBytes Parser.ViewOfBytesProofs
  Resolve.Apply Resolve.Process Resolve.Chain Resolve.Inert Resolve.Auth Resolve.Prepare Resolve.Spec
  Resolve.FromView Resolve.FromViewProofs Resolve.FromBytes.
Import ListNotations.
Local Open Scope list_scope.
Local Open Scope Z_scope.

Lemma intern_tbl_nil t : intern_tbl t [] = 0.
Proof. reflexivity. Qed.

Lemma is_empty_false (b : bytes) : is_empty b = false -> b <> [].
Proof. exact (SV.Parser.BuilderProofs.is_empty_false_inv b). Qed.

Lemma intern_tbl_lookup t b : b <> [] -> intern_tbl t b = tbl_lookup t b.
Proof. destruct b; [intros H; elim H; reflexivity | reflexivity]. Qed.

Lemma tbl_has_in t b : tbl_has t b = true <-> In b (tbl_keys t).
Proof.
  unfold tbl_has. rewrite existsb_exists. split.
  - intros (k & Hin & He). apply bytes_eqb_eq in He. subst k. exact Hin.
  - intros Hin. exists b. split; [exact Hin | apply bytes_eqb_refl].
Qed.

(* a key is looked up to the identifier of one of its entries *)
Lemma tbl_lookup_key t b : In b (tbl_keys t) -> In (b, tbl_lookup t b) t.
Proof.
  induction t as [|[k v] r IH]; cbn [tbl_keys map In tbl_lookup fst]; [intros []|].
  intros H. destruct (bytes_eqb k b) eqn:E.
  - apply bytes_eqb_eq in E. subst k. left. reflexivity.
  - right. apply IH. destruct H as [H|H]; [|exact H]. subst k. rewrite bytes_eqb_refl in E. discriminate E.
Qed.

Lemma tbl_lookup_absent t b : ~ In b (tbl_keys t) -> tbl_lookup t b = 0.
Proof.
  induction t as [|[k v] r IH]; cbn [tbl_keys map In tbl_lookup fst]; [reflexivity|].
  intros H. destruct (bytes_eqb k b) eqn:E.
  - apply bytes_eqb_eq in E. elim H. left. exact E.
  - apply IH. intros Hin. apply H. right. exact Hin.
Qed.

Lemma nodupZ_NoDup l : nodupZ l = true -> NoDup l.
Proof.
  induction l as [|x r IH]; cbn [nodupZ]; [constructor|].
  intros H. apply andb_true_iff in H. destruct H as [Hm Hr]. constructor; [|apply IH; exact Hr].
  intros Hin. apply memZ_In in Hin. rewrite Hin in Hm. discriminate Hm.
Qed.

(* two entries with the same identifier are the same entry when no identifier is used twice *)
Lemma nodup_ids_same_key t a b v : NoDup (tbl_ids t) -> In (a, v) t -> In (b, v) t -> a = b.
Proof.
  induction t as [|[k w] r IH]; cbn [tbl_ids map snd In]; [intros _ []|].
  intros Hnd Ha Hb. inversion Hnd as [|? ? Hnot Hnd']; subst.
  assert (Hin : forall x, In (x, v) r -> In v (tbl_ids r)) by (intros x Hx; apply (in_map snd) in Hx; exact Hx).
  destruct Ha as [Ha|Ha], Hb as [Hb|Hb].
  - inversion Ha; inversion Hb; subst. reflexivity.
  - inversion Ha; subst. elim Hnot. apply (Hin b). exact Hb.
  - inversion Hb; subst. elim Hnot. apply (Hin a). exact Ha.
  - apply IH; assumption.
Qed.

Lemma tbl_ok_parts t : tbl_ok t = true ->
  ~ In [] (tbl_keys t) /\ ~ In 0 (tbl_ids t) /\ NoDup (tbl_ids t).
Proof.
  unfold tbl_ok. intros H. apply andb_true_iff in H. destruct H as [H Hnd]. apply andb_true_iff in H. destruct H as [Hk Hz].
  split; [|split].
  - intros Hin. rewrite forallb_forall in Hk. specialize (Hk _ Hin). discriminate Hk.
  - intros Hin. apply memZ_In in Hin. rewrite Hin in Hz. discriminate Hz.
  - apply nodupZ_NoDup. exact Hnd.
Qed.

(* a key of the table is never named 0 *)
Theorem intern_tbl_nonzero t a : tbl_ok t = true -> In a (tbl_keys t) -> intern_tbl t a <> 0.
Proof.
  intros Hok Ha. destruct (tbl_ok_parts _ Hok) as (Hne & Hz & _).
  assert (Hnn : a <> []) by (intros ->; exact (Hne Ha)).
  rewrite (intern_tbl_lookup _ _ Hnn). intros H0. apply Hz.
  pose proof (tbl_lookup_key _ _ Ha) as Hin. rewrite H0 in Hin. apply (in_map snd) in Hin. exact Hin.
Qed.

(* injective on the keys present *)
Theorem intern_tbl_inj_on_keys t a b :
  tbl_ok t = true -> In a (tbl_keys t) -> In b (tbl_keys t) -> intern_tbl t a = intern_tbl t b -> a = b.
Proof.
  intros Hok Ha Hb He. destruct (tbl_ok_parts _ Hok) as (Hne & _ & Hnd).
  assert (Han : a <> []) by (intros ->; exact (Hne Ha)).
  assert (Hbn : b <> []) by (intros ->; exact (Hne Hb)).
  rewrite (intern_tbl_lookup _ _ Han), (intern_tbl_lookup _ _ Hbn) in He.
  pose proof (tbl_lookup_key _ _ Ha) as Ia. pose proof (tbl_lookup_key _ _ Hb) as Ib. rewrite He in Ia.
  exact (nodup_ids_same_key _ _ _ _ Hnd Ia Ib).
Qed.

(* a string outside the table is named like the empty string: the table says nothing about it *)
Lemma intern_tbl_absent t a : ~ In a (tbl_keys t) -> intern_tbl t a = 0.
Proof. intros H. destruct a; [reflexivity|]. cbn [intern_tbl]. apply tbl_lookup_absent. exact H. Qed.

Lemma tbl_covers_spec t a : tbl_covers t a = true <-> a = [] \/ In a (tbl_keys t).
Proof.
  unfold tbl_covers. rewrite orb_true_iff, tbl_has_in. split; intros [H|H]; auto.
  - left. destruct a; [reflexivity | discriminate H].
  - left. subst a. reflexivity.
Qed.

(* [intern_ok], restricted to the strings the table covers (the empty string and its keys).
   The unrestricted statement is false for every finite table: all absent strings are named 0. *)
Theorem intern_tbl_ok_on t :
  tbl_ok t = true ->
  intern_tbl t [] = 0 /\
  forall a b, tbl_covers t a = true -> tbl_covers t b = true -> intern_tbl t a = intern_tbl t b -> a = b.
Proof.
  intros Hok. split; [reflexivity|]. intros a b Ha Hb He.
  apply tbl_covers_spec in Ha. apply tbl_covers_spec in Hb.
  destruct Ha as [Ha|Ha], Hb as [Hb|Hb].
  - subst. reflexivity.
  - subst a. cbn [intern_tbl] in He. symmetry in He. elim (intern_tbl_nonzero _ _ Hok Hb He).
  - subst b. cbn [intern_tbl] in He. elim (intern_tbl_nonzero _ _ Hok Ha He).
  - exact (intern_tbl_inj_on_keys _ _ _ Hok Ha Hb He).
Qed.

(* soundness of authorisation (FromViewProofs.authorised_view_sound) for the operation computed from the request
   bytes [b]: everything the conclusion says about the view is said about [view_of_request b valid origin], i.e.
   about what encoding/json, go-jose and the canonicaliser make of [b] *)
Theorem authorised_bytes_sound p b valid origin kf crypto_ok patch_applies c intern :
  let o := aop_of_bytes p b valid origin kf crypto_ok patch_applies c intern in
  let v := view_of_request b valid origin in
  let s := rv_signed v in
  let k := jwk_of_view (sv_key s) kf in
  ty o <> Create -> well_signed o ->
  rv_len v = Z.of_nat (length b) /\
  rv_len v <= pp_max_op_size p /\ rv_schema_ok v = true /\ rv_struct_ok v = true /\
  signed_rules p v /\
  (ty o = Update -> hash_field_ok p (sv_delta_hash s)) /\
  (ty o = Recover ->
     hash_field_ok p (sv_delta_hash s) /\ hash_field_ok p (sv_recovery_commitment s) /\
     exists code c', get_multihash_code (sv_recovery_commitment s) = Some code /\
                     get_commitment (jv_canonical (sv_key s)) code = Some c' /\ c' <> sv_recovery_commitment s) /\
  (ty o = Deactivate -> sv_did_suffix s = rv_did_suffix v) /\
  (exists code kc, get_multihash_code (rv_reveal v) = Some code /\
                   get_commitment (jv_canonical (sv_key s)) code = Some kc /\ reveal_c o = intern kc) /\
  exists payload sig msg,
    parse_compact (sv_compact s) (sv_hdr s) = Some (payload, sig) /\ signing_input (sv_hdr s) payload = Some msg /\
    crypto_ok = true /\ jwk_decodes k = true /\ payload <> [] /\ sig <> [] /\
    h_json_ok (sv_hdr s) = true /\ h_has_alg (sv_hdr s) = true /\ h_b64 (sv_hdr s) <> B64NotBool /\
    ((eqs (k_kty k) "EC" = true /\ exists n, ec_key_size (k_crv k) = Some n /\ Z.of_nat (length sig) = 2 * n)
     \/ (eqs (k_kty k) "EC" = false /\ eqs (k_kty k) "OKP" = true)).
Proof.
  cbv zeta. intros Hty Hw. split; [apply (view_schema b valid origin)|].
  exact (authorised_view_sound p (view_of_request b valid origin) kf crypto_ok patch_applies c intern Hty Hw).
Qed.

Corollary authorised_bytes_well_signed p b valid origin kf crypto_ok patch_applies c intern :
  let o := aop_of_bytes p b valid origin kf crypto_ok patch_applies c intern in
  ty o <> Create -> authorised o = true -> well_signed o /\ (ty o = Deactivate -> sfx_ok o = true).
Proof. exact (authorised_view_well_signed p (view_of_request b valid origin) kf crypto_ok patch_applies c intern). Qed.

(* whatever the bytes are: if the primitive refuses the signature, the operation is never applied *)
Theorem forged_bytes_never_applies p b valid origin kf patch_applies c intern s :
  ty (aop_of_bytes p b valid origin kf false patch_applies c intern) <> Create ->
  apply (aop_of_bytes p b valid origin kf false patch_applies c intern) s = None.
Proof. intros Hty. apply forged_view_never_applies. exact Hty. Qed.

(* ... and the same when the key inside the signed data does not decode *)
Theorem undecodable_key_never_applies p b valid origin kf crypto_ok patch_applies c intern s :
  let o := aop_of_bytes p b valid origin kf crypto_ok patch_applies c intern in
  ty o <> Create ->
  jwk_decodes (jwk_of_view (sv_key (rv_signed (view_of_request b valid origin))) kf) = false ->
  apply o s = None.
Proof.
  cbv zeta. intros Hty Hk. apply unauthorised_never_applies.
  destruct (authorised (aop_of_bytes p b valid origin kf crypto_ok patch_applies c intern)) eqn:Ha; [|reflexivity].
  destruct (authorised_bytes_well_signed p b valid origin kf crypto_ok patch_applies c intern Hty Ha) as (Hw & _).
  destruct (authorised_bytes_sound p b valid origin kf crypto_ok patch_applies c intern Hty Hw)
    as (_ & _ & _ & _ & _ & _ & _ & _ & _ & (payload & sig & msg & _ & _ & _ & Hd & _)).
  rewrite Hd in Hk. discriminate Hk.
Qed.

(* the table names the commitment of every accepted non-create operation by a non-zero number, provided the table
   covers the operation's commitment strings (Corr/Bridge.v checks that per case) *)
Theorem parsed_bytes_reveal_named p b valid origin kf crypto_ok patch_applies c t :
  let v := view_of_request b valid origin in
  tbl_ok t = true -> forallb (tbl_covers t) (commitments_of_view v) = true ->
  ty_of_view v <> Create -> view_parse_ok p v = true ->
  reveal_c (aop_of_bytes p b valid origin kf crypto_ok patch_applies c (intern_tbl t)) <> 0.
Proof.
  cbv zeta. set (v := view_of_request b valid origin). intros Hok Hcov Hty Hp.
  destruct (parsed_view_commitment p v Hty Hp) as (code & kc & _ & _ & Hcr & Hne).
  unfold aop_of_bytes. fold v. cbn [reveal_c aop_of_view]. rewrite Hcr. cbn [intern_opt].
  unfold commitments_of_view in Hcov. rewrite Hcr in Hcov. cbn [forallb] in Hcov.
  apply andb_true_iff in Hcov. destruct Hcov as (Hkc & _). apply tbl_covers_spec in Hkc.
  destruct Hkc as [Hkc|Hkc]; [contradiction|]. apply intern_tbl_nonzero; assumption.
Qed.

(* at the level of the processor: every non-create operation that resolution of stored bytes applies is the image of
   a stored operation whose signature the primitive accepted and whose key decodes *)
Theorem resolve_bytes_applied_signed p intern pub unpub c0 s ap :
  resolve_full (map (aop_of_stored p intern) pub) (map (aop_of_stored p intern) unpub) no_opts = inr (Some (c0, s, ap)) ->
  Forall (fun o => exists so, In so (pub ++ unpub) /\ o = aop_of_stored p intern so /\ ty o <> Create /\
                              so_crypto_ok so = true /\
                              jwk_decodes (jwk_of_view (sv_key (rv_signed (view_of_request (so_bytes so) (so_valid so) (so_origin so))))
                                                       (so_kf so)) = true) ap.
Proof.
  rewrite resolve_full_no_opts. intros H.
  destruct (resolve_core_applied_in _ _ _ _ H) as (_ & _ & Hin).
  destruct (resolve_core_applied_authorised _ _ _ _ H) as (_ & Hau).
  rewrite Forall_forall in *. intros o Ho. destruct (Hin _ Ho) as (Hi & Hty). specialize (Hau _ Ho).
  apply (proj1 (in_sorted_app _ _ _)) in Hi. rewrite <- map_app in Hi. apply in_map_iff in Hi. destruct Hi as (so & Hso & Hmem).
  exists so. split; [exact Hmem|]. split; [symmetry; exact Hso|]. split; [exact Hty|]. subst o.
  unfold aop_of_stored in Hty, Hau.
  destruct (authorised_bytes_well_signed p _ _ _ _ _ _ _ intern Hty Hau) as (Hw & _).
  destruct (authorised_bytes_sound p _ _ _ _ _ _ _ intern Hty Hw)
    as (_ & _ & _ & _ & _ & _ & _ & _ & _ & (payload & sig & msg & _ & _ & Hc & Hd & _)).
  split; assumption.
Qed.

(* every field the processor selects, orders or names operations by is kept *)
Lemma norm_keeps_selection o :
  oid (aop_norm o) = oid o /\ ty (aop_norm o) = ty o /\ time (aop_norm o) = time o /\ num (aop_norm o) = num o /\
  cref (aop_norm o) = cref o /\ mdelta (aop_norm o) = mdelta o /\ parse_ok (aop_norm o) = parse_ok o /\
  reveal_c (aop_norm o) = reveal_c o /\ upd_c (aop_norm o) = upd_c o /\ rec_c (aop_norm o) = rec_c o /\
  origin (aop_norm o) = origin o.
Proof. repeat split. Qed.

(* "when the delta hash does not match the other delta verdicts are irrelevant to apply", "a create's signature
   verdict is irrelevant", ... all at once: Apply computes the same from an operation and from its normal form *)
Theorem apply_norm o s : apply (aop_norm o) s = apply o s.
Proof.
  destruct o as [i t tm n cr md po rc so sx dh dv pk af au dl uc rcc og].
  unfold apply, aop_norm, apply_create, apply_update, apply_recover, apply_deactivate, op_in_window.
  cbn [oid ty time num cref mdelta parse_ok reveal_c sig_ok sfx_ok dhash_ok dvalid patch_ok a_from a_until delta upd_c rec_c origin].
  destruct md; [|reflexivity]. destruct t, (doc s), po, so, dh; reflexivity.
Qed.

Lemma authorised_norm o : authorised (aop_norm o) = authorised o.
Proof.
  unfold authorised. cbn [aop_norm parse_ok ty sig_ok sfx_ok].
  destruct (ty o), (sig_ok o); reflexivity.
Qed.

Lemma aop_norm_idem o : aop_norm (aop_norm o) = aop_norm o.
Proof.
  destruct o as [i t tm n cr md po rc so sx dh dv pk af au dl uc rcc og].
  unfold aop_norm. cbn [oid ty time num cref mdelta parse_ok reveal_c sig_ok sfx_ok dhash_ok dvalid patch_ok a_from a_until delta upd_c rec_c origin].
  destruct t, so, dh; cbn [optype_eqb negb andb orb]; reflexivity.
Qed.

(* The processor reads an operation through the fields of [norm_keeps_selection] and through Apply only.  Stated for
   any [f] with these two properties, then instantiated with [aop_norm]. *)
Section Simulation.
  Variable f : aop -> aop.
  Hypothesis f_oid : forall o, oid (f o) = oid o.
  Hypothesis f_ty : forall o, ty (f o) = ty o.
  Hypothesis f_time : forall o, time (f o) = time o.
  Hypothesis f_num : forall o, num (f o) = num o.
  Hypothesis f_cref : forall o, cref (f o) = cref o.
  Hypothesis f_mdelta : forall o, mdelta (f o) = mdelta o.
  Hypothesis f_parse : forall o, parse_ok (f o) = parse_ok o.
  Hypothesis f_reveal : forall o, reveal_c (f o) = reveal_c o.
  Hypothesis f_upd : forall o, upd_c (f o) = upd_c o.
  Hypothesis f_rec : forall o, rec_c (f o) = rec_c o.
  Hypothesis f_apply : forall o s, apply (f o) s = apply o s.

  Lemma sim_next_c o : next_c (f o) = next_c o.
  Proof. unfold next_c. rewrite f_ty, f_upd, f_rec. reflexivity. Qed.

  Lemma sim_published o : published (f o) = published o.
  Proof. unfold published. rewrite f_cref. reflexivity. Qed.

  Lemma sim_op_lt a b : op_lt (f a) (f b) = op_lt a b.
  Proof. unfold op_lt. rewrite !f_time, !f_num. reflexivity. Qed.

  Lemma sim_is_ty t o : is_ty t (f o) = is_ty t o.
  Proof. unfold is_ty. rewrite f_ty. reflexivity. Qed.

  Lemma sim_is_full o : is_full (f o) = is_full o.
  Proof. unfold is_full. rewrite !sim_is_ty. reflexivity. Qed.

  Lemma filter_map_pres (q : aop -> bool) l : (forall o, q (f o) = q o) -> filter q (map f l) = map f (filter q l).
  Proof.
    intros Hq. induction l as [|x r IH]; [reflexivity|]. cbn [map filter]. rewrite Hq, IH. destruct (q x); reflexivity.
  Qed.

  Lemma sim_insert x l : insert op_lt (f x) (map f l) = map f (insert op_lt x l).
  Proof.
    induction l as [|y r IH]; [reflexivity|]. cbn [map insert]. rewrite sim_op_lt, IH. destruct (op_lt y x); reflexivity.
  Qed.

  Lemma sim_sort l : sort_ops (map f l) = map f (sort_ops l).
  Proof.
    unfold sort_ops. induction l as [|x r IH]; [reflexivity|]. cbn [map isort]. rewrite IH. apply sim_insert.
  Qed.

  Lemma sim_existsb_cref o l : existsb (fun q => cref q =? cref (f o)) (map f l) = existsb (fun q => cref q =? cref o) l.
  Proof.
    induction l as [|y r IH]; [reflexivity|]. cbn [map existsb]. rewrite IH, !f_cref. reflexivity.
  Qed.

  Lemma sim_merge orig adds : forall pub unpub,
    merge_additional (map f orig) (map f pub) (map f unpub) (map f adds)
    = (map f (fst (merge_additional orig pub unpub adds)), map f (snd (merge_additional orig pub unpub adds))).
  Proof.
    induction adds as [|o r IH]; intros pub unpub; [reflexivity|]. cbn [map merge_additional].
    rewrite sim_existsb_cref, f_cref. destruct (cref o =? 0).
    - rewrite <- (IH pub (unpub ++ [o])). rewrite map_app. reflexivity.
    - destruct (existsb (fun q => cref q =? cref o) orig); [apply IH|].
      rewrite <- (IH (pub ++ [o]) unpub). rewrite map_app. reflexivity.
  Qed.

  Lemma sim_prefix v l : prefix_through v (map f l) = option_map (map f) (prefix_through v l).
  Proof.
    induction l as [|o r IH]; [reflexivity|]. cbn [map prefix_through]. rewrite f_cref, IH.
    destruct (cref o =? v); [reflexivity|]. destruct (prefix_through v r); reflexivity.
  Qed.

  Lemma sim_filter_time t l : filter_time t (map f l) = map f (filter_time t l).
  Proof. unfold filter_time. apply filter_map_pres. intros o. rewrite f_time. reflexivity. Qed.

  Definition map_sum (x : rerr + list aop) : rerr + list aop :=
    match x with inl e => inl e | inr l => inr (map f l) end.

  Lemma sim_filter_ops vid vt adds adds' l :
    filter_ops {| o_vid := vid; o_vtime := vt; o_additional := adds' |} (map f l)
    = map_sum (filter_ops {| o_vid := vid; o_vtime := vt; o_additional := adds |} l).
  Proof.
    unfold filter_ops. cbn [o_vid o_vtime]. destruct (negb (vid =? 0)).
    - rewrite sim_prefix. destruct (prefix_through vid l); reflexivity.
    - destruct vt as [t|]; [|reflexivity]. rewrite sim_filter_time. destruct (filter_time t l); reflexivity.
  Qed.

  Definition map_opts (o : ropts) : ropts :=
    {| o_vid := o_vid o; o_vtime := o_vtime o; o_additional := map f (o_additional o) |}.

  Definition map_prep (x : rerr + (list aop * list aop * list aop)) : rerr + (list aop * list aop * list aop) :=
    match x with
    | inl e => inl e
    | inr (a, b, c) => inr (map f a, map f b, map f c)
    end.

  Lemma sim_prepare pub unpub opts :
    prepare (map f pub) (map f unpub) (map_opts opts) = map_prep (prepare pub unpub opts).
  Proof.
    unfold prepare. cbn [map_opts o_additional]. rewrite sim_merge.
    destruct (merge_additional pub pub unpub (o_additional opts)) as [pub0 unpub0]. cbn [fst snd].
    rewrite !sim_sort, <- map_app.
    destruct opts as [vid vt adds]. cbn [o_additional].
    rewrite (sim_filter_ops vid vt adds (map f adds)).
    destruct (filter_ops {| o_vid := vid; o_vtime := vt; o_additional := adds |} (sort_ops pub0 ++ sort_ops unpub0)) as [e|fops];
      cbn [map_sum map_prep]; [reflexivity|].
    rewrite !map_length. destruct (Nat.eqb (length fops) (length (sort_ops pub0 ++ sort_ops unpub0))); cbn [map_prep].
    - reflexivity.
    - rewrite (filter_map_pres published) by (intros o; apply sim_published).
      rewrite (filter_map_pres (fun o => negb (published o))) by (intros o; rewrite sim_published; reflexivity).
      reflexivity.
  Qed.

  Lemma sim_first_valid_create l :
    first_valid_create (map f l) = option_map (fun x => (f (fst x), snd x)) (first_valid_create l).
  Proof.
    induction l as [|o r IH]; [reflexivity|]. cbn [map first_valid_create]. rewrite f_apply, IH.
    destruct (apply o init_state); reflexivity.
  Qed.

  Lemma sim_candidates c ops : candidates c (map f ops) = map f (candidates c ops).
  Proof.
    unfold candidates. apply filter_map_pres. intros o. unfold has_proto.
    rewrite f_parse, sim_is_ty, f_mdelta, f_reveal. reflexivity.
  Qed.

  Lemma sim_first_valid cands s curr consumed :
    first_valid (map f cands) s curr consumed = option_map (fun x => (f (fst x), snd x)) (first_valid cands s curr consumed).
  Proof.
    induction cands as [|o r IH]; [reflexivity|]. cbn [map first_valid]. rewrite sim_next_c, f_apply, IH.
    destruct (curr =? next_c o); [reflexivity|].
    destruct (negb (next_c o =? 0) && memZ (next_c o) consumed); [reflexivity|].
    destruct (apply o s); reflexivity.
  Qed.

  Definition map_chain (x : option (state * list Z * list aop)) : option (state * list Z * list aop) :=
    match x with
    | Some (s, cs, ap) => Some (s, cs, map f ap)
    | None => None
    end.

  Lemma sim_chain sel ops : forall fuel s consumed,
    chain fuel sel (map f ops) s consumed = map_chain (chain fuel sel ops s consumed).
  Proof.
    induction fuel as [|n IH]; intros s consumed; rewrite !chain_unfold, sim_candidates, sim_first_valid;
      (destruct (first_valid (candidates (sel s) ops) s (sel s) consumed) as [[o' s']|]; [|reflexivity]);
      cbn [option_map fst snd]; (destruct (sel s' =? 0); [reflexivity|]); [reflexivity|].
    rewrite IH. destruct (chain n sel ops s' (consumed ++ [sel s])) as [[[s'' cs] ap]|]; reflexivity.
  Qed.

  Lemma sim_run_chain sel ops s :
    run_chain sel (map f ops) s = option_map (fun x => (fst x, map f (snd x))) (run_chain sel ops s).
  Proof.
    unfold run_chain. rewrite map_length, sim_chain.
    destruct (chain (length ops) sel ops s []) as [[[s' cs] ap]|]; reflexivity.
  Qed.

  Definition map_core (x : rerr + option (aop * state * list aop)) : rerr + option (aop * state * list aop) :=
    match x with
    | inl e => inl e
    | inr None => inr None
    | inr (Some (c0, s, ap)) => inr (Some (f c0, s, map f ap))
    end.

  Lemma sim_resolve_core fops : resolve_core (map f fops) = map_core (resolve_core fops).
  Proof.
    unfold resolve_core, creates_published_first.
    rewrite !(filter_map_pres (is_ty Create)) by (intros o; apply sim_is_ty).
    rewrite !(filter_map_pres (is_ty Update)) by (intros o; apply sim_is_ty).
    rewrite !(filter_map_pres is_full) by (intros o; apply sim_is_full).
    rewrite !(filter_map_pres published) by (intros o; apply sim_published).
    rewrite (filter_map_pres (fun o => negb (published o))) by (intros o; rewrite sim_published; reflexivity).
    rewrite <- map_app.
    destruct (filter published (filter (is_ty Create) fops) ++ filter (fun o => negb (published o)) (filter (is_ty Create) fops))
      as [|c r] eqn:Ecr; [reflexivity|].
    cbn [map]. change (f c :: map f r) with (map f (c :: r)). rewrite sim_first_valid_create.
    destruct (first_valid_create (c :: r)) as [[c0 s0]|]; [|reflexivity]. cbn [option_map fst snd].
    rewrite sim_run_chain. destruct (run_chain rec (filter is_full fops) s0) as [[s1 ap1]|]; [|reflexivity].
    cbn [option_map fst snd]. destruct (deact s1); [reflexivity|].
    rewrite (filter_map_pres (op_after (last_t s1) (last_n s1)))
      by (intros o; unfold op_after; rewrite sim_published, f_time, f_num; reflexivity).
    rewrite sim_run_chain. destruct (run_chain upd _ s1) as [[s2 ap2]|]; [|reflexivity].
    cbn [option_map fst snd map_core]. rewrite map_app. reflexivity.
  Qed.

  Lemma map_oid l : map oid (map f l) = map oid l.
  Proof. rewrite map_map. apply map_ext. exact f_oid. Qed.

  Theorem sim_resolve pub unpub opts :
    resolve (map f pub) (map f unpub) (map_opts opts) = resolve pub unpub opts.
  Proof.
    unfold resolve. rewrite sim_prepare. destruct (prepare pub unpub opts) as [e|[[rpub runpub] fops]]; [reflexivity|].
    cbn [map_prep]. rewrite sim_resolve_core. destruct (resolve_core fops) as [e|[[[c0 s] ap]|]]; cbn [map_core]; try reflexivity.
    rewrite !map_oid. reflexivity.
  Qed.
End Simulation.

Definition norm_opts (o : ropts) : ropts :=
  {| o_vid := o_vid o; o_vtime := o_vtime o; o_additional := map aop_norm (o_additional o) |}.

(* the outcome of processor.Resolve (state, errors, returned operation lists, applied operations) is the same for a
   store content and for its normal form *)
Theorem resolve_norm pub unpub opts :
  resolve (map aop_norm pub) (map aop_norm unpub) (norm_opts opts) = resolve pub unpub opts.
Proof.
  apply (sim_resolve aop_norm); try (intros o; reflexivity). exact apply_norm.
Qed.

(* equality up to the normal form, as Corr/Bridge.v checks it *)
Lemma optype_eqb_eq a b : optype_eqb a b = true -> a = b.
Proof. destruct a, b; (reflexivity || discriminate). Qed.

Lemma optZ_eqb_eq a b : optZ_eqb a b = true -> a = b.
Proof.
  destruct a as [x|], b as [y|]; cbn [optZ_eqb]; try discriminate; [|reflexivity].
  intros H. apply Z.eqb_eq in H. subst. reflexivity.
Qed.

Theorem aop_eqb_eq a b : aop_eqb a b = true -> a = b.
Proof.
  destruct a as [i t tm n cr md po rc so sx dh dv pk af au dl uc rcc og].
  destruct b as [i' t' tm' n' cr' md' po' rc' so' sx' dh' dv' pk' af' au' dl' uc' rcc' og'].
  unfold aop_eqb, aop_fields.
  cbn [forallb snd oid ty time num cref mdelta parse_ok reveal_c sig_ok sfx_ok dhash_ok dvalid patch_ok a_from a_until delta upd_c rec_c origin].
  intros H.
  repeat match type of H with
         | (_ && _) = true => let H1 := fresh "E" in apply andb_true_iff in H; destruct H as [H1 H]
         end.
  repeat match goal with
         | E : (_ =? _) = true |- _ => apply Z.eqb_eq in E
         | E : Bool.eqb _ _ = true |- _ => apply eqb_prop in E
         | E : optype_eqb _ _ = true |- _ => apply optype_eqb_eq in E
         | E : optZ_eqb _ _ = true |- _ => apply optZ_eqb_eq in E
         end.
  subst. reflexivity.
Qed.

Lemma aop_eqb_refl a : aop_eqb a a = true.
Proof.
  unfold aop_eqb, aop_fields. cbn [forallb snd]. rewrite !Z.eqb_refl, !eqb_reflx.
  destruct (ty a), (mdelta a) as [d|]; cbn [optype_eqb optZ_eqb andb]; try rewrite Z.eqb_refl; reflexivity.
Qed.

(* the relation Corr/Bridge.v establishes, case by case, between the operation computed from the bytes and the
   operation the harness states *)
Definition eq_upto_norm (a b : aop) : Prop := aop_eqb (aop_norm a) (aop_norm b) = true.

Lemma forall2_upto_norm l l' : Forall2 eq_upto_norm l l' -> map aop_norm l = map aop_norm l'.
Proof.
  induction 1 as [|a b l l' Hab _ IH]; [reflexivity|]. cbn [map]. rewrite IH, (aop_eqb_eq _ _ Hab). reflexivity.
Qed.

(* histories whose operations agree pairwise up to the normal form resolve identically: comparing modulo
   [aop_norm] loses nothing that resolution could observe *)
Theorem resolve_eq_upto_norm pub pub' unpub unpub' opts opts' :
  Forall2 eq_upto_norm pub pub' -> Forall2 eq_upto_norm unpub unpub' ->
  o_vid opts = o_vid opts' -> o_vtime opts = o_vtime opts' ->
  Forall2 eq_upto_norm (o_additional opts) (o_additional opts') ->
  resolve pub unpub opts = resolve pub' unpub' opts'.
Proof.
  intros Hp Hu Hv Ht Ha.
  rewrite <- (resolve_norm pub unpub opts), <- (resolve_norm pub' unpub' opts').
  rewrite (forall2_upto_norm _ _ Hp), (forall2_upto_norm _ _ Hu).
  unfold norm_opts. rewrite Hv, Ht, (forall2_upto_norm _ _ Ha). reflexivity.
Qed.

(* the statement behind the differential check: if every stored operation of a history passes the comparison of
   Corr/Bridge.v against the operation the harness states for it, then the processor model run on the BYTES
   ([resolve_bytes]) and the processor model run on the harness's statements (what the correspondences C01-C06 / C12
   compare with the real processor) give the same outcome *)
Theorem bridge_checked_history p intern pub unpub (o : bopts) spub sunpub sadd :
  Forall2 (fun so st => eq_upto_norm (aop_of_stored p intern so) st) pub spub ->
  Forall2 (fun so st => eq_upto_norm (aop_of_stored p intern so) st) unpub sunpub ->
  Forall2 (fun so st => eq_upto_norm (aop_of_stored p intern so) st) (bo_additional o) sadd ->
  resolve_bytes p intern pub unpub o
  = resolve spub sunpub {| o_vid := bo_vid o; o_vtime := bo_vtime o; o_additional := sadd |}.
Proof.
  intros Hp Hu Ha. unfold resolve_bytes.
  assert (Hmap : forall l sl, Forall2 (fun so st => eq_upto_norm (aop_of_stored p intern so) st) l sl ->
                              Forall2 eq_upto_norm (map (aop_of_stored p intern) l) sl).
  { induction 1; cbn [map]; constructor; assumption. }
  apply resolve_eq_upto_norm; try reflexivity; cbn [ropts_of_bopts o_additional]; apply Hmap; assumption.
Qed.

(* [authorised_bytes_sound]: the real update, computed from its bytes, is a well-signed non-create operation *)
Example exb_update_well_signed :
  let o := aop_of_bytes exb_proto exb_update_request [true] true {| kf_on_curve := false; kf_jose_ok := true |} true true
                        (so_coords exb_update) exb_intern in
  ty o <> Create /\ well_signed o.
Proof.
  change (aop_of_bytes _ _ _ _ _ _ _ _ _) with (aop_of_stored exb_proto exb_intern exb_update). rewrite exb_update_is.
  split; [discriminate | split; reflexivity].
Qed.

(* type and parser verdict are read off the view; stated over variables so that using it evaluates nothing *)
Lemma aop_of_stored_verdicts p intern so :
  ty_of_view (view_of_request (so_bytes so) (so_valid so) (so_origin so)) = ty (aop_of_stored p intern so) /\
  view_parse_ok p (view_of_request (so_bytes so) (so_valid so) (so_origin so)) = parse_ok (aop_of_stored p intern so).
Proof. unfold aop_of_stored, aop_of_bytes. cbn [ty parse_ok aop_of_view]. split; reflexivity. Qed.

Lemma exb_update_view :
  ty_of_view (view_of_request exb_update_request [true] true) = Update /\
  view_parse_ok exb_proto (view_of_request exb_update_request [true] true) = true.
Proof. pose proof (aop_of_stored_verdicts exb_proto exb_intern exb_update) as H. rewrite exb_update_is in H. exact H. Qed.

(* [parsed_bytes_reveal_named] and [intern_tbl_ok_on]: the table is well formed and covers the operation *)
Example exb_reveal_named :
  let v := view_of_request exb_update_request [true] true in
  tbl_ok exb_table = true /\ forallb (tbl_covers exb_table) (commitments_of_view v) = true /\
  ty_of_view v <> Create /\ view_parse_ok exb_proto v = true.
Proof.
  cbv zeta. split; [exact (proj1 (proj1 (pair_equal_spec _ _ _ _) exb_table_ok))|]. split; [vm_compute; reflexivity|].
  destruct exb_update_view as [-> ->]. split; [discriminate | reflexivity].
Qed.

(* [forged_bytes_never_applies]: the operation is not a create *)
Example exb_forged_hypothesis :
  ty (aop_of_bytes exb_proto exb_update_request [true] true {| kf_on_curve := false; kf_jose_ok := true |} false true
                   (so_coords exb_update) exb_intern) <> Create.
Proof. cbn [ty aop_of_bytes aop_of_view]. rewrite (proj1 exb_update_view). discriminate. Qed.

(* [resolve_bytes_applied_signed]: the history resolves and applies the update *)
Example exb_applied :
  exists c0 s, resolve_full (map (aop_of_stored exb_proto exb_intern) [exb_update; exb_create]) (map (aop_of_stored exb_proto exb_intern) []) no_opts
               = inr (Some (c0, s, [exb_update_real])).
Proof. eexists. eexists. cbn [map]. rewrite exb_update_is, exb_create_is. vm_compute. reflexivity. Qed.

(* [bridge_checked_history]: the operations computed from the bytes equal, up to the normal form, the operations the
   harness states (which differ from them in sig_ok of the create and sfx_ok of the update) *)
Example exb_checked :
  Forall2 (fun so st => eq_upto_norm (aop_of_stored exb_proto exb_intern so) st) [exb_update; exb_create] [exb_update_stated; exb_create_stated]
  /\ aop_of_stored exb_proto exb_intern exb_update <> exb_update_stated
  /\ aop_of_stored exb_proto exb_intern exb_create <> exb_create_stated.
Proof.
  split.
  - constructor; [rewrite exb_update_is | constructor; [rewrite exb_create_is | constructor]]; reflexivity.
  - rewrite exb_update_is, exb_create_is. split; discriminate.
Qed.

Example exb_same_resolution :
  resolve_bytes exb_proto exb_intern [exb_update; exb_create] [] exb_no_opts
  = resolve [exb_update_stated; exb_create_stated] [] no_opts.
Proof.
  apply (bridge_checked_history exb_proto exb_intern [exb_update; exb_create] [] exb_no_opts
           [exb_update_stated; exb_create_stated] [] []); [apply exb_checked | constructor | constructor].
Qed.
