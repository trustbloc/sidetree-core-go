(* Non-vacuity: concrete histories that satisfy the hypotheses of the resolution theorems. *)
From Coq Require Import List ZArith.
From SV Require Import Resolve.Op Resolve.Process Resolve.Order Resolve.Inert Resolve.Auth Resolve.Terminal
  Resolve.Version Resolve.Refine.
Import ListNotations.
Local Open Scope Z_scope.

(* id (also the canonical reference) type time number ; reveal ; signature verdict ; delta content,
   update / recovery commitment; 7200 = 2 * 60 * 60 is the MaxOperationTimeDelta of
   pkg/mocks/protocol.go *)
Definition mk (i : Z) (t : optype) (tm nm : Z) (rv : Z) (sg : bool) (dl u r : Z) : aop :=
  {| oid := i; ty := t; time := tm; num := nm; cref := i; mdelta := Some 7200;
     parse_ok := true; reveal_c := rv; sig_ok := sg; sfx_ok := true; dhash_ok := true; dvalid := true;
     patch_ok := true; a_from := 0; a_until := 0; delta := dl; upd_c := u; rec_c := r; origin := 1 |}.

Definition ex_create := mk 1 Create 10 0 0 true 101 20 30.
Definition ex_upd1 := mk 2 Update 11 0 20 true 102 21 0.
Definition ex_forged := mk 3 Update 12 0 21 false 900 99 0.      (* reveals the right key, bad signature *)
Definition ex_upd2 := mk 4 Update 13 0 21 true 103 22 0.
Definition ex_fork := mk 5 Update 14 0 21 true 104 98 0.        (* valid, but anchored later than ex_upd2 *)
Definition ex_recover := mk 6 Recover 15 0 30 true 105 23 31.
Definition ex_create2 := mk 7 Create 16 0 0 true 777 20 30.      (* later create *)
Definition ex_deact := mk 8 Deactivate 17 0 31 true 0 0 0.
Definition ex_late := mk 9 Update 18 0 23 true 106 24 0.

Definition ex_hist := [ex_create; ex_upd1; ex_forged; ex_upd2; ex_fork; ex_recover; ex_create2].

Example ex_resolves :
  resolve_full ex_hist [] no_opts =
  inr (Some (ex_create,
             {| doc := Some [105]; upd := 23; rec := 31; deact := false; last_t := 15; last_n := 0;
                created := 10; updated := 15; vid := 6; canon := 6; aorigin := 1 |},
             [ex_recover])).
Proof. vm_compute. reflexivity. Qed.

Example ex_before_recover :
  match resolve_full [ex_create; ex_upd1; ex_forged; ex_upd2; ex_fork] [] no_opts with
  | inr (Some (_, s, ap)) => doc s = Some [101; 102; 103] /\ upd s = 22 /\ ap = [ex_upd1; ex_upd2]
  | _ => False
  end.
Proof. vm_compute. auto. Qed.

Example ex_key_inj : key_inj ex_hist.
Proof. apply key_inj_dec. reflexivity. Qed.

(* forged_ops_inert applies: dropping the forged operation leaves the result unchanged *)
Definition ex_q (o : aop) : bool := negb (oid o =? 3).
Example ex_forged_inert :
  (forall o, In o (ex_hist ++ []) -> ex_q o = false -> ty o <> Create /\ authorised o = false) /\
  resolve_full (filter ex_q ex_hist) (filter ex_q []) no_opts = resolve_full ex_hist [] no_opts.
Proof.
  refine ((fun H => conj H (forged_ops_inert ex_q ex_hist [] ex_key_inj (fun a b F => False_ind _ F) H)) _).
  intros o Ho Hq. cbn in Ho.
  repeat (destruct Ho as [<-|Ho]; [first [discriminate Hq | split; [discriminate | reflexivity]]|]).
  destruct Ho.
Qed.

(* a deactivated DID ignores a later update *)
Definition ex_hist_deact := [ex_create; ex_upd1; ex_recover; ex_deact].
Example ex_deactivated :
  match resolve_full ex_hist_deact [] no_opts with
  | inr (Some (_, s, _)) => deact s = true /\ doc s = Some [] /\ upd s = 0 /\ rec s = 0
  | _ => False
  end /\
  resolve_full (ex_hist_deact ++ [ex_late]) [] no_opts = resolve_full ex_hist_deact [] no_opts.
Proof. vm_compute. auto. Qed.

(* versioned resolution *)
Example ex_version_time :
  resolve_full ex_hist [] (at_time 13) = resolve_full [ex_create; ex_upd1; ex_forged; ex_upd2] [] no_opts
  /\ resolve_full ex_hist [] (at_time 5) = inl ENoOpsForTime
  /\ resolve_full ex_hist [] (at_id 4) = resolve_full [ex_create; ex_upd1; ex_forged; ex_upd2] [] no_opts
  /\ resolve_full ex_hist [] (at_id 55) = inl EBadVersionId.
Proof. vm_compute. auto. Qed.

(* the reference machine reaches the same state *)
Example ex_reach : exists s, Reach ex_hist s /\ doc s = Some [105].
Proof.
  eexists. split.
  - eapply resolve_refines_spec; [|exact ex_resolves].
    unfold no_zero_reveal. repeat constructor; cbn; intros; try discriminate; congruence.
  - reflexivity.
Qed.
