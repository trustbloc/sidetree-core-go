(* C03: the code-shaped resolution functions refine the reference state machine of Spec.v.
   Spec.v has [step] and [run]; [Reach], which puts the first create and the two runs together
   over the filters of Process.v, is defined here. *)
From Coq Require Import List ZArith Bool.
From SV Require Import Resolve.Op Resolve.Apply Resolve.ApplyFacts Resolve.Process Resolve.ProcessFacts
  Resolve.Spec Resolve.Chain Resolve.Core Resolve.Inert Resolve.Terminal.
Import ListNotations.
Local Open Scope Z_scope.

Lemma op_in_window_inside o : op_in_window o = true <-> inside_window o.
Proof.
  unfold op_in_window, inside_window. destruct (mdelta o) as [d|].
  - split; [intros H; exists d; auto | intros (d' & Hd & H); inversion Hd; subst; exact H].
  - split; [discriminate | intros (d' & Hd & _); discriminate].
Qed.

Lemma not_true_false b : b <> true <-> b = false.
Proof. apply not_true_iff_false. Qed.

(* the verdicts of Spec.v are the booleans of the closed form of Apply *)
Lemma usable_iff o : usable o = true <-> delta_usable o.
Proof. apply andb_true_iff. Qed.

Lemma effective_iff o : effective o = true <-> delta_takes_effect o.
Proof. unfold effective, delta_takes_effect. rewrite andb_true_iff, op_in_window_inside. reflexivity. Qed.

Lemma not_usable o : ~ delta_usable o -> usable o = false.
Proof. rewrite <- usable_iff. apply not_true_is_false. Qed.

Lemma not_effective o : ~ delta_takes_effect o -> effective o = false.
Proof. rewrite <- effective_iff. apply not_true_is_false. Qed.

Theorem apply_step o s s' : apply o s = Some s' -> step s o s'.
Proof.
  intros Ha. apply apply_some in Ha. destruct Ha as [Hacc ->]. apply accepts_iff in Hacc.
  destruct Hacc as (Hv & Hp & Hacc). change (has_version o) in Hv.
  pose proof (usable_iff o) as Hu. pose proof (effective_iff o) as He.
  assert (Hdn : ty o <> Create -> doc s <> None /\ well_signed o).
  { unfold well_signed. destruct (ty o); [congruence | tauto | tauto | tauto]. }
  destruct (ty o) eqn:Hty; [|destruct Hdn as [Hdn Hws]; [discriminate|] ..].
  - rewrite (post_ty _ _ _ Hty). cbn [post_of]. destruct (usable o); cbn [andb].
    + apply proj1 in Hu. specialize (Hu eq_refl).
      destruct (patch_ok o) eqn:Hpo; [apply step_create | apply step_create_patch_fails];
        unfold stamped; cbn; auto.
    + apply step_create_bad_delta; unfold stamped; cbn; auto. rewrite <- Hu. discriminate.
  - assert (Hdu : delta_usable o) by (split; apply Hacc).
    destruct (doc s) as [d|] eqn:Hd; [|congruence]. rewrite (post_ty _ _ _ Hty). cbn [post_of]. rewrite Hd. cbn [option_map].
    destruct (effective o).
    + apply proj1 in He. specialize (He eq_refl). eapply step_update; unfold stamped; cbn; eauto.
    + eapply step_update_no_effect; unfold stamped; cbn; eauto. rewrite <- He. discriminate.
  - rewrite (post_ty _ _ _ Hty). cbn [post_of]. destruct (usable o); cbn [andb].
    + apply proj1 in Hu. specialize (Hu eq_refl). destruct (effective o).
      * apply proj1 in He. specialize (He eq_refl). apply step_recover; unfold stamped; cbn; auto.
      * apply step_recover_no_effect; unfold stamped; cbn; auto. rewrite <- He. discriminate.
    + apply step_recover_bad_delta; unfold stamped; cbn; auto. rewrite <- Hu. discriminate.
  - rewrite (post_ty _ _ _ Hty). apply step_deactivate; unfold stamped; cbn; auto; [apply Hacc|].
    apply op_in_window_inside, Hacc.
Qed.

Theorem step_apply s o s' : step s o s' -> apply o s = Some s'.
Proof.
  intros H. apply apply_some.
  destruct H as [s o s' Hd Hty Hv Hp Hnu Hst | s o s' Hd Hty Hv Hp Hu Hpo Hst | s o s' Hd Hty Hv Hp Hu Hpo Hst
                | s o s' d Hd Hty Hv Hws Hu He Hst | s o s' d Hd Hty Hv Hws Hu He Hst
                | s o s' Hd Hty Hv Hws Hnu Hst | s o s' Hd Hty Hv Hws Hu He Hst | s o s' Hd Hty Hv Hws Hu He Hst
                | s o s' Hd Hty Hv Hws Hsfx Hw Hst];
    destruct Hst as (? & ? & ?); (split; [apply accepts_iff; rewrite Hty|]).
  - auto.
  - rewrite (post_ty _ _ _ Hty). cbn [post_of]. rewrite (not_usable _ Hnu). apply state_eta; cbn; congruence.
  - auto.
  - rewrite (post_ty _ _ _ Hty). cbn [post_of]. rewrite (proj2 (usable_iff o) Hu), Hpo. apply state_eta; cbn; congruence.
  - auto.
  - rewrite (post_ty _ _ _ Hty). cbn [post_of]. rewrite (proj2 (usable_iff o) Hu), Hpo. apply state_eta; cbn; congruence.
  - destruct Hws, Hu. rewrite Hd. repeat split; congruence.
  - rewrite (post_ty _ _ _ Hty). cbn [post_of]. rewrite Hd, (proj2 (effective_iff o) He). apply state_eta; cbn; congruence.
  - destruct Hws, Hu. rewrite Hd. repeat split; congruence.
  - rewrite (post_ty _ _ _ Hty). cbn [post_of]. rewrite Hd, (not_effective _ He). apply state_eta; cbn; congruence.
  - destruct Hws. auto.
  - rewrite (post_ty _ _ _ Hty). cbn [post_of]. rewrite (not_usable _ Hnu). apply state_eta; cbn; congruence.
  - destruct Hws. auto.
  - rewrite (post_ty _ _ _ Hty). cbn [post_of]. rewrite (proj2 (usable_iff o) Hu), (not_effective _ He). apply state_eta; cbn; congruence.
  - destruct Hws. auto.
  - rewrite (post_ty _ _ _ Hty). cbn [post_of]. rewrite (proj2 (usable_iff o) Hu), (proj2 (effective_iff o) He).
    apply state_eta; cbn; congruence.
  - destruct Hws. apply op_in_window_inside in Hw. auto 6.
  - rewrite (post_ty _ _ _ Hty). apply state_eta; cbn; congruence.
Qed.

Theorem step_iff_apply s o s' : step s o s' <-> apply o s = Some s'.
Proof. split; [apply step_apply | apply apply_step]. Qed.

Theorem step_deterministic s o s1 s2 : step s o s1 -> step s o s2 -> s1 = s2.
Proof. intros H1 H2. apply step_apply in H1, H2. congruence. Qed.

Lemma eligible_iff sel s consumed o :
  eligible sel s consumed o <-> cand_pred (sel s) o = true /\ skipped o s (sel s) consumed = false.
Proof.
  unfold eligible. rewrite cand_pred_iff, skipped_false_iff. split.
  - intros (Hty & Hp & Hv & Hr & Hn & Hf & s' & Hs). apply step_apply in Hs. eauto 10.
  - intros ((Hty & Hp & Hv & Hr) & Hn & Hf & s' & Ha). apply apply_step in Ha. eauto 10.
Qed.

(* the operation chosen by applyFirstValidOperation is the first eligible one in processing order *)
Lemma first_valid_first_eligible sel s consumed ops o s' :
  first_valid (candidates (sel s) ops) s (sel s) consumed = Some (o, s') ->
  exists before after, ops = before ++ o :: after /\
    (forall x, In x before -> ~ eligible sel s consumed x) /\ eligible sel s consumed o /\ step s o s'.
Proof.
  rewrite candidates_is_filter. induction ops as [|x r IH]; [discriminate|]. cbn [filter].
  destruct (cand_pred (sel s) x) eqn:Ep.
  - rewrite first_valid_cons. destruct (skipped x s (sel s) consumed) eqn:Es.
    + intros H. destruct (IH H) as (b & a & -> & Hb & He & Hst). exists (x :: b), a.
      split; [reflexivity|]. split; [|split; assumption].
      intros y [<-|Hy]; [|auto]. rewrite eligible_iff. intros [_ ?]; congruence.
    + destruct (apply x s) eqn:Ea; [|discriminate]. intros H; inversion H; subst.
      exists [], r. split; [reflexivity|]. split; [intros ? []|]. split; [apply eligible_iff; auto | apply apply_step; exact Ea].
  - intros H. destruct (IH H) as (b & a & -> & Hb & He & Hst). exists (x :: b), a.
    split; [reflexivity|]. split; [|split; assumption].
    intros y [<-|Hy]; [|auto]. rewrite eligible_iff. intros [? _]; congruence.
Qed.

Lemma first_valid_none_no_eligible sel s consumed ops :
  first_valid (candidates (sel s) ops) s (sel s) consumed = None ->
  forall o, In o ops -> ~ eligible sel s consumed o.
Proof.
  rewrite candidates_is_filter. induction ops as [|x r IH]; [intros _ ? []|]. cbn [filter].
  destruct (cand_pred (sel s) x) eqn:Ep.
  - rewrite first_valid_cons. destruct (skipped x s (sel s) consumed) eqn:Es.
    + intros H o [<-|Ho]; [rewrite eligible_iff; intros [_ ?]; congruence | apply IH; assumption].
    + apply skipped_false_iff in Es. destruct Es as (_ & _ & s1 & ->). discriminate.
  - intros H o [<-|Ho]; [rewrite eligible_iff; intros [? _]; congruence | apply IH; assumption].
Qed.

Lemma no_eligible_at_zero sel s consumed ops :
  no_zero_reveal ops -> sel s = 0 -> forall o, In o ops -> ~ eligible sel s consumed o.
Proof. intros Hnz Hz o Ho (Hty & _ & _ & Hr & _). apply (nzr_in _ _ Hnz Ho Hty). congruence. Qed.

(* soundness: what applyOperations computes is a run of the reference machine *)
Theorem crun_refines_run sel ops s cs s' cs' ap :
  no_zero_reveal ops -> crun sel ops s cs s' cs' ap -> run sel ops s cs s'.
Proof.
  intros Hnz. induction 1 as [s cs Hf | s cs o s1 Hf H0 | s cs o s1 s' cs' ap Hf H0 Hc IH].
  - apply run_stop. apply first_valid_none_no_eligible. exact Hf.
  - destruct (first_valid_first_eligible _ _ _ _ _ _ Hf) as (b & a & Hops & Hb & He & Hst).
    eapply run_step; eauto. apply run_stop. apply no_eligible_at_zero; assumption.
  - destruct (first_valid_first_eligible _ _ _ _ _ _ Hf) as (b & a & Hops & Hb & He & Hst).
    eapply run_step; eauto.
Qed.

Lemma run_chain_refines sel ops s s' ap :
  no_zero_reveal ops -> run_chain sel ops s = Some (s', ap) -> run sel ops s [] s'.
Proof.
  intros Hnz H. apply run_chain_crun in H. destruct H as (cs & H & _). eapply crun_refines_run; eassumption.
Qed.

Lemma first_split_unique {A} (P : A -> Prop) : forall b1 b2 o1 o2 a1 a2,
  b1 ++ o1 :: a1 = b2 ++ o2 :: a2 ->
  (forall x, In x b1 -> ~ P x) -> P o1 -> (forall x, In x b2 -> ~ P x) -> P o2 ->
  b1 = b2 /\ o1 = o2 /\ a1 = a2.
Proof.
  induction b1 as [|x r IH]; intros b2 o1 o2 a1 a2 He H1 Ho1 H2 Ho2; destruct b2 as [|y t]; cbn [app] in He.
  - inversion He; auto.
  - inversion He; subst. elim (H2 y (or_introl eq_refl)). exact Ho1.
  - inversion He; subst. elim (H1 o2 (or_introl eq_refl)). exact Ho2.
  - inversion He; subst. destruct (IH t o1 o2 a1 a2 H3) as (-> & -> & ->); auto.
    + intros z Hz. apply H1. right. exact Hz.
    + intros z Hz. apply H2. right. exact Hz.
Qed.

Theorem run_deterministic sel ops s consumed s1 :
  run sel ops s consumed s1 -> forall s2, run sel ops s consumed s2 -> s1 = s2.
Proof.
  induction 1 as [s consumed Hnone | s consumed b o a s' s'' Hops Hb He Hst Hrun IH]; intros s2 H2.
  - inversion H2; subst; [reflexivity|]. exfalso. apply (Hnone o); [|assumption]. apply in_or_app. right. left. reflexivity.
  - inversion H2; subst.
    + exfalso. apply (H o); [|assumption]. apply in_or_app. right. left. reflexivity.
    + destruct (first_split_unique (eligible sel s consumed) _ _ _ _ _ _ H Hb He H0 H1) as (-> & -> & ->).
      rewrite (step_deterministic _ _ _ _ Hst H3) in *. apply IH. assumption.
Qed.

Definition first_create (fops : list aop) (c0 : aop) (s0 : state) : Prop :=
  exists before after,
    creates_published_first (filter (is_ty Create) fops) = before ++ c0 :: after /\
    (forall c, In c before -> ~ exists s, step init_state c s) /\ step init_state c0 s0.

(* [fops]: the operations of the DID in processing order (published ones chronologically, then
   unpublished ones).  The DID resolves to [s]. *)
Definition Reach (fops : list aop) (s : state) : Prop :=
  exists c0 s0 s1,
    first_create fops c0 s0 /\
    run rec (filter is_full fops) s0 [] s1 /\
    (if deact s1 then s = s1
     else run upd (filter (op_after (last_t s1) (last_n s1)) (filter (is_ty Update) fops)) s1 [] s).

Theorem resolve_refines_spec fops c0 s ap :
  no_zero_reveal fops ->
  resolve_core fops = inr (Some (c0, s, ap)) -> Reach fops s.
Proof.
  intros Hnz H. apply resolve_core_some in H. destruct H as (s0 & s1 & ap1 & ap2 & (Hfc & Hr1 & Hr2) & _).
  exists c0, s0, s1. split; [|split].
  - apply first_valid_create_some in Hfc. destruct Hfc as (b & a & Hl & Hb & Hc). exists b, a.
    split; [exact Hl|]. split; [|apply apply_step; exact Hc].
    intros c Hin [st Hst]. apply step_apply in Hst. rewrite Forall_forall in Hb. rewrite (Hb c Hin) in Hst. discriminate.
  - eapply run_chain_refines; [apply nzr_filter; exact Hnz | exact Hr1].
  - destruct (deact s1); [apply Hr2|]. eapply run_chain_refines; [apply nzr_filter, nzr_filter; exact Hnz | exact Hr2].
Qed.

Theorem reach_deterministic fops s s' : Reach fops s -> Reach fops s' -> s = s'.
Proof.
  intros (c0 & s0 & s1 & (b & a & Hl & Hb & Hs0) & Hr1 & Hr2) (c0' & s0' & s1' & (b' & a' & Hl' & Hb' & Hs0') & Hr1' & Hr2').
  rewrite Hl in Hl'.
  destruct (first_split_unique (fun c => exists st, step init_state c st) _ _ _ _ _ _ Hl' Hb (ex_intro _ s0 Hs0) Hb' (ex_intro _ s0' Hs0'))
    as (-> & -> & ->).
  rewrite (step_deterministic _ _ _ _ Hs0 Hs0') in *.
  rewrite (run_deterministic _ _ _ _ _ Hr1 _ Hr1') in *.
  destruct (deact s1'); [congruence|]. eapply run_deterministic; eassumption.
Qed.

(* completeness: every state the reference machine reaches is what Resolve returns *)
Theorem spec_refines_resolve fops s :
  no_zero_reveal fops -> Reach fops s ->
  exists c0 ap, resolve_core fops = inr (Some (c0, s, ap)).
Proof.
  intros Hnz HR.
  destruct (resolve_core fops) as [e|[[[c0 st] ap]|]] eqn:Hr.
  - exfalso. destruct HR as (c0 & s0 & s1 & (b & a & Hl & Hb & Hs0) & _).
    apply resolve_core_err in Hr. destruct Hr as [Hn _]. apply first_valid_create_none in Hn.
    rewrite Hl in Hn. apply Forall_app in Hn. destruct Hn as [_ Hn]. inversion Hn; subst.
    apply step_apply in Hs0. congruence.
  - exists c0, ap. pose proof (resolve_refines_spec _ _ _ _ Hnz Hr) as HR'.
    rewrite (reach_deterministic _ _ _ HR HR'). reflexivity.
  - exfalso. eapply resolve_core_total; exact Hr.
Qed.
