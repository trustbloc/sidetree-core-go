(* The preparation phase of Resolve (merge, sort, filter) and store-order invariance (C02).
   [resolve_full] in terms of [resolve_core]: without options [resolve_full_no_opts] here, with
   options Version.resolve_full_eq and Earliest.resolve_full_prepared; [resolve] in terms of
   [resolve_full]: Extend.resolve_of_full, IntakeTerminal.resolve_full_of_resolve. *)
From Coq Require Import List ZArith Bool Permutation.
From SV Require Import Resolve.Op Resolve.Process Resolve.Order.
Import ListNotations.
Local Open Scope Z_scope.

Definition added_pub (orig adds : list aop) : list aop :=
  filter (fun o => negb (cref o =? 0) && negb (existsb (fun q => cref q =? cref o) orig)) adds.
Definition added_unpub (adds : list aop) : list aop := filter (fun o => cref o =? 0) adds.

Lemma merge_additional_spec orig adds : forall pub unpub,
  merge_additional orig pub unpub adds = (pub ++ added_pub orig adds, unpub ++ added_unpub adds).
Proof.
  induction adds as [|o r IH]; intros pub unpub; cbn [merge_additional added_pub added_unpub filter].
  - rewrite !app_nil_r. reflexivity.
  - destruct (cref o =? 0) eqn:E0; cbn [negb andb].
    + rewrite IH. unfold added_pub, added_unpub. rewrite <- app_assoc. reflexivity.
    + destruct (existsb (fun q => cref q =? cref o) orig) eqn:Ee; cbn [negb].
      * apply IH.
      * rewrite IH. unfold added_pub, added_unpub. rewrite <- app_assoc. reflexivity.
Qed.

Lemma existsb_perm {A} (f : A -> bool) l l' : Permutation l l' -> existsb f l = existsb f l'.
Proof.
  induction 1; cbn [existsb]; try reflexivity.
  - rewrite IHPermutation. reflexivity.
  - destruct (f x), (f y); reflexivity.
  - congruence.
Qed.

Lemma added_pub_perm orig orig' adds : Permutation orig orig' -> added_pub orig adds = added_pub orig' adds.
Proof.
  intros Hp. unfold added_pub. apply filter_ext. intros o. rewrite (existsb_perm _ _ _ Hp). reflexivity.
Qed.

(* the prepared lists do not depend on the order in which the stores return their content *)
Theorem prepare_perm_invariant pub pub' unpub unpub' opts :
  Permutation pub pub' -> Permutation unpub unpub' ->
  key_inj (pub ++ added_pub pub (o_additional opts)) ->
  key_inj (unpub ++ added_unpub (o_additional opts)) ->
  prepare pub unpub opts = prepare pub' unpub' opts.
Proof.
  intros Hp Hu Hkp Hku. unfold prepare. rewrite !merge_additional_spec.
  rewrite <- (added_pub_perm _ _ _ Hp).
  rewrite <- (sort_ops_perm_invariant (pub ++ added_pub pub (o_additional opts))
                (pub' ++ added_pub pub (o_additional opts))) by (auto using Permutation_app_tail).
  rewrite <- (sort_ops_perm_invariant (unpub ++ added_unpub (o_additional opts))
                (unpub' ++ added_unpub (o_additional opts))) by (auto using Permutation_app_tail).
  reflexivity.
Qed.

Theorem resolve_perm_invariant pub pub' unpub unpub' opts :
  Permutation pub pub' -> Permutation unpub unpub' ->
  key_inj (pub ++ added_pub pub (o_additional opts)) ->
  key_inj (unpub ++ added_unpub (o_additional opts)) ->
  resolve pub unpub opts = resolve pub' unpub' opts.
Proof.
  intros. unfold resolve. erewrite prepare_perm_invariant; eauto.
Qed.

Lemma prepare_no_opts pub unpub :
  prepare pub unpub no_opts = inr (sort_ops pub, sort_ops unpub, sort_ops pub ++ sort_ops unpub).
Proof.
  unfold prepare, no_opts. cbn [o_additional merge_additional filter_ops o_vid o_vtime Z.eqb negb].
  rewrite Nat.eqb_refl. reflexivity.
Qed.

Lemma resolve_full_no_opts pub unpub :
  resolve_full pub unpub no_opts = resolve_core (sort_ops pub ++ sort_ops unpub).
Proof. unfold resolve_full. rewrite prepare_no_opts. reflexivity. Qed.

Lemma resolve_full_published pub : resolve_full pub [] no_opts = resolve_core (sort_ops pub).
Proof. rewrite resolve_full_no_opts. apply f_equal, app_nil_r. Qed.

Lemma resolve_full_filter_no_opts (q : aop -> bool) pub unpub :
  key_inj pub -> key_inj unpub ->
  resolve_full (filter q pub) (filter q unpub) no_opts = resolve_core (filter q (sort_ops pub ++ sort_ops unpub)).
Proof.
  intros Hp Hu. rewrite resolve_full_no_opts, filter_app, !sort_ops_filter by assumption. reflexivity.
Qed.

Lemma in_sorted_app pub unpub o : In o (sort_ops pub ++ sort_ops unpub) <-> In o (pub ++ unpub).
Proof.
  rewrite !in_app_iff. split; intros [H|H]; [left|right|left|right];
    (eapply Permutation_in; [| exact H]); try apply sort_ops_perm; apply Permutation_sym, sort_ops_perm.
Qed.
