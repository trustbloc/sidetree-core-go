(* Proofs about the bridge Resolve/FromView.v (C01 / C10 / C11):
   (a) soundness of authorisation: an operation the resolution model treats as authorised satisfies
       the signed-request rules of the parser and the signature primitive accepted the signing input
       under the key whose hash is the reveal value ([authorised_view_sound]);
   (b) requests built by the client builder from valid inputs are "good" operations
       ([built_update_good], [built_recover_good], [built_deactivate_good]) and reveal the commitment
       of the signing key ([built_reveal_c]);
   (c) composed with Resolve/Extend.v: such a request, anchored after everything else inside its
       window on a DID whose commitment in force is the commitment of the signing key, changes the
       resolved state to exactly the intended one ([built_update_takes_effect],
       [built_recover_takes_effect], [built_deactivate_takes_effect]). *)
From Coq Require Import String List ZArith NArith Bool Lia.
From Coq.Strings Require Import Byte.
From SV Require Import Base.Bytes Base.BytesFacts Hash.B64 Hash.Varint Hash.Sha2 Hash.Multihash Hash.MultihashProofs Jws.Compact Jws.CompactProofs
  Resolve.Op Parser.Window Parser.Accept Parser.AcceptProofs Parser.Builder Parser.BuilderProofs
  Parser.ViewOfBytes Parser.ViewOfBytesProofs
  Resolve.Apply Resolve.ApplyFacts Resolve.Process Resolve.Order Resolve.Inert Resolve.Auth Resolve.Spec Resolve.Extend Resolve.FromView.
Import ListNotations.
Local Open Scope string_scope.
Local Open Scope list_scope.
Local Open Scope Z_scope.

(* ------------------------------------------------------------------------------------------ *)
(* 1. Interning                                                                                *)
(* ------------------------------------------------------------------------------------------ *)

Lemma intern_std_nonneg b : 0 <= intern_std b.
Proof. induction b as [|x r IH]; cbn [intern_std]; lia. Qed.

Lemma intern_std_inj : forall a b, intern_std a = intern_std b -> a = b.
Proof.
  induction a as [|x r IH]; intros [|y t] H; cbn [intern_std] in H.
  - reflexivity.
  - pose proof (intern_std_nonneg t). lia.
  - pose proof (intern_std_nonneg r). lia.
  - pose proof (to_N_lt x) as Bx. pose proof (to_N_lt y) as By.
    assert (Hr : intern_std r = intern_std t) by lia.
    assert (Hx : Byte.to_N x = Byte.to_N y) by lia.
    rewrite (byte_to_N_inj _ _ Hx), (IH _ Hr). reflexivity.
Qed.

Theorem intern_std_ok : intern_ok intern_std.
Proof. split; [reflexivity | exact intern_std_inj]. Qed.

Lemma intern_nonzero intern b : intern_ok intern -> b <> [] -> intern b <> 0.
Proof. intros [H0 Hinj] Hb Hz. apply Hb. apply Hinj. rewrite Hz, H0. reflexivity. Qed.

Lemma intern_neq intern a b : intern_ok intern -> a <> b -> intern a <> intern b.
Proof. intros [_ Hinj] Hne Heq. apply Hne, Hinj, Heq. Qed.

(* ------------------------------------------------------------------------------------------ *)
(* 2. Operation type and parse verdict                                                         *)
(* ------------------------------------------------------------------------------------------ *)

Lemma ty_create v : rv_type v = bytes_of_string "create" -> ty_of_view v = Create.
Proof. intros H. unfold ty_of_view. rewrite H. reflexivity. Qed.
Lemma ty_update v : rv_type v = bytes_of_string "update" -> ty_of_view v = Update.
Proof. intros H. unfold ty_of_view. rewrite H. reflexivity. Qed.
Lemma ty_recover v : rv_type v = bytes_of_string "recover" -> ty_of_view v = Recover.
Proof. intros H. unfold ty_of_view. rewrite H. reflexivity. Qed.
Lemma ty_deactivate v : rv_type v = bytes_of_string "deactivate" -> ty_of_view v = Deactivate.
Proof. intros H. unfold ty_of_view. rewrite H. reflexivity. Qed.

Lemma ty_of_view_typed v s t :
  rv_type v = bytes_of_string s -> ty_of_view {| rv_len := 0; rv_schema_ok := true; rv_type := bytes_of_string s;
    rv_struct_ok := true; rv_did_suffix := []; rv_reveal := []; rv_signed_data := []; rv_signed := no_signed;
    rv_delta := no_delta; rv_suffix := no_suffix |} = t -> ty_of_view v = t.
Proof. intros H <-. unfold ty_of_view. rewrite H. reflexivity. Qed.

Lemma is_some_true {A} (o : option A) : is_some o = true -> exists x, o = Some x.
Proof. destruct o as [x|]; [eauto | discriminate]. Qed.

(* the signed-request rules are checked in batch mode too (the *_accept_implies_rules theorems of
   AcceptProofs are about intake mode, batch = false) *)
Lemma signed_prefix_struct p v : signed_prefix p v = true -> rv_struct_ok v = true.
Proof. unfold signed_prefix. rewrite !andb_true_iff. intros H. apply H. Qed.

Lemma update_batch_rules p t v o :
  parse_update p true t v = Some o ->
  rv_struct_ok v = true /\ signed_rules p v /\ hash_field_ok p (sv_delta_hash (rv_signed v)) /\
  o = {| po_ty := Update; po_suffix := rv_did_suffix v; po_reveal := rv_reveal v |}.
Proof.
  rewrite parse_update_eq, if_some_iff. cbn [orb]. rewrite !andb_true_iff. intros [(((Hpre & Hdh) & _) & Hr) [= <-]].
  split; [exact (signed_prefix_struct _ _ Hpre)|]. split; [exact (signed_prefix_rules _ _ Hpre Hr)|].
  split; [apply validate_multihash_ok, Hdh | reflexivity].
Qed.

Lemma recover_batch_rules p t v o :
  parse_recover p true t v = Some o ->
  rv_struct_ok v = true /\ signed_rules p v /\ hash_field_ok p (sv_delta_hash (rv_signed v)) /\
  hash_field_ok p (sv_recovery_commitment (rv_signed v)) /\
  (exists code c, get_multihash_code (sv_recovery_commitment (rv_signed v)) = Some code /\
                  get_commitment (jv_canonical (sv_key (rv_signed v))) code = Some c /\
                  c <> sv_recovery_commitment (rv_signed v)) /\
  o = {| po_ty := Recover; po_suffix := rv_did_suffix v; po_reveal := rv_reveal v |}.
Proof.
  rewrite parse_recover_eq, if_some_iff. cbn [orb]. rewrite !andb_true_iff. intros [(((((Hpre & Hrc) & Hdh) & Hc) & _) & Hr) [= <-]].
  split; [exact (signed_prefix_struct _ _ Hpre)|]. split; [exact (signed_prefix_rules _ _ Hpre Hr)|].
  split; [apply validate_multihash_ok, Hdh|]. split; [apply validate_multihash_ok, Hrc|].
  split; [apply validate_commitment_spec, Hc | reflexivity].
Qed.

Lemma deactivate_batch_rules p t v o :
  parse_deactivate p true t v = Some o ->
  rv_struct_ok v = true /\ signed_rules p v /\ sv_did_suffix (rv_signed v) = rv_did_suffix v /\
  o = {| po_ty := Deactivate; po_suffix := rv_did_suffix v; po_reveal := rv_reveal v |}.
Proof.
  rewrite parse_deactivate_eq, if_some_iff. cbn [orb]. rewrite !andb_true_iff, bytes_eqb_eq. intros [(((Hpre & He) & Hr) & _) [= <-]].
  split; [exact (signed_prefix_struct _ _ Hpre)|]. split; [exact (signed_prefix_rules _ _ Hpre Hr)|]. split; [exact He | reflexivity].
Qed.

(* what [parse_ok] of the bridge means for a non-create operation: the size gate, the schema check and
   the per-type parser (the one Apply runs) all passed *)
Theorem parse_ok_noncreate_implies_typed p v :
  ty_of_view v <> Create -> view_parse_ok p v = true ->
  rv_len v <= pp_max_op_size p /\ rv_schema_ok v = true /\
  let o := {| po_ty := ty_of_view v; po_suffix := rv_did_suffix v; po_reveal := rv_reveal v |} in
  parse_operation p true true v = Some o /\
  match ty_of_view v with
  | Update => parse_update p true true v = Some o
  | Recover => parse_recover p true true v = Some o
  | Deactivate => parse_deactivate p true true v = Some o
  | Create => False
  end.
Proof.
  intros Hty Hp. unfold view_parse_ok in Hp.
  assert (Hs : is_some (parse_operation p true true v) = true) by (destruct (ty_of_view v); [contradiction | | |]; exact Hp).
  apply is_some_true in Hs. destruct Hs as [o Ho].
  split; [eapply accepted_request_within_size; exact Ho|].
  destruct (parse_operation_dispatch _ _ _ _ _ Ho) as (Hsch & Hd). split; [exact Hsch|].
  cbv zeta. destruct Hd as [[E P]|[[E P]|[[E P]|[E P]]]]; apply eqs_eq in E.
  - elim Hty. apply ty_create, E.
  - rewrite (ty_update _ E). destruct (update_batch_rules _ _ _ _ P) as (_ & _ & _ & ->). rewrite Ho. split; [|exact P]. reflexivity.
  - rewrite (ty_deactivate _ E). destruct (deactivate_batch_rules _ _ _ _ P) as (_ & _ & _ & ->). rewrite Ho. split; [|exact P]. reflexivity.
  - rewrite (ty_recover _ E). destruct (recover_batch_rules _ _ _ _ P) as (_ & _ & _ & _ & _ & ->). rewrite Ho. split; [|exact P]. reflexivity.
Qed.

(* for a create the verdict is that of the per-type parser alone; it agrees with ParseOperation exactly
   when the request passes the size gate and the schema check *)
Theorem parse_ok_create p v :
  ty_of_view v = Create ->
  view_parse_ok p v = is_some (parse_create p true v) /\
  (rv_len v <= pp_max_op_size p -> rv_schema_ok v = true ->
   view_parse_ok p v = is_some (parse_operation p true true v)).
Proof.
  intros Hty. unfold view_parse_ok. rewrite Hty. split; [reflexivity|]. intros Hl Hs.
  unfold parse_operation. rewrite (proj2 (gtb_false_iff _ _) Hl), Hs. cbn [negb].
  unfold ty_of_view in Hty. destruct (eqs (rv_type v) "create"); [reflexivity|].
  destruct (eqs (rv_type v) "update"); [discriminate|]. destruct (eqs (rv_type v) "deactivate"); [discriminate|].
  destruct (eqs (rv_type v) "recover"); discriminate.
Qed.

(* ------------------------------------------------------------------------------------------ *)
(* 3. Reveal value, commitment, key                                                            *)
(* ------------------------------------------------------------------------------------------ *)

Lemma get_multihash_code_nil : get_multihash_code [] = None.
Proof. reflexivity. Qed.

(* the commitment of a key is a non-empty multihash string naming its algorithm *)
Lemma get_commitment_code jwk code c :
  get_commitment jwk code = Some c -> get_multihash_code c = Some code /\ c <> [].
Proof.
  unfold get_commitment. destruct (hash_of_code code) as [h|] eqn:Eh; [|discriminate]. intros H; inversion H; subst c.
  assert (Ec : compute_multihash code (h jwk) = Some (mh_encode code (h (h jwk)))) by (unfold compute_multihash; rewrite Eh; reflexivity).
  destruct (get_multihash_compute _ _ _ Ec) as (h' & _ & Hg).
  assert (Hc : get_multihash_code (b64_encode (mh_encode code (h (h jwk)))) = Some code) by (unfold get_multihash_code; rewrite Hg; reflexivity).
  split; [exact Hc|]. intros Hnil. rewrite Hnil in Hc. discriminate Hc.
Qed.

(* a reveal value that matches the signing key: the commitment recomputed from it is the commitment of
   that key, under the algorithm the reveal value names *)
Theorem reveal_commitment_of_key k rv :
  reveal_matches k rv = true ->
  exists code kc, get_multihash_code rv = Some code /\ get_reveal_value (jv_canonical k) code = Some rv /\
                  get_commitment (jv_canonical k) code = Some kc /\ commitment_from_reveal rv = Some kc.
Proof.
  intros H. destruct (reveal_matches_spec _ _ H) as (code & Hc & Hm).
  pose proof (commitment_is_hash_of_reveal _ _ _ Hm) as Hr.
  destruct (get_commitment (jv_canonical k) code) as [kc|] eqn:Ek.
  - exists code, kc. repeat split; assumption.
  - exfalso. unfold get_commitment in Ek. unfold calculate_model_multihash, compute_multihash in Hm.
    destruct (hash_of_code code); discriminate.
Qed.

(* what the per-type parser, run in batch mode, has checked of an accepted non-create request *)
Lemma noncreate_batch_rules p v :
  ty_of_view v <> Create -> view_parse_ok p v = true ->
  rv_struct_ok v = true /\ signed_rules p v /\
  (ty_of_view v = Update -> hash_field_ok p (sv_delta_hash (rv_signed v))) /\
  (ty_of_view v = Recover ->
     hash_field_ok p (sv_delta_hash (rv_signed v)) /\ hash_field_ok p (sv_recovery_commitment (rv_signed v)) /\
     exists code c', get_multihash_code (sv_recovery_commitment (rv_signed v)) = Some code /\
       get_commitment (jv_canonical (sv_key (rv_signed v))) code = Some c' /\ c' <> sv_recovery_commitment (rv_signed v)) /\
  (ty_of_view v = Deactivate -> sv_did_suffix (rv_signed v) = rv_did_suffix v).
Proof.
  intros Hty Hp. destruct (parse_ok_noncreate_implies_typed p v Hty Hp) as (_ & _ & _ & Htyped).
  destruct (ty_of_view v).
  - contradiction.
  - destruct (update_batch_rules _ _ _ _ Htyped) as (H1 & H2 & H3 & _). intuition discriminate.
  - destruct (recover_batch_rules _ _ _ _ Htyped) as (H1 & H2 & H3 & H4 & H5 & _). intuition discriminate.
  - destruct (deactivate_batch_rules _ _ _ _ Htyped) as (H1 & H2 & H3 & _). intuition discriminate.
Qed.

(* an accepted non-create request is looked up under the commitment of its signing key, a non-empty string *)
Lemma parsed_view_commitment p v :
  ty_of_view v <> Create -> view_parse_ok p v = true ->
  exists code kc, get_multihash_code (rv_reveal v) = Some code /\
                  get_commitment (jv_canonical (sv_key (rv_signed v))) code = Some kc /\ view_reveal v = Some kc /\ kc <> [].
Proof.
  intros Hty Hp. destruct (noncreate_batch_rules p v Hty Hp) as (_ & (_ & _ & _ & _ & _ & (code & _ & Hm)) & _).
  assert (Hrm : reveal_matches (sv_key (rv_signed v)) (rv_reveal v) = true).
  { unfold reveal_matches. eapply calculated_multihash_is_valid. exact Hm. }
  destruct (reveal_commitment_of_key _ _ Hrm) as (code' & kc & Hc & _ & Hk & Hcr).
  exists code', kc. split; [exact Hc|]. split; [exact Hk|]. split; [exact Hcr | apply (get_commitment_code _ _ _ Hk)].
Qed.

(* ------------------------------------------------------------------------------------------ *)
(* 4. (a) Soundness of authorisation                                                           *)
(* ------------------------------------------------------------------------------------------ *)

(* [well_signed] (Resolve/Spec.v: parse_ok /\ sig_ok) on an operation computed from a request view.
   Conclusions: the size gate and schema; the signed-request rules of AcceptProofs (reveal value =
   multihash of the canonical signing key, allowed signature algorithm and header members, valid
   key, hash fields within limit and of an allowed algorithm); the per-type signed fields; the
   commitment the operation consumes is the commitment of the signing key; and the conclusion of
   CompactProofs.verify_sound: the signature primitive accepted exactly the signing input computed
   from protected header and payload, under that key. *)
Theorem authorised_view_sound p v kf crypto_ok patch_applies c intern :
  let o := aop_of_view p v kf crypto_ok patch_applies c intern in
  let s := rv_signed v in
  let k := jwk_of_view (sv_key s) kf in
  ty o <> Create -> well_signed o ->
  rv_len v <= pp_max_op_size p /\ rv_schema_ok v = true /\ rv_struct_ok v = true /\
  signed_rules p v /\
  (ty o = Update -> hash_field_ok p (sv_delta_hash s)) /\
  (ty o = Recover ->
     hash_field_ok p (sv_delta_hash s) /\ hash_field_ok p (sv_recovery_commitment s) /\
     exists code c', get_multihash_code (sv_recovery_commitment s) = Some code /\
                     get_commitment (jv_canonical (sv_key s)) code = Some c' /\ c' <> sv_recovery_commitment s) /\
  (ty o = Deactivate -> sv_did_suffix s = rv_did_suffix v) /\
  (exists code kc, get_multihash_code (rv_reveal v) = Some code /\
                   get_commitment (jv_canonical (sv_key s)) code = Some kc /\ reveal_c o = intern kc) /\
  exists payload sig msg,
    parse_compact (sv_compact s) (sv_hdr s) = Some (payload, sig) /\ signing_input (sv_hdr s) payload = Some msg /\
    crypto_ok = true /\ jwk_decodes k = true /\ payload <> [] /\ sig <> [] /\
    h_json_ok (sv_hdr s) = true /\ h_has_alg (sv_hdr s) = true /\ h_b64 (sv_hdr s) <> B64NotBool /\
    ((eqs (k_kty k) "EC" = true /\ exists n, ec_key_size (k_crv k) = Some n /\ Z.of_nat (length sig) = 2 * n)
     \/ (eqs (k_kty k) "EC" = false /\ eqs (k_kty k) "OKP" = true)).
Proof.
  cbv zeta. cbn [ty aop_of_view]. intros Hty [Hp Hs]. cbn [parse_ok sig_ok aop_of_view] in Hp, Hs.
  destruct (parse_ok_noncreate_implies_typed p v Hty Hp) as (Hlen & Hsch & _).
  destruct (noncreate_batch_rules p v Hty Hp) as (Hst & Hsr & Hu & Hr & Hd).
  split; [exact Hlen|]. split; [exact Hsch|]. split; [exact Hst|]. split; [exact Hsr|].
  split; [exact Hu|]. split; [exact Hr|]. split; [exact Hd|]. split.
  - destruct (parsed_view_commitment p v Hty Hp) as (code & kc & Hc & Hk & Hcr & _).
    exists code, kc. split; [exact Hc|]. split; [exact Hk|]. cbn [reveal_c aop_of_view]. rewrite Hcr. reflexivity.
  - unfold view_sig_ok in Hs. exact (verify_sound _ _ _ _ Hs).
Qed.

(* the same for the boolean the inertness theorems of C01 use (Resolve/Inert.v [authorised]) *)
Corollary authorised_view_well_signed p v kf crypto_ok patch_applies c intern :
  let o := aop_of_view p v kf crypto_ok patch_applies c intern in
  ty o <> Create -> authorised o = true -> well_signed o /\ (ty o = Deactivate -> sfx_ok o = true).
Proof.
  cbv zeta. intros Hty Ha. unfold authorised in Ha. apply andb_true_iff in Ha. destruct Ha as [Hp Hs].
  unfold well_signed. destruct (ty (aop_of_view p v kf crypto_ok patch_applies c intern)) eqn:Ety.
  - contradiction.
  - split; [split; assumption | intros Hx; discriminate Hx].
  - split; [split; assumption | intros Hx; discriminate Hx].
  - apply andb_true_iff in Hs. destruct Hs as [Hs Hx]. split; [split; assumption | intros _; exact Hx].
Qed.

(* an operation whose signature the primitive refuses is never applied, whatever else it contains *)
Theorem forged_view_never_applies p v kf patch_applies c intern s :
  ty_of_view v <> Create -> apply (aop_of_view p v kf false patch_applies c intern) s = None.
Proof.
  intros Hty. apply unauthorised_never_applies. unfold authorised. cbn [parse_ok sig_ok sfx_ok ty aop_of_view].
  unfold view_sig_ok. rewrite forged_signature_rejected.
  destruct (ty_of_view v); [contradiction | | |]; apply andb_false_r.
Qed.

(* an accepted non-create operation always has a (non-empty) commitment to look it up by *)
Theorem parsed_reveal_nonzero p v kf crypto_ok patch_applies c intern :
  intern_ok intern -> ty_of_view v <> Create -> view_parse_ok p v = true ->
  reveal_c (aop_of_view p v kf crypto_ok patch_applies c intern) <> 0.
Proof.
  intros Hi Hty Hp. destruct (parsed_view_commitment p v Hty Hp) as (code & kc & _ & _ & Hcr & Hne).
  cbn [reveal_c aop_of_view]. rewrite Hcr. apply intern_nonzero; assumption.
Qed.

(* ------------------------------------------------------------------------------------------ *)
(* 5. (b) Requests built by the client builder are good operations                             *)
(* ------------------------------------------------------------------------------------------ *)

(* the key fits the signature: an EC key of a known curve with a signature of twice the coordinate
   size, or an OKP key (hypothesis of CompactProofs.sign_then_verify / built_signature_verifies) *)
Definition key_fits_signature (k : jwk) (sig : bytes) : Prop :=
  (eqs (k_kty k) "EC" = true /\ exists n, ec_key_size (k_crv k) = Some n /\ Z.of_nat (length sig) = 2 * n)
  \/ (eqs (k_kty k) "EC" = false /\ eqs (k_kty k) "OKP" = true).

(* what the builders put into the view *)
Lemma build_update_shape i v : build_update i = Some v ->
  exists dh jws,
    calculate_model_multihash (dv_canonical (ui_delta i)) (ui_code i) = Some dh /\
    sign_model (ui_signer i) (ui_payload i) = Some jws /\ validate_signer (ui_signer i) = true /\
    builder_validate_commitment (ui_key i) (ui_code i) (dv_update_commitment (ui_delta i)) = true /\
    rv_type v = bytes_of_string "update" /\ rv_reveal v = ui_reveal i /\ rv_did_suffix v = ui_suffix i /\
    rv_delta v = ui_delta i /\ sv_compact (rv_signed v) = jws /\ sv_hdr (rv_signed v) = built_hdr (ui_signer i) /\
    sv_key (rv_signed v) = ui_key i /\ sv_from (rv_signed v) = ui_from i /\ sv_until (rv_signed v) = ui_until i /\
    sv_delta_hash (rv_signed v) = dh.
Proof.
  intros Hb. unfold build_update in Hb.
  destruct (is_empty (ui_suffix i)); [discriminate|]. destruct (is_empty (ui_reveal i)); [discriminate|].
  destruct (dv_actions (ui_delta i)) as [|a0 ar]; [discriminate|].
  destruct (jwk_validate (ui_key i)); [|discriminate].
  destruct (validate_signer (ui_signer i)) eqn:Evs; [|discriminate]. cbn [negb] in Hb.
  destruct (calculate_model_multihash (dv_canonical (ui_delta i)) (ui_code i)) as [dh|] eqn:Edh; [|discriminate].
  destruct (builder_validate_commitment (ui_key i) (ui_code i) (dv_update_commitment (ui_delta i))) eqn:Ebc; [|discriminate].
  cbn [negb] in Hb. destruct (sign_model (ui_signer i) (ui_payload i)) as [jws|] eqn:Ej; [|discriminate].
  inversion Hb; subst v; clear Hb. exists dh, jws. cbn. repeat split.
Qed.

Lemma build_recover_shape i v : build_recover i = Some v ->
  exists dh jws,
    calculate_model_multihash (dv_canonical (ri_delta i)) (ri_code i) = Some dh /\
    sign_model (ri_signer i) (ri_payload i) = Some jws /\ validate_signer (ri_signer i) = true /\
    builder_validate_commitment (ri_key i) (ri_code i) (ri_recovery_commitment i) = true /\
    rv_type v = bytes_of_string "recover" /\ rv_reveal v = ri_reveal i /\ rv_did_suffix v = ri_suffix i /\
    rv_delta v = ri_delta i /\ sv_compact (rv_signed v) = jws /\ sv_hdr (rv_signed v) = built_hdr (ri_signer i) /\
    sv_key (rv_signed v) = ri_key i /\ sv_from (rv_signed v) = ri_from i /\ sv_until (rv_signed v) = ri_until i /\
    sv_delta_hash (rv_signed v) = dh /\ sv_recovery_commitment (rv_signed v) = ri_recovery_commitment i.
Proof.
  intros Hb. unfold build_recover in Hb.
  destruct (is_empty (ri_suffix i)); [discriminate|]. destruct (is_empty (ri_reveal i)); [discriminate|].
  destruct (patches_supplied (ri_patches i)); [|discriminate].
  destruct (validate_signer (ri_signer i)) eqn:Evs; [|discriminate].
  destruct (jwk_validate (ri_key i)); [|discriminate]. cbn [negb] in Hb.
  destruct (pi_opaque (ri_patches i) && negb (pi_from_doc_ok (ri_patches i))); [discriminate|].
  destruct (calculate_model_multihash (dv_canonical (ri_delta i)) (ri_code i)) as [dh|] eqn:Edh; [|discriminate].
  destruct (builder_validate_commitment (ri_key i) (ri_code i) (ri_recovery_commitment i)) eqn:Ebc; [|discriminate].
  cbn [negb] in Hb. destruct (sign_model (ri_signer i) (ri_payload i)) as [jws|] eqn:Ej; [|discriminate].
  inversion Hb; subst v; clear Hb. exists dh, jws. cbn. repeat split.
Qed.

Lemma build_deactivate_shape i v : build_deactivate i = Some v ->
  exists jws,
    sign_model (di_signer i) (di_payload i) = Some jws /\ validate_signer (di_signer i) = true /\
    rv_type v = bytes_of_string "deactivate" /\ rv_reveal v = di_reveal i /\ rv_did_suffix v = di_suffix i /\
    sv_compact (rv_signed v) = jws /\ sv_hdr (rv_signed v) = built_hdr (di_signer i) /\
    sv_key (rv_signed v) = di_key i /\ sv_from (rv_signed v) = di_from i /\ sv_until (rv_signed v) = di_until i /\
    sv_did_suffix (rv_signed v) = di_suffix i.
Proof.
  intros Hb. unfold build_deactivate in Hb.
  destruct (is_empty (di_suffix i)); [discriminate|]. destruct (is_empty (di_reveal i)); [discriminate|].
  destruct (validate_signer (di_signer i)) eqn:Evs; [|discriminate]. cbn [negb] in Hb.
  destruct (sign_model (di_signer i) (di_payload i)) as [jws|] eqn:Ej; [|discriminate].
  inversion Hb; subst v; clear Hb. exists jws. cbn. repeat split.
Qed.

(* UPDATE.  Hypotheses: those of BuilderProofs.built_update_accepted (the protocol enables the
   algorithms used; the caller's inputs are valid); the signing key decodes and fits the signature
   and the primitive accepts the signature ([crypto_ok] = true) - the hypotheses of
   built_signature_verifies; the patches apply ([patch_applies] = true); the protocol client knows
   the operation's protocol version and the anchoring time lies in the signed window. *)
Theorem built_update_good p i v kf c intern :
  build_update i = Some v ->
  protocol_enables p (ui_code i) (ui_signer i) (ui_key i) ->
  reveal_matches (ui_key i) (ui_reveal i) = true -> validate_multihash p (ui_reveal i) = true ->
  validate_delta p (ui_delta i) = true ->
  get_multihash_code (dv_update_commitment (ui_delta i)) = Some (ui_code i) ->
  (forall dh, calculate_model_multihash (dv_canonical (ui_delta i)) (ui_code i) = Some dh -> blen dh <= pp_max_hash_len p) ->
  ui_len i <= pp_max_op_size p ->
  signer_output_ok (ui_signer i) (ui_payload i) ->
  jwk_decodes (jwk_of_view (ui_key i) kf) = true ->
  key_fits_signature (jwk_of_view (ui_key i) kf) (sg_sig (ui_signer i)) ->
  c_versioned c = true ->
  in_window (pp_time_delta p) (ui_from i) (ui_until i) (c_time c) = true ->
  good_update (aop_of_view p v kf true true c intern).
Proof.
  intros Hb Hen Hrev Hrmh Hdelta Hnc Hlen Hsize Hsig Hdec Hfit Hver Hwin.
  destruct (built_update_accepted p i v true true Hb Hen Hrev Hrmh Hdelta Hnc Hlen Hsize Hsig (or_introl eq_refl))
    as (Hparse & Hd & _ & _ & _ & Hdh).
  destruct (build_update_shape i v Hb) as (dh & jws & _ & Hj & Hvs & _ & Hty & _ & _ & _ & Hc & Hh & Hk & Hf & Hu & _).
  pose proof (ty_update v Hty) as Et.
  unfold good_update. cbn [ty parse_ok sig_ok dhash_ok dvalid patch_ok aop_of_view].
  split; [exact Et|]. split; [unfold view_parse_ok; rewrite Et, Hparse; reflexivity|].
  split; [unfold view_sig_ok; rewrite Hc, Hh, Hk; eapply built_signature_verifies; eassumption|].
  split; [unfold view_dhash_ok, view_delta_hash; rewrite Et; exact Hdh|].
  split; [rewrite Hd; exact Hdelta|]. split; [reflexivity|].
  unfold op_in_window. cbn [mdelta a_from a_until time aop_of_view]. rewrite Hver, Hf, Hu. exact Hwin.
Qed.

(* RECOVER *)
Theorem built_recover_good p i v kf c intern :
  build_recover i = Some v ->
  protocol_enables p (ri_code i) (ri_signer i) (ri_key i) ->
  reveal_matches (ri_key i) (ri_reveal i) = true -> validate_multihash p (ri_reveal i) = true ->
  validate_delta p (ri_delta i) = true ->
  validate_multihash p (ri_recovery_commitment i) = true ->
  get_multihash_code (ri_recovery_commitment i) = Some (ri_code i) ->
  dv_update_commitment (ri_delta i) <> ri_recovery_commitment i ->
  ri_origin_ok i = true ->
  (forall dh, calculate_model_multihash (dv_canonical (ri_delta i)) (ri_code i) = Some dh -> blen dh <= pp_max_hash_len p) ->
  ri_len i <= pp_max_op_size p ->
  signer_output_ok (ri_signer i) (ri_payload i) ->
  jwk_decodes (jwk_of_view (ri_key i) kf) = true ->
  key_fits_signature (jwk_of_view (ri_key i) kf) (sg_sig (ri_signer i)) ->
  c_versioned c = true ->
  in_window (pp_time_delta p) (ri_from i) (ri_until i) (c_time c) = true ->
  good_recover (aop_of_view p v kf true true c intern).
Proof.
  intros Hb Hen Hrev Hrmh Hdelta Hrc Hrcc Hneq Horigin Hlen Hsize Hsig Hdec Hfit Hver Hwin.
  destruct (built_recover_accepted p i v true true Hb Hen Hrev Hrmh Hdelta Hrc Hrcc Hneq Horigin Hlen Hsize Hsig (or_introl eq_refl))
    as (Hparse & Hd & _ & _ & _ & _ & Hdh).
  destruct (build_recover_shape i v Hb) as (dh & jws & _ & Hj & Hvs & _ & Hty & _ & _ & _ & Hc & Hh & Hk & Hf & Hu & _).
  pose proof (ty_recover v Hty) as Et.
  unfold good_recover. cbn [ty parse_ok sig_ok dhash_ok dvalid patch_ok aop_of_view].
  split; [exact Et|]. split; [unfold view_parse_ok; rewrite Et, Hparse; reflexivity|].
  split; [unfold view_sig_ok; rewrite Hc, Hh, Hk; eapply built_signature_verifies; eassumption|].
  split; [unfold view_dhash_ok, view_delta_hash; rewrite Et; exact Hdh|].
  split; [rewrite Hd; exact Hdelta|]. split; [reflexivity|].
  unfold op_in_window. cbn [mdelta a_from a_until time aop_of_view]. rewrite Hver, Hf, Hu. exact Hwin.
Qed.

(* DEACTIVATE *)
Theorem built_deactivate_good p i v kf c intern :
  build_deactivate i = Some v ->
  (exists a, sg_alg (di_signer i) = Some a /\ In a (pp_sig_algs p)) ->
  jwk_validate (di_key i) = true -> In (jv_crv (di_key i)) (pp_key_algs p) -> validate_nonce p (jv_nonce (di_key i)) = true ->
  reveal_matches (di_key i) (di_reveal i) = true -> validate_multihash p (di_reveal i) = true ->
  di_len i <= pp_max_op_size p ->
  signer_output_ok (di_signer i) (di_payload i) ->
  jwk_decodes (jwk_of_view (di_key i) kf) = true ->
  key_fits_signature (jwk_of_view (di_key i) kf) (sg_sig (di_signer i)) ->
  c_versioned c = true ->
  in_window (pp_time_delta p) (di_from i) (di_until i) (c_time c) = true ->
  good_deactivate (aop_of_view p v kf true true c intern).
Proof.
  intros Hb Halg Hkv Hcrv Hnonce Hrev Hrmh Hsize Hsig Hdec Hfit Hver Hwin.
  destruct (built_deactivate_accepted p i v true true Hb Halg Hkv Hcrv Hnonce Hrev Hrmh Hsize Hsig (or_introl eq_refl))
    as (Hparse & _).
  destruct (build_deactivate_shape i v Hb) as (jws & Hj & Hvs & Hty & _ & Hsx & Hc & Hh & Hk & Hf & Hu & Hss).
  pose proof (ty_deactivate v Hty) as Et.
  unfold good_deactivate. cbn [ty parse_ok sig_ok sfx_ok aop_of_view].
  split; [exact Et|]. split; [unfold view_parse_ok; rewrite Et, Hparse; reflexivity|].
  split; [unfold view_sig_ok; rewrite Hc, Hh, Hk; eapply built_signature_verifies; eassumption|].
  split; [unfold view_sfx_ok; rewrite Hss, Hsx; apply bytes_eqb_refl|].
  unfold op_in_window. cbn [mdelta a_from a_until time aop_of_view]. rewrite Hver, Hf, Hu. exact Hwin.
Qed.

(* The commitment a built operation consumes is the commitment of its signing key: when the caller
   derived the reveal value from the key under algorithm [code] (commitment.GetRevealValue), the
   operation is looked up under GetCommitment(key, code).  So "the DID's commitment in force matches
   the revealed key" is a statement about keys. *)
Theorem view_reveal_c_of_key p v kf x y c intern code :
  get_reveal_value (jv_canonical (sv_key (rv_signed v))) code = Some (rv_reveal v) ->
  reveal_c (aop_of_view p v kf x y c intern) = intern_opt intern (get_commitment (jv_canonical (sv_key (rv_signed v))) code).
Proof.
  intros H. cbn [reveal_c aop_of_view]. unfold view_reveal.
  rewrite (commitment_is_hash_of_reveal _ _ _ H). reflexivity.
Qed.

Theorem built_reveal_c p kf x y c intern code :
  (forall i v, build_update i = Some v -> get_reveal_value (jv_canonical (ui_key i)) code = Some (ui_reveal i) ->
     reveal_c (aop_of_view p v kf x y c intern) = intern_opt intern (get_commitment (jv_canonical (ui_key i)) code)) /\
  (forall i v, build_recover i = Some v -> get_reveal_value (jv_canonical (ri_key i)) code = Some (ri_reveal i) ->
     reveal_c (aop_of_view p v kf x y c intern) = intern_opt intern (get_commitment (jv_canonical (ri_key i)) code)) /\
  (forall i v, build_deactivate i = Some v -> get_reveal_value (jv_canonical (di_key i)) code = Some (di_reveal i) ->
     reveal_c (aop_of_view p v kf x y c intern) = intern_opt intern (get_commitment (jv_canonical (di_key i)) code)).
Proof.
  split; [|split]; intros i v Hb Hr.
  - destruct (build_update_shape i v Hb) as (dh & jws & _ & _ & _ & _ & _ & Hrv & _ & _ & _ & _ & Hk & _).
    rewrite <- Hk. apply view_reveal_c_of_key. rewrite Hk, Hrv. exact Hr.
  - destruct (build_recover_shape i v Hb) as (dh & jws & _ & _ & _ & _ & _ & Hrv & _ & _ & _ & _ & Hk & _).
    rewrite <- Hk. apply view_reveal_c_of_key. rewrite Hk, Hrv. exact Hr.
  - destruct (build_deactivate_shape i v Hb) as (jws & _ & _ & _ & Hrv & _ & _ & _ & Hk & _).
    rewrite <- Hk. apply view_reveal_c_of_key. rewrite Hk, Hrv. exact Hr.
Qed.

(* the next commitment of a built update / recover differs from the commitment of the signing key under
   ANY algorithm: under the builder's algorithm by the builder's key re-use check, under another one
   because the two strings name different algorithms *)
Lemma next_differs_from_key_commitment k bcode next code kc :
  builder_validate_commitment k bcode next = true -> get_multihash_code next = Some bcode ->
  get_commitment (jv_canonical k) code = Some kc -> next <> kc.
Proof.
  intros Hb Hn Hk Heq. subst next. destruct (get_commitment_code _ _ _ Hk) as [Hc _].
  rewrite Hc in Hn. inversion Hn; subst bcode. unfold builder_validate_commitment in Hb. rewrite Hk in Hb.
  rewrite bytes_eqb_refl in Hb. discriminate Hb.
Qed.

(* ------------------------------------------------------------------------------------------ *)
(* 6. (c) Built requests take effect                                                           *)
(* ------------------------------------------------------------------------------------------ *)

(* "valid inputs" of each builder, bundled: the hypotheses of built_*_good, with the reveal value
   derived from the signing key under algorithm [code] (which implies reveal_matches) *)
Definition valid_update_inputs (p : pproto) (i : update_info) (kf : key_facts) (code : N) : Prop :=
  protocol_enables p (ui_code i) (ui_signer i) (ui_key i) /\
  get_reveal_value (jv_canonical (ui_key i)) code = Some (ui_reveal i) /\ validate_multihash p (ui_reveal i) = true /\
  validate_delta p (ui_delta i) = true /\
  get_multihash_code (dv_update_commitment (ui_delta i)) = Some (ui_code i) /\
  (forall dh, calculate_model_multihash (dv_canonical (ui_delta i)) (ui_code i) = Some dh -> blen dh <= pp_max_hash_len p) /\
  ui_len i <= pp_max_op_size p /\
  signer_output_ok (ui_signer i) (ui_payload i) /\
  jwk_decodes (jwk_of_view (ui_key i) kf) = true /\
  key_fits_signature (jwk_of_view (ui_key i) kf) (sg_sig (ui_signer i)).

Definition valid_recover_inputs (p : pproto) (i : recover_info) (kf : key_facts) (code : N) : Prop :=
  protocol_enables p (ri_code i) (ri_signer i) (ri_key i) /\
  get_reveal_value (jv_canonical (ri_key i)) code = Some (ri_reveal i) /\ validate_multihash p (ri_reveal i) = true /\
  validate_delta p (ri_delta i) = true /\
  validate_multihash p (ri_recovery_commitment i) = true /\
  get_multihash_code (ri_recovery_commitment i) = Some (ri_code i) /\
  dv_update_commitment (ri_delta i) <> ri_recovery_commitment i /\
  ri_origin_ok i = true /\
  (forall dh, calculate_model_multihash (dv_canonical (ri_delta i)) (ri_code i) = Some dh -> blen dh <= pp_max_hash_len p) /\
  ri_len i <= pp_max_op_size p /\
  signer_output_ok (ri_signer i) (ri_payload i) /\
  jwk_decodes (jwk_of_view (ri_key i) kf) = true /\
  key_fits_signature (jwk_of_view (ri_key i) kf) (sg_sig (ri_signer i)).

Definition valid_deactivate_inputs (p : pproto) (i : deactivate_info) (kf : key_facts) (code : N) : Prop :=
  (exists a, sg_alg (di_signer i) = Some a /\ In a (pp_sig_algs p)) /\
  jwk_validate (di_key i) = true /\ In (jv_crv (di_key i)) (pp_key_algs p) /\ validate_nonce p (jv_nonce (di_key i)) = true /\
  get_reveal_value (jv_canonical (di_key i)) code = Some (di_reveal i) /\ validate_multihash p (di_reveal i) = true /\
  di_len i <= pp_max_op_size p /\
  signer_output_ok (di_signer i) (di_payload i) /\
  jwk_decodes (jwk_of_view (di_key i) kf) = true /\
  key_fits_signature (jwk_of_view (di_key i) kf) (sg_sig (di_signer i)).

(* anchored under a known protocol version, inside the signed window *)
Definition anchored_in_window (p : pproto) (from until : Z) (c : coords) : Prop :=
  c_versioned c = true /\ in_window (pp_time_delta p) from until (c_time c) = true.

(* everything resolution needs to know about a built operation *)
Lemma built_update_facts p i v kf c intern code kc :
  build_update i = Some v -> valid_update_inputs p i kf code -> anchored_in_window p (ui_from i) (ui_until i) c ->
  intern_ok intern -> get_commitment (jv_canonical (ui_key i)) code = Some kc ->
  let o := aop_of_view p v kf true true c intern in
  good_update o /\ reveal_c o = intern kc /\ intern kc <> 0 /\
  upd_c o = intern (dv_update_commitment (ui_delta i)) /\ upd_c o <> intern kc.
Proof.
  intros Hb (Hen & Hrv & Hrmh & Hdelta & Hnc & Hlen & Hsize & Hsig & Hdec & Hfit) (Hver & Hwin) Hi Hk. cbv zeta.
  destruct (built_reveal_links_commitment _ _ _ Hrv) as [Hrev _].
  split; [eapply built_update_good; eassumption|].
  destruct (built_reveal_c p kf true true c intern code) as (Hu & _ & _).
  split; [rewrite (Hu i v Hb Hrv), Hk; reflexivity|].
  split; [apply intern_nonzero; [exact Hi | apply (get_commitment_code _ _ _ Hk)]|].
  destruct (build_update_shape i v Hb) as (dh & jws & _ & _ & _ & Hbc & Hty & _ & _ & Hd & _).
  assert (Hupd : upd_c (aop_of_view p v kf true true c intern) = intern (dv_update_commitment (ui_delta i))).
  { cbn [upd_c aop_of_view]. unfold view_upd_commitment. rewrite (ty_update v Hty), Hd. reflexivity. }
  split; [exact Hupd|]. rewrite Hupd. apply intern_neq; [exact Hi|].
  eapply next_differs_from_key_commitment; eassumption.
Qed.

Lemma built_recover_facts p i v kf c intern code kc :
  build_recover i = Some v -> valid_recover_inputs p i kf code -> anchored_in_window p (ri_from i) (ri_until i) c ->
  intern_ok intern -> get_commitment (jv_canonical (ri_key i)) code = Some kc ->
  let o := aop_of_view p v kf true true c intern in
  good_recover o /\ reveal_c o = intern kc /\ intern kc <> 0 /\
  upd_c o = intern (dv_update_commitment (ri_delta i)) /\
  rec_c o = intern (ri_recovery_commitment i) /\ rec_c o <> intern kc.
Proof.
  intros Hb (Hen & Hrv & Hrmh & Hdelta & Hrc & Hrcc & Hneq & Horigin & Hlen & Hsize & Hsig & Hdec & Hfit) (Hver & Hwin) Hi Hk.
  cbv zeta. destruct (built_reveal_links_commitment _ _ _ Hrv) as [Hrev _].
  split; [eapply built_recover_good; eassumption|].
  destruct (built_reveal_c p kf true true c intern code) as (_ & Hr & _).
  split; [rewrite (Hr i v Hb Hrv), Hk; reflexivity|].
  split; [apply intern_nonzero; [exact Hi | apply (get_commitment_code _ _ _ Hk)]|].
  destruct (build_recover_shape i v Hb) as (dh & jws & _ & _ & _ & Hbc & Hty & _ & _ & Hd & _ & _ & _ & _ & _ & _ & Hsrc).
  split; [cbn [upd_c aop_of_view]; unfold view_upd_commitment; rewrite (ty_recover v Hty), Hd; reflexivity|].
  assert (Hrec : rec_c (aop_of_view p v kf true true c intern) = intern (ri_recovery_commitment i)).
  { cbn [rec_c aop_of_view]. unfold view_rec_commitment. rewrite (ty_recover v Hty), Hsrc. reflexivity. }
  split; [exact Hrec|]. rewrite Hrec. apply intern_neq; [exact Hi|].
  eapply next_differs_from_key_commitment; eassumption.
Qed.

Lemma built_deactivate_facts p i v kf c intern code kc :
  build_deactivate i = Some v -> valid_deactivate_inputs p i kf code -> anchored_in_window p (di_from i) (di_until i) c ->
  intern_ok intern -> get_commitment (jv_canonical (di_key i)) code = Some kc ->
  let o := aop_of_view p v kf true true c intern in
  good_deactivate o /\ reveal_c o = intern kc /\ intern kc <> 0.
Proof.
  intros Hb (Halg & Hkv & Hcrv & Hnonce & Hrv & Hrmh & Hsize & Hsig & Hdec & Hfit) (Hver & Hwin) Hi Hk. cbv zeta.
  destruct (built_reveal_links_commitment _ _ _ Hrv) as [Hrev _].
  split; [eapply built_deactivate_good; eassumption|].
  destruct (built_reveal_c p kf true true c intern code) as (_ & _ & Hd).
  split; [rewrite (Hd i v Hb Hrv), Hk; reflexivity|].
  apply intern_nonzero; [exact Hi | apply (get_commitment_code _ _ _ Hk)].
Qed.

(* C11, UPDATE, end to end.  A request built by NewUpdateRequest from valid inputs, signed with the
   key [ui_key i]; the store [pub] resolves to [s], whose update commitment in force is the commitment
   of that key; the request is anchored later than every stored operation, inside its window, under a
   known protocol version; no stored update already reveals the next commitment it supplies.  Then
   Resolve returns [update_result o s]: [s] with the delta's content added to the document, the update
   commitment replaced by the supplied one (named by [intern]), the version fields stamped by the new
   operation and everything else unchanged; the new operation is the last one applied. *)
Theorem built_update_takes_effect p i v kf c intern code kc pub c0 s ap :
  let o := aop_of_view p v kf true true c intern in
  build_update i = Some v -> valid_update_inputs p i kf code ->
  anchored_in_window p (ui_from i) (ui_until i) c ->
  intern_ok intern ->
  resolve_full pub [] no_opts = inr (Some (c0, s, ap)) -> key_inj pub ->
  (forall q, In q pub -> op_lt q o = true) ->                                      (* anchored after everything else *)
  get_commitment (jv_canonical (ui_key i)) code = Some kc -> upd s = intern kc ->  (* commitment in force = that of the signing key *)
  fresh_commitment (intern (dv_update_commitment (ui_delta i))) (is_ty Update) pub ->
  resolve (pub ++ [o]) [] no_opts =
  OOk {| r_state := update_result o s; r_pub := map oid (sort_ops pub) ++ [c_oid c]; r_unpub := [];
         r_applied := map oid ap ++ [c_oid c] |}
  /\ update_result o s =
     {| doc := option_map (fun d => add_content d (c_delta c)) (doc s);
        upd := intern (dv_update_commitment (ui_delta i)); rec := rec s; deact := false;
        last_t := c_time c; last_n := c_num c; created := created s; updated := c_time c;
        vid := c_cref c; canon := canon s; aorigin := aorigin s |}.
Proof.
  cbv zeta. intros Hb Hvalid Hanch Hi Hres Hkey Hlater Hk Hupds Hfresh.
  destruct (built_update_facts p i v kf c intern code kc Hb Hvalid Hanch Hi Hk) as (Hgood & Hrev & Hnz & Hupd & Hne).
  split.
  - apply (update_takes_effect_resolve pub c0 s ap (aop_of_view p v kf true true c intern) Hres Hkey Hlater Hgood);
      rewrite ?Hupds; try assumption.
    rewrite Hupd. exact Hfresh.
  - unfold update_result. rewrite Hupd. reflexivity.
Qed.

(* C11, RECOVER, end to end, on a prepared operation list [fops] (sorted, filtered) that resolves to
   [s] and to which the new operation is appended - i.e. it is processed after everything else.
   The recovery commitment in force is the commitment of the signing (recovery) key.  Result: document
   reset to the delta's content, update and recovery commitments replaced by the supplied ones,
   canonical reference and anchor origin those of the new operation, creation time kept.
   As in Extend.recover_takes_effect, no stored update that would be replayed on top of the recover
   (unpublished, or anchored after it) may reveal the update commitment it installs. *)
Theorem built_recover_takes_effect p i v kf c intern code kc fops c0 s ap :
  let o := aop_of_view p v kf true true c intern in
  build_recover i = Some v -> valid_recover_inputs p i kf code ->
  anchored_in_window p (ri_from i) (ri_until i) c ->
  intern_ok intern ->
  resolve_core fops = inr (Some (c0, s, ap)) ->
  get_commitment (jv_canonical (ri_key i)) code = Some kc -> rec s = intern kc ->
  fresh_commitment (intern (ri_recovery_commitment i)) is_full fops ->
  (forall q, In q fops -> ty q = Update -> op_after (c_time c) (c_num c) q = true ->
     reveal_c q <> intern (dv_update_commitment (ri_delta i))) ->
  resolve_core (fops ++ [o]) = inr (Some (c0, recover_result o s, filter is_full ap ++ [o]))
  /\ recover_result o s =
     {| doc := Some [c_delta c];
        upd := intern (dv_update_commitment (ri_delta i)); rec := intern (ri_recovery_commitment i); deact := false;
        last_t := c_time c; last_n := c_num c; created := created s; updated := c_time c;
        vid := c_cref c; canon := c_cref c; aorigin := c_origin c |}.
Proof.
  cbv zeta. intros Hb Hvalid Hanch Hi Hres Hk Hrecs Hfresh Hlater.
  destruct (built_recover_facts p i v kf c intern code kc Hb Hvalid Hanch Hi Hk) as (Hgood & Hrev & Hnz & Hupd & Hrec & Hne).
  split.
  - apply (recover_takes_effect fops c0 s ap (aop_of_view p v kf true true c intern) Hres Hgood);
      rewrite ?Hrecs; try assumption.
    + rewrite Hrec. exact Hfresh.
    + rewrite Hupd. exact Hlater.
  - unfold recover_result. rewrite Hupd, Hrec. reflexivity.
Qed.

(* the same at store level: anchored later than every stored operation *)
Theorem built_recover_takes_effect_store p i v kf c intern code kc pub c0 s ap :
  let o := aop_of_view p v kf true true c intern in
  build_recover i = Some v -> valid_recover_inputs p i kf code ->
  anchored_in_window p (ri_from i) (ri_until i) c ->
  intern_ok intern ->
  resolve_full pub [] no_opts = inr (Some (c0, s, ap)) -> key_inj pub ->
  (forall q, In q pub -> op_lt q o = true) ->
  (forall q, In q pub -> ty q = Update -> published q = true) ->
  get_commitment (jv_canonical (ri_key i)) code = Some kc -> rec s = intern kc ->
  fresh_commitment (intern (ri_recovery_commitment i)) is_full pub ->
  resolve_full (pub ++ [o]) [] no_opts = inr (Some (c0, recover_result o s, filter is_full ap ++ [o]))
  /\ recover_result o s =
     {| doc := Some [c_delta c];
        upd := intern (dv_update_commitment (ri_delta i)); rec := intern (ri_recovery_commitment i); deact := false;
        last_t := c_time c; last_n := c_num c; created := created s; updated := c_time c;
        vid := c_cref c; canon := c_cref c; aorigin := c_origin c |}.
Proof.
  cbv zeta. intros Hb Hvalid Hanch Hi Hres Hkey Hlater Hpub Hk Hrecs Hfresh.
  destruct (built_recover_facts p i v kf c intern code kc Hb Hvalid Hanch Hi Hk) as (Hgood & Hrev & Hnz & Hupd & Hrec & Hne).
  split.
  - apply (recover_takes_effect_published_store pub c0 s ap (aop_of_view p v kf true true c intern) Hres Hkey Hlater Hpub Hgood);
      rewrite ?Hrecs; try assumption.
    rewrite Hrec. exact Hfresh.
  - unfold recover_result. rewrite Hupd, Hrec. reflexivity.
Qed.

(* C11, DEACTIVATE, end to end: no freshness or ordering hypothesis *)
Theorem built_deactivate_takes_effect p i v kf c intern code kc fops c0 s ap :
  let o := aop_of_view p v kf true true c intern in
  build_deactivate i = Some v -> valid_deactivate_inputs p i kf code ->
  anchored_in_window p (di_from i) (di_until i) c ->
  intern_ok intern ->
  resolve_core fops = inr (Some (c0, s, ap)) ->
  get_commitment (jv_canonical (di_key i)) code = Some kc -> rec s = intern kc ->
  resolve_core (fops ++ [o]) = inr (Some (c0, deactivate_result o s, filter is_full ap ++ [o]))
  /\ deactivate_result o s =
     {| doc := Some []; upd := 0; rec := 0; deact := true;
        last_t := c_time c; last_n := c_num c; created := created s; updated := c_time c;
        vid := c_cref c; canon := canon s; aorigin := aorigin s |}.
Proof.
  cbv zeta. intros Hb Hvalid Hanch Hi Hres Hk Hrecs.
  destruct (built_deactivate_facts p i v kf c intern code kc Hb Hvalid Hanch Hi Hk) as (Hgood & Hrev & Hnz).
  split; [|reflexivity].
  apply (deactivate_takes_effect fops c0 s ap (aop_of_view p v kf true true c intern) Hres Hgood); rewrite Hrecs; assumption.
Qed.

Theorem built_deactivate_takes_effect_store p i v kf c intern code kc pub c0 s ap :
  let o := aop_of_view p v kf true true c intern in
  build_deactivate i = Some v -> valid_deactivate_inputs p i kf code ->
  anchored_in_window p (di_from i) (di_until i) c ->
  intern_ok intern ->
  resolve_full pub [] no_opts = inr (Some (c0, s, ap)) -> key_inj pub ->
  (forall q, In q pub -> op_lt q o = true) ->
  get_commitment (jv_canonical (di_key i)) code = Some kc -> rec s = intern kc ->
  resolve_full (pub ++ [o]) [] no_opts = inr (Some (c0, deactivate_result o s, filter is_full ap ++ [o])).
Proof.
  cbv zeta. intros Hb Hvalid Hanch Hi Hres Hkey Hlater Hk Hrecs.
  destruct (built_deactivate_facts p i v kf c intern code kc Hb Hvalid Hanch Hi Hk) as (Hgood & Hrev & Hnz).
  apply (deactivate_takes_effect_published_store pub c0 s ap (aop_of_view p v kf true true c intern) Hres Hkey Hlater Hgood);
    rewrite Hrecs; assumption.
Qed.

(* ------------------------------------------------------------------------------------------ *)
(* 7. Non-vacuity: the hypotheses hold for the concrete world of FromView.v, and the            *)
(*    conclusions compute                                                                      *)
(* ------------------------------------------------------------------------------------------ *)

Lemma fx_multihash_valid c dh :
  calculate_model_multihash c 18 = Some dh -> blen dh <= 100 -> validate_multihash fx_proto dh = true.
Proof. intros H Hl. apply (computed_hash_validates fx_proto c 18 dh H); [left; reflexivity | exact Hl]. Qed.

Lemma fx_enables x : protocol_enables fx_proto 18 fx_signer (fx_key x).
Proof.
  split; [left; reflexivity|]. split; [exists (bs "EdDSA"); split; [reflexivity | left; reflexivity]|].
  split; [left; reflexivity | reflexivity].
Qed.

(* an OKP key: its coordinate is not looked at *)
Lemma fx_key_fits x :
  jwk_decodes (jwk_of_view (fx_key x) fx_kf) = true /\ key_fits_signature (jwk_of_view (fx_key x) fx_kf) (sg_sig fx_signer).
Proof. split; [reflexivity | right; split; reflexivity]. Qed.

Lemma fx_delta_valid : validate_delta fx_proto (fx_delta fx_next_upd_key) = true.
Proof.
  unfold validate_delta. cbn [fx_delta dv_present dv_actions dv_patch_valid dv_update_commitment dv_canonical negb].
  rewrite (fx_multihash_valid _ _ (fx_commitment_multihash fx_next_upd_key)) by (vm_compute; discriminate).
  vm_compute. reflexivity.
Qed.

Lemma fx_delta_hash_len dh :
  calculate_model_multihash (dv_canonical (fx_delta fx_next_upd_key)) 18 = Some dh -> blen dh <= pp_max_hash_len fx_proto.
Proof.
  intros E.
  assert (H : option_map blen (calculate_model_multihash (dv_canonical (fx_delta fx_next_upd_key)) 18) = Some 46)
    by (vm_compute; reflexivity).
  rewrite E in H. injection H as ->. discriminate.
Qed.

Example fx_update_inputs_valid : valid_update_inputs fx_proto fx_update_info fx_kf 18%N.
Proof.
  split; [exact (fx_enables _)|]. split; [exact (fx_reveal_value fx_upd_key)|].
  split; [apply (fx_multihash_valid _ _ (fx_reveal_value fx_upd_key)); vm_compute; discriminate|].
  split; [exact fx_delta_valid|].
  split; [exact (proj1 (get_commitment_code _ _ _ (fx_commitment_value fx_next_upd_key)))|].
  split; [exact fx_delta_hash_len|]. split; [vm_compute; discriminate|].
  split; [repeat split; discriminate | exact (fx_key_fits _)].
Qed.

Example fx_recover_inputs_valid : valid_recover_inputs fx_proto fx_recover_info fx_kf 18%N.
Proof.
  split; [exact (fx_enables _)|]. split; [exact (fx_reveal_value fx_rec_key)|].
  split; [apply (fx_multihash_valid _ _ (fx_reveal_value fx_rec_key)); vm_compute; discriminate|].
  split; [exact fx_delta_valid|].
  split; [apply (fx_multihash_valid _ _ (fx_commitment_multihash fx_next_rec_key)); vm_compute; discriminate|].
  split; [exact (proj1 (get_commitment_code _ _ _ (fx_commitment_value fx_next_rec_key)))|].
  split; [vm_compute; discriminate|].
  split; [reflexivity|]. split; [exact fx_delta_hash_len|]. split; [vm_compute; discriminate|].
  split; [repeat split; discriminate | exact (fx_key_fits _)].
Qed.

Example fx_deactivate_inputs_valid : valid_deactivate_inputs fx_proto fx_deactivate_info fx_kf 18%N.
Proof.
  split; [exists (bs "EdDSA"); split; [reflexivity | left; reflexivity]|].
  split; [vm_compute; reflexivity|]. split; [left; reflexivity|]. split; [reflexivity|].
  split; [exact (fx_reveal_value fx_rec_key)|].
  split; [apply (fx_multihash_valid _ _ (fx_reveal_value fx_rec_key)); vm_compute; discriminate|].
  split; [vm_compute; discriminate|].
  split; [repeat split; discriminate | exact (fx_key_fits _)].
Qed.

Lemma fx_key_inj : key_inj [fx_create].
Proof. intros a b [<-|[]] [<-|[]] _. reflexivity. Qed.

Example fx_update_takes_effect :
  resolve ([fx_create] ++ [fx_update_op]) [] no_opts =
  OOk {| r_state := update_result fx_update_op fx_state; r_pub := [1; 2]; r_unpub := []; r_applied := [2] |}.
Proof.
  apply (built_update_takes_effect fx_proto fx_update_info fx_update_view fx_kf (fx_coords 2) intern_std 18%N
           (fx_commitment fx_upd_key) [fx_create] fx_create fx_state []).
  - exact (proj1 fx_views_built).
  - exact fx_update_inputs_valid.
  - split; reflexivity.
  - exact intern_std_ok.
  - exact fx_history_resolves.
  - exact fx_key_inj.
  - intros q [<-|[]]. reflexivity.
  - exact (fx_commitment_value _).
  - reflexivity.
  - intros _ q [<-|[]] Hp. discriminate Hp.
Qed.


Lemma fx_update_op_good :
  good_update fx_update_op /\ reveal_c fx_update_op = upd fx_state /\ upd fx_state <> 0 /\
  upd_c fx_update_op = intern_std (fx_commitment fx_next_upd_key) /\ upd_c fx_update_op <> upd fx_state.
Proof.
  destruct (built_update_facts fx_proto fx_update_info fx_update_view fx_kf (fx_coords 2) intern_std 18%N (fx_commitment fx_upd_key)
              (proj1 fx_views_built) fx_update_inputs_valid (conj eq_refl eq_refl) intern_std_ok (fx_commitment_value _))
    as (Hgood & Hrev & Hnz & Hupd & Hne).
  split; [exact Hgood|]. split; [exact Hrev|]. split; [exact Hnz|]. split; [|exact Hne].
  unfold fx_update_op. rewrite Hupd. cbn [dv_update_commitment ui_delta fx_update_info fx_delta]. reflexivity.
Qed.


Example fx_update_computes :
  resolve ([fx_create] ++ [fx_update_op]) [] no_opts =
  OOk {| r_state := {| doc := Some [101; 102]; upd := intern_std (fx_commitment fx_next_upd_key);
                       rec := intern_std (fx_commitment fx_rec_key); deact := false; last_t := 150; last_n := 0;
                       created := 10; updated := 150; vid := 2; canon := 1; aorigin := 1 |};
         r_pub := [1; 2]; r_unpub := []; r_applied := [2] |}.
Proof.
  destruct fx_update_op_good as (_ & _ & _ & Hupd & _).
  rewrite fx_update_takes_effect. unfold update_result. rewrite Hupd. cbn [rec fx_state]. reflexivity.
Qed.

Example fx_recover_takes_effect :
  resolve_full ([fx_create] ++ [fx_recover_op]) [] no_opts =
  inr (Some (fx_create, recover_result fx_recover_op fx_state, [] ++ [fx_recover_op])).
Proof.
  apply (built_recover_takes_effect_store fx_proto fx_recover_info fx_recover_view fx_kf (fx_coords 3) intern_std 18%N
           (fx_commitment fx_rec_key) [fx_create] fx_create fx_state []).
  - exact (proj1 (proj2 fx_views_built)).
  - exact fx_recover_inputs_valid.
  - split; reflexivity.
  - exact intern_std_ok.
  - exact fx_history_resolves.
  - exact fx_key_inj.
  - intros q [<-|[]]. reflexivity.
  - intros q [<-|[]] Hty. discriminate Hty.
  - exact (fx_commitment_value _).
  - reflexivity.
  - intros _ q [<-|[]] Hp. discriminate Hp.
Qed.

Lemma fx_recover_op_commitments :
  upd_c fx_recover_op = intern_std (fx_commitment fx_next_upd_key) /\ rec_c fx_recover_op = intern_std (fx_commitment fx_next_rec_key).
Proof.
  destruct (built_recover_facts fx_proto fx_recover_info fx_recover_view fx_kf (fx_coords 3) intern_std 18%N (fx_commitment fx_rec_key)
              (proj1 (proj2 fx_views_built)) fx_recover_inputs_valid (conj eq_refl eq_refl) intern_std_ok (fx_commitment_value _))
    as (_ & _ & _ & Hupd & Hrec & _).
  unfold fx_recover_op. rewrite Hupd, Hrec. cbn [dv_update_commitment ri_delta ri_recovery_commitment fx_recover_info fx_delta]. split; reflexivity.
Qed.

Example fx_recover_computes :
  ok_state (resolve ([fx_create] ++ [fx_recover_op]) [] no_opts) =
  Some {| doc := Some [103]; upd := intern_std (fx_commitment fx_next_upd_key);
          rec := intern_std (fx_commitment fx_next_rec_key); deact := false; last_t := 150; last_n := 0;
          created := 10; updated := 150; vid := 3; canon := 3; aorigin := 2 |}.
Proof.
  rewrite (resolve_of_full _ _ _ _ _ fx_recover_takes_effect). unfold ok_state, r_state, recover_result.
  destruct fx_recover_op_commitments as [-> ->]. reflexivity.
Qed.

Example fx_deactivate_takes_effect :
  resolve_full ([fx_create] ++ [fx_deactivate_op]) [] no_opts =
  inr (Some (fx_create, deactivate_result fx_deactivate_op fx_state, [] ++ [fx_deactivate_op])).
Proof.
  apply (built_deactivate_takes_effect_store fx_proto fx_deactivate_info fx_deactivate_view fx_kf (fx_coords 4) intern_std 18%N
           (fx_commitment fx_rec_key) [fx_create] fx_create fx_state []).
  - exact (proj2 (proj2 fx_views_built)).
  - exact fx_deactivate_inputs_valid.
  - split; reflexivity.
  - exact intern_std_ok.
  - exact fx_history_resolves.
  - exact fx_key_inj.
  - intros q [<-|[]]. reflexivity.
  - exact (fx_commitment_value _).
  - reflexivity.
Qed.

Example fx_deactivate_computes :
  ok_state (resolve ([fx_create] ++ [fx_deactivate_op]) [] no_opts) =
  Some {| doc := Some []; upd := 0; rec := 0; deact := true; last_t := 150; last_n := 0;
          created := 10; updated := 150; vid := 4; canon := 1; aorigin := 1 |}.
Proof. rewrite (resolve_of_full _ _ _ _ _ fx_deactivate_takes_effect). reflexivity. Qed.

Example fx_update_well_signed : ty fx_update_op <> Create /\ well_signed fx_update_op.
Proof. destruct fx_update_op_good as ((Hty & Hp & Hs & _) & _). split; [rewrite Hty; discriminate | exact (conj Hp Hs)]. Qed.

(* the hypotheses matter: signed with the wrong key (the recovery key's reveal value is not the hash of the
   update key) the request is not even parsed in batch mode; anchored outside the window the update only
   advances the commitment *)
Example fx_wrong_reveal_rejected :
  let i := {| ui_suffix := fx_suffix; ui_reveal := fx_reveal fx_rec_key; ui_delta := fx_delta fx_next_upd_key;
              ui_key := fx_upd_key; ui_code := 18%N; ui_from := 100; ui_until := 0; ui_signer := fx_signer;
              ui_origin_ok := true; ui_payload := ui_payload fx_update_info; ui_len := 900 |} in
  parse_ok (aop_of_view fx_proto (or_no_view (build_update i)) fx_kf true true (fx_coords 2) intern_std) = false.
Proof.
  intros i. cbn [parse_ok aop_of_view]. destruct (build_update i) as [v|] eqn:Hb; [|reflexivity].
  destruct (build_update_shape i v Hb) as (_ & _ & _ & _ & _ & _ & Hty & Hrv & _ & _ & _ & _ & Hk & _).
  assert (Hm : reveal_matches fx_upd_key (fx_reveal fx_rec_key) = false) by (vm_compute; reflexivity).
  unfold or_no_view, view_parse_ok. rewrite (ty_update v Hty), (parse_operation_update _ _ _ _ Hty), parse_update_eq, Hk, Hrv.
  subst i. cbn [ui_key ui_reveal]. rewrite Hm, andb_false_r. destruct (_ && _); reflexivity.
Qed.

(* the verdicts on a view do not depend on where the operation is anchored *)
Lemma aop_of_view_coords p v kf x y c c' intern :
  let o := aop_of_view p v kf x y c intern in let o' := aop_of_view p v kf x y c' intern in
  ty o = ty o' /\ parse_ok o = parse_ok o' /\ sig_ok o = sig_ok o' /\ dhash_ok o = dhash_ok o' /\ dvalid o = dvalid o' /\
  reveal_c o = reveal_c o' /\ upd_c o = upd_c o'.
Proof. repeat split. Qed.

Example fx_outside_window_no_content :
  let late := {| c_oid := 2; c_time := 9000; c_num := 0; c_cref := 2; c_versioned := true; c_delta := 102; c_origin := 2 |} in
  option_map doc (ok_state (resolve ([fx_create] ++ [aop_of_view fx_proto fx_update_view fx_kf true true late intern_std]) [] no_opts))
  = Some (Some [101]).
Proof.
  intros late. set (o := aop_of_view fx_proto fx_update_view fx_kf true true late intern_std).
  destruct (aop_of_view_coords fx_proto fx_update_view fx_kf true true late (fx_coords 2) intern_std) as (Ety & Ep & Es & Eh & Ev & Er & Eu).
  destruct fx_update_op_good as ((Hty & Hp & Hs & Hh & Hv & _) & Hrev & Hnz & _ & Hne).
  unfold fx_update_op in *. rewrite <- Ety in Hty. rewrite <- Ep in Hp. rewrite <- Es in Hs. rewrite <- Eh in Hh. rewrite <- Ev in Hv.
  rewrite <- Er in Hrev. rewrite <- Eu in Hne. clear Ety Ep Es Eh Ev Er Eu. fold o in Hty, Hp, Hs, Hh, Hv, Hrev, Hne.
  destruct (build_update_shape _ _ (proj1 fx_views_built)) as (_ & _ & _ & _ & _ & _ & _ & _ & _ & _ & _ & _ & _ & Hf & Hu & _).
  assert (Hw : op_in_window o = false).
  { unfold op_in_window. cbn [mdelta a_from a_until time aop_of_view o]. rewrite Hf, Hu. reflexivity. }
  assert (Hm : mdelta o <> None) by discriminate.
  assert (Hle : forall q, In q [fx_create] -> op_lt q o = true) by (intros q [<-|[]]; reflexivity).
  assert (Haft : after_replay_point fx_create [] o = true) by reflexivity.
  clearbody o.
  (* outside its window the update is applied all the same, without its delta *)
  assert (Ha : apply o fx_state = Some (post o fx_state)).
  { apply apply_some. split; [|reflexivity]. apply accepts_iff. rewrite Hty.
    split; [exact Hm|]. split; [exact Hp|]. split; [discriminate|]. split; [exact Hh|]. split; [exact Hs | exact Hv]. }
  pose proof (resolve_full_snoc_published [fx_create] o Hle) as E2.
  pose proof fx_history_resolves as Hres. rewrite Prepare.resolve_full_published in Hres.
  assert (Hfull : resolve_full ([fx_create] ++ [o]) [] no_opts = inr (Some (fx_create, post o fx_state, [] ++ [o]))).
  { rewrite E2. apply (update_extends _ _ _ _ _ _ Hres Hty Ha Hrev Hnz Hne); [|exact Haft].
    intros _ q [<-|[]] Hq. discriminate Hq. }
  rewrite (resolve_of_full _ _ _ _ _ Hfull). cbn [ok_state option_map r_state].
  rewrite (post_ty _ _ _ Hty). cbn [post_of]. unfold effective. rewrite Hw. reflexivity.
Qed.

(* the bridge composes with the decoder model of C10 (Parser/ViewOfBytes.v): from the BYTES of a real update
   request (ViewOfBytesProofs.ex_request, Ed25519 key, anchorFrom only) to the operation resolution sees *)
Example real_request_bridged :
  let o := aop_of_view ex_proto (view_of_request ex_request [true] true) fx_kf true true (fx_coords 2) intern_std in
  (ty o, parse_ok o, sig_ok o, dhash_ok o, dvalid o, a_from o, a_until o, negb (reveal_c o =? 0), negb (upd_c o =? 0), rec_c o)
  = (Update, true, true, true, true, 353390023, 0, true, true, 0).
Proof. vm_compute. reflexivity. Qed.
