(* The anchored operation of the resolution model computed from the RAW BYTES of the operation request
   (C01 - C06, C11, C12): the composition of the decoder model (Parser/ViewOfBytes.v: encoding/json, go-jose,
   JCS) with the bridge (Resolve/FromView.v: parser, hashing, JWS).  Definitions and computed examples
   (proofs: Resolve/FromBytesProofs.v; differential check against the harness: Corr/Bridge.v).

   What is computed from the bytes: the operation type, the parser's verdict in batch mode, the commitment
   recomputed from the reveal value, everything VerifyJWS does except the primitive, signed suffix = suffix,
   delta hash check, ValidateDelta except the per-patch validator, the signed anchoring window, the next
   commitments.

   What remains a fact (arguments):
     valid          - patchvalidator.Validate verdict per decoded patch, in order           (C18)
     origin         - verdict of the anchor-origin plug-in (not consulted in batch mode)
     kf             - decodability of the signing key (point on curve / go-jose's verdict)
     crypto_ok      - the signature primitive's verdict on the signing input
     patch_applies  - DocumentComposer.ApplyPatches succeeds                                (C17)
     c              - anchoring coordinates and the identities of delta content / anchor origin
     intern         - the naming of commitment strings by numbers *)
From Coq Require Import String List ZArith Bool.
From SV Require Import Base.Bytes Resolve.Op Parser.Accept Parser.ViewOfBytes Resolve.Process
  Resolve.FromView.
Import ListNotations.
Local Open Scope list_scope.
Local Open Scope Z_scope.

Definition aop_of_bytes (p : pproto) (b : bytes) (valid : list bool) (origin : bool) (kf : key_facts)
                        (crypto_ok patch_applies : bool) (c : coords) (intern : bytes -> Z) : aop :=
  aop_of_view p (view_of_request b valid origin) kf crypto_ok patch_applies c intern.

(* Interning by a finite table (what world.Table does in the harness):
   first match; the empty string and strings that are not in the table are 0 *)
Fixpoint tbl_lookup (t : list (bytes * Z)) (b : bytes) : Z :=
  match t with
  | [] => 0
  | (k, v) :: r => if bytes_eqb k b then v else tbl_lookup r b
  end.

Definition intern_tbl (t : list (bytes * Z)) (b : bytes) : Z :=
  match b with
  | [] => 0
  | _ => tbl_lookup t b
  end.

Definition tbl_keys (t : list (bytes * Z)) : list bytes := map fst t.
Definition tbl_ids (t : list (bytes * Z)) : list Z := map snd t.

Fixpoint nodupZ (l : list Z) : bool :=
  match l with
  | [] => true
  | x :: r => negb (memZ x r) && nodupZ r
  end.

(* no empty key, no identifier 0, no identifier used twice: the table is injective on its keys and no key
   is confused with the empty string *)
Definition tbl_ok (t : list (bytes * Z)) : bool :=
  forallb (fun k => negb (is_empty k)) (tbl_keys t)
  && negb (memZ 0 (tbl_ids t))
  && nodupZ (tbl_ids t).

Definition tbl_has (t : list (bytes * Z)) (b : bytes) : bool := existsb (bytes_eqb b) (tbl_keys t).

(* a string is named faithfully by the table: it is empty or one of the keys *)
Definition tbl_covers (t : list (bytes * Z)) (b : bytes) : bool := is_empty b || tbl_has t b.

(* the commitment strings an operation carries (those [aop_of_view] interns) *)
Definition commitments_of_view (v : req_view) : list bytes :=
  [match view_reveal v with Some c => c | None => [] end; view_upd_commitment v; view_rec_commitment v].

Definition commitments_of_bytes (b : bytes) : list bytes := commitments_of_view (view_of_request b [] true).

(* The processor as a function of the stored operation bytes.
   One stored (anchored) operation: the request bytes, the facts about it, its coordinates. *)
Record stored_op := {
  so_bytes : bytes;
  so_valid : list bool;
  so_origin : bool;
  so_kf : key_facts;
  so_crypto_ok : bool;
  so_patch_applies : bool;
  so_coords : coords }.

Definition aop_of_stored (p : pproto) (intern : bytes -> Z) (s : stored_op) : aop :=
  aop_of_bytes p (so_bytes s) (so_valid s) (so_origin s) (so_kf s) (so_crypto_ok s) (so_patch_applies s)
               (so_coords s) intern.

(* resolution options with the additional operations given as bytes *)
Record bopts := { bo_vid : Z; bo_vtime : option Z; bo_additional : list stored_op }.

Definition ropts_of_bopts (p : pproto) (intern : bytes -> Z) (o : bopts) : ropts :=
  {| o_vid := bo_vid o; o_vtime := bo_vtime o; o_additional := map (aop_of_stored p intern) (bo_additional o) |}.

(* processor.Resolve on the content of the two operation stores *)
Definition resolve_bytes (p : pproto) (intern : bytes -> Z) (pub unpub : list stored_op) (o : bopts) : outcome :=
  resolve (map (aop_of_stored p intern) pub) (map (aop_of_stored p intern) unpub) (ropts_of_bopts p intern o).

(* Fields of an operation that resolution cannot observe.
   [aop_norm o] overwrites, with fixed values, fields of [o] that neither Apply nor the processor reads given the
   other fields of [o] (FromBytesProofs.v: [apply_norm], [norm_keeps_selection], [resolve_norm]).  These are exactly
   the classes in which the harness's by-construction statement of an operation (world.Build) differs from what the
   real code determines on the operation's bytes:
     create                 : sig_ok                     (a create carries no signed data; the builder states "true")
     update, recover        : sfx_ok                     (only deactivate signs the suffix; the builder states "true")
     deactivate             : dhash_ok, dvalid, patch_ok (a deactivate carries no delta; the builder states its defaults)
     delta hash mismatch    : dvalid, delta              (request without delta / with another delta than the signed one)
     signature refused      : a_from, a_until            (payload altered after signing: the window read from the bytes
                                                          is not the window the builder signed)
   Everything else, in particular every field the processor selects operations by, is kept. *)
Definition aop_norm (o : aop) : aop :=
  let create := optype_eqb (ty o) Create in
  let deact := optype_eqb (ty o) Deactivate in
  let unsigned := negb create && negb (sig_ok o) in
  let mismatch := negb deact && negb (dhash_ok o) in
  {| oid := oid o; ty := ty o; time := time o; num := num o; cref := cref o; mdelta := mdelta o;
     parse_ok := parse_ok o; reveal_c := reveal_c o;
     sig_ok := if create then true else sig_ok o;
     sfx_ok := if deact then sfx_ok o else true;
     dhash_ok := if deact then true else dhash_ok o;
     dvalid := if deact || mismatch then true else dvalid o;
     patch_ok := if deact then true else patch_ok o;
     a_from := if unsigned then 0 else a_from o;
     a_until := if unsigned then 0 else a_until o;
     delta := if mismatch then 0 else delta o;
     upd_c := upd_c o; rec_c := rec_c o; origin := origin o |}.

(* field by field comparison of operations (Corr/Bridge.v) *)
Section Compare.
Local Open Scope string_scope.
Local Open Scope Z_scope.
Definition optZ_eqb (a b : option Z) : bool :=
  match a, b with
  | None, None => true
  | Some x, Some y => x =? y
  | _, _ => false
  end.

(* the fields of an anchored operation with their names, as comparisons *)
Definition aop_fields (a b : aop) : list (string * bool) :=
  [("oid", oid a =? oid b); ("ty", optype_eqb (ty a) (ty b)); ("time", time a =? time b); ("num", num a =? num b);
   ("cref", cref a =? cref b); ("mdelta", optZ_eqb (mdelta a) (mdelta b));
   ("parse_ok", Bool.eqb (parse_ok a) (parse_ok b)); ("reveal_c", reveal_c a =? reveal_c b);
   ("sig_ok", Bool.eqb (sig_ok a) (sig_ok b)); ("sfx_ok", Bool.eqb (sfx_ok a) (sfx_ok b));
   ("dhash_ok", Bool.eqb (dhash_ok a) (dhash_ok b)); ("dvalid", Bool.eqb (dvalid a) (dvalid b));
   ("patch_ok", Bool.eqb (patch_ok a) (patch_ok b));
   ("a_from", a_from a =? a_from b); ("a_until", a_until a =? a_until b);
   ("delta", delta a =? delta b); ("upd_c", upd_c a =? upd_c b); ("rec_c", rec_c a =? rec_c b);
   ("origin", origin a =? origin b)].

Definition aop_eqb (a b : aop) : bool := forallb snd (aop_fields a b).

(* names of the fields on which two operations differ *)
Definition aop_diff (a b : aop) : list string :=
  map fst (filter (fun x => negb (snd x)) (aop_fields a b)).

End Compare.

(* A real history: two operations generated by harness/cmd/gen_bridge (seed 7): a create and an update signed with a
   P-256 key, SHA-256 multihashes.  The facts are the ones the generator obtained from the real code; the expected
   operations are the generator's "real" records.  (FromBytesProofs.v uses them to show that the theorems' hypotheses
   are satisfiable.) *)
Definition exb_proto : pproto :=
  {| pp_max_op_size := 6000; pp_max_hash_len := 100; pp_max_delta_size := 3000; pp_nonce_size := 16;
     pp_time_delta := 7200; pp_hash_algs := [18%N; 19%N];
     pp_sig_algs := map bs ["EdDSA"; "ES256"; "ES384"; "ES512"; "ES256K"]%string;
     pp_key_algs := map bs ["Ed25519"; "P-256"; "P-384"; "P-521"; "secp256k1"]%string;
     pp_patches := map bs ["replace"; "add-public-keys"; "remove-public-keys"; "add-services"; "remove-services";
                           "ietf-json-patch"]%string |}.

Definition exb_create_request : bytes := unhex "7b2264656c7461223a7b22757064617465436f6d6d69746d656e74223a224569433059796a706a397a4b7967586f485948624d4d31497968414e63714e5f366e68797a775a786d6d66484351222c2270617463686573223a5b7b22616374696f6e223a226164642d7075626c69632d6b657973222c227075626c69634b657973223a5b7b226964223a226b31222c227075626c69634b65794a776b223a7b22637276223a22502d323536222c226b7479223a224543222c2278223a225055796d49716474465f717861417150414253772d432d6f7754314b59595162734d4b464d2d4c39664a41222c2279223a226e4d38346a4448434d4f544754685f5a64487134644242646f345a35506b454f57396a41387a3849734763227d2c22707572706f736573223a5b2261757468656e7469636174696f6e225d2c2274797065223a224a736f6e5765624b657932303230227d5d7d5d7d2c2273756666697844617461223a7b2264656c746148617368223a224569427a354a5371477a48326831397a51727047376f484d5571425741796c2d78496538364f5f755a6d314e7567222c227265636f76657279436f6d6d69746d656e74223a224569426b685064666c4d3770612d596b6457736c376e4333516e78566a433737746c32646b307066683872507451222c22616e63686f724f726967696e223a226f726967696e31227d2c2274797065223a22637265617465227d".

Definition exb_update_request : bytes := unhex "7b2264656c7461223a7b22757064617465436f6d6d69746d656e74223a2245694133656248484b52734c36383853777752424d3973576b764e4f577a4a505f3376566b5248646c2d30687551222c2270617463686573223a5b7b22616374696f6e223a226164642d7075626c69632d6b657973222c227075626c69634b657973223a5b7b226964223a226b32222c227075626c69634b65794a776b223a7b22637276223a22502d323536222c226b7479223a224543222c2278223a225055796d49716474465f717861417150414253772d432d6f7754314b59595162734d4b464d2d4c39664a41222c2279223a226e4d38346a4448434d4f544754685f5a64487134644242646f345a35506b454f57396a41387a3849734763227d2c22707572706f736573223a5b2261757468656e7469636174696f6e225d2c2274797065223a224a736f6e5765624b657932303230227d5d7d5d7d2c22646964537566666978223a2245694334445f75626537423439415469635f387054344768313351757763583635505f476779632d794e68423851222c2272657665616c56616c7565223a22456942676d684c5f6f58626e7a62397a716c75725749643537364c5f47305f397369443457737334304452674b67222c227369676e656444617461223a2265794a68624763694f694a46557a49314e694a392e65794a6b5a57783059556868633267694f694a4661554636634842495a477844553056364d6d5266616a466a516d46446454464d566e4e68535549784e556c775546466e5a564a4b4f44464c596e4642496977696458426b5958526c53325635496a7037496d4e7964694936496c41744d6a55324969776961335235496a6f6952554d694c434a34496a6f694d463933556d51786247396165554e53597a5135596a4e496432564c556e6c4a53454e70626a5979646e5658616e704a516e6444576c4a7157534973496e6b694f694974546b3177516a5642556d6c754f58684c656a42775a4664735a314a51626b56324f5752314d6d6471536b786e52477477516d6c53576b4a56496e31392e5742744a316533375a57466636662d6e665038424f70645f616549564f35537232585346534837444976626a35726b544e434875374548614c56464562724a52615830755876497670674a63744930527a5035394e51222c2274797065223a22757064617465227d".

(* the part of world.Table these operations use *)
Definition exb_table : list (bytes * Z) := [(bs "EiBkhPdflM7pa-YkdWsl7nC3QnxVjC77tl2dk0pfh8rPtQ", 1); (bs "EiC0Yyjpj9zKygXoHYHbMM1IyhANcqN_6nhyzwZxmmfHCQ", 2); (bs "EiA3ebHHKRsL688SwwRBM9sWkvNOWzJP_3vVkRHdl-0huQ", 3)]%string.

Definition exb_create : stored_op :=
  {| so_bytes := exb_create_request; so_valid := [true]; so_origin := true;
     so_kf := {| kf_on_curve := false; kf_jose_ok := false |}; so_crypto_ok := false; so_patch_applies := true;
     so_coords := {| c_oid := 1; c_time := 115; c_num := 1; c_cref := 1; c_versioned := true; c_delta := 1; c_origin := 1 |} |}.

Definition exb_update : stored_op :=
  {| so_bytes := exb_update_request; so_valid := [true]; so_origin := true;
     so_kf := {| kf_on_curve := false; kf_jose_ok := true |}; so_crypto_ok := true; so_patch_applies := true;
     so_coords := {| c_oid := 2; c_time := 118; c_num := 2; c_cref := 2; c_versioned := true; c_delta := 2; c_origin := 0 |} |}.

(* the same update with the signature primitive refusing (what a forged signature amounts to) *)
Definition exb_update_forged : stored_op :=
  {| so_bytes := exb_update_request; so_valid := [true]; so_origin := true;
     so_kf := {| kf_on_curve := false; kf_jose_ok := true |}; so_crypto_ok := false; so_patch_applies := true;
     so_coords := so_coords exb_update |}.

Definition exb_intern : bytes -> Z := intern_tbl exb_table.

(* what the real code determined for the two requests *)
Definition exb_create_real : aop :=
  {| oid := 1; ty := Create; time := 115; num := 1; cref := 1; mdelta := Some 7200; parse_ok := true; reveal_c := 0;
     sig_ok := false; sfx_ok := true; dhash_ok := true; dvalid := true; patch_ok := true; a_from := 0; a_until := 0;
     delta := 1; upd_c := 2; rec_c := 1; origin := 1 |}.
Definition exb_update_real : aop :=
  {| oid := 2; ty := Update; time := 118; num := 2; cref := 2; mdelta := Some 7200; parse_ok := true; reveal_c := 2;
     sig_ok := true; sfx_ok := false; dhash_ok := true; dvalid := true; patch_ok := true; a_from := 0; a_until := 0;
     delta := 2; upd_c := 3; rec_c := 0; origin := 0 |}.
(* what the harness states for them (world.Placed.Gallina): differs in sig_ok of the create and sfx_ok of the update *)
Definition exb_create_stated : aop :=
  {| oid := 1; ty := Create; time := 115; num := 1; cref := 1; mdelta := Some 7200; parse_ok := true; reveal_c := 0;
     sig_ok := true; sfx_ok := true; dhash_ok := true; dvalid := true; patch_ok := true; a_from := 0; a_until := 0;
     delta := 1; upd_c := 2; rec_c := 1; origin := 1 |}.
Definition exb_update_stated : aop :=
  {| oid := 2; ty := Update; time := 118; num := 2; cref := 2; mdelta := Some 7200; parse_ok := true; reveal_c := 2;
     sig_ok := true; sfx_ok := true; dhash_ok := true; dvalid := true; patch_ok := true; a_from := 0; a_until := 0;
     delta := 2; upd_c := 3; rec_c := 0; origin := 0 |}.

Example exb_computed_is_real :
  (aop_of_stored exb_proto exb_intern exb_create, aop_of_stored exb_proto exb_intern exb_update)
  = (exb_create_real, exb_update_real).
Proof. vm_compute. reflexivity. Qed.

(* the two halves, for rewriting: later examples do not decode the requests again *)
Lemma exb_create_is : aop_of_stored exb_proto exb_intern exb_create = exb_create_real.
Proof. exact (proj1 (proj1 (pair_equal_spec _ _ _ _) exb_computed_is_real)). Qed.

Lemma exb_update_is : aop_of_stored exb_proto exb_intern exb_update = exb_update_real.
Proof. exact (proj2 (proj1 (pair_equal_spec _ _ _ _) exb_computed_is_real)). Qed.

Example exb_table_ok :
  (tbl_ok exb_table,
   forallb (tbl_covers exb_table) (commitments_of_bytes exb_create_request ++ commitments_of_bytes exb_update_request))
  = (true, true).
Proof. vm_compute. reflexivity. Qed.

Definition exb_no_opts : bopts := {| bo_vid := 0; bo_vtime := None; bo_additional := [] |}.

(* processor.Resolve on the two stored requests: the update is applied (document content 1 and 2, update commitment 3);
   with a refused signature it is not *)
Example exb_resolves :
  resolve_bytes exb_proto exb_intern [exb_update; exb_create] [] exb_no_opts
  = OOk {| r_state := {| doc := Some [1; 2]; upd := 3; rec := 1; deact := false; last_t := 118; last_n := 2;
                         created := 115; updated := 118; vid := 2; canon := 1; aorigin := 1 |};
           r_pub := [1; 2]; r_unpub := []; r_applied := [2] |}.
Proof. unfold resolve_bytes. cbn [map]. rewrite exb_update_is, exb_create_is. vm_compute. reflexivity. Qed.

Example exb_forged_inert :
  resolve_bytes exb_proto exb_intern [exb_update_forged; exb_create] [] exb_no_opts
  = OOk {| r_state := {| doc := Some [1]; upd := 2; rec := 1; deact := false; last_t := 115; last_n := 1;
                         created := 115; updated := 0; vid := 1; canon := 1; aorigin := 1 |};
           r_pub := [1; 2]; r_unpub := []; r_applied := [] |}.
Proof. unfold resolve_bytes. cbn [map]. rewrite exb_create_is. vm_compute. reflexivity. Qed.
