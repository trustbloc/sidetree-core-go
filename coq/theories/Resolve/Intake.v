(* dochandler.defaultOperationDecorator: a non-create operation is refused when the DID does not
   resolve or resolves as deactivated. *)
From Coq Require Import List.
From SV Require Import Resolve.Op Resolve.Process.
Import ListNotations.

Inductive decision := Accepted | Refused.

Definition decorate (pub unpub : list aop) : decision :=
  match resolve pub unpub no_opts with
  | OOk r => if deact (r_state r) then Refused else Accepted
  | _ => Refused
  end.

Lemma decorate_refuses_deactivated pub unpub r :
  resolve pub unpub no_opts = OOk r -> deact (r_state r) = true -> decorate pub unpub = Refused.
Proof. intros H Hd. unfold decorate. rewrite H, Hd. reflexivity. Qed.
