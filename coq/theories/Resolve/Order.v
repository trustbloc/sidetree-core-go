(* Chronological order of anchored operations and uniqueness of the sorted list (C02). *)
From Coq Require Import List ZArith Bool Lia Permutation Sorted.
From SV Require Import Base.ListFacts Resolve.Op Resolve.Process.
Import ListNotations.
Local Open Scope Z_scope.

Lemma ss_filter {A} (R : A -> A -> Prop) (p : A -> bool) l : StronglySorted R l -> StronglySorted R (filter p l).
Proof.
  induction 1 as [|a r Hs IH Ha]; cbn [filter]; [constructor|].
  destruct (p a); [|exact IH]. constructor; [exact IH|].
  rewrite Forall_forall in *. intros x Hx. apply filter_In in Hx. apply Ha, Hx.
Qed.

Lemma ss_prefix {A} (R : A -> A -> Prop) l1 l2 : StronglySorted R (l1 ++ l2) -> StronglySorted R l1.
Proof.
  induction l1 as [|x r IH]; [constructor|]. cbn [app]. intros H. apply StronglySorted_inv in H.
  destruct H as [Hs Ha]. constructor; [apply IH; exact Hs|].
  rewrite Forall_forall in *. intros y Hy. apply Ha. apply in_or_app. left. exact Hy.
Qed.

Definition key (o : aop) : Z * Z := (time o, num o).

(* a <= b in (time, num) lexicographic order *)
Definition op_le (a b : aop) : Prop := op_lt b a = false.

Lemma op_lt_spec a b :
  op_lt a b = true <-> time a < time b \/ (time a = time b /\ num a < num b).
Proof. unfold op_lt. rewrite orb_true_iff, andb_true_iff, !Z.ltb_lt, Z.eqb_eq. tauto. Qed.

Lemma op_lt_false a b :
  op_lt a b = false <-> time b < time a \/ (time a = time b /\ num b <= num a).
Proof. rewrite <- not_true_iff_false, op_lt_spec. lia. Qed.

Lemma op_lt_irrefl a : op_lt a a = false.
Proof. apply op_lt_false. lia. Qed.

Lemma op_lt_trans a b c : op_lt a b = true -> op_lt b c = true -> op_lt a c = true.
Proof. rewrite !op_lt_spec. lia. Qed.

Lemma op_lt_asym a b : op_lt a b = true -> op_lt b a = false.
Proof. rewrite op_lt_spec, op_lt_false. lia. Qed.

Lemma op_le_refl a : op_le a a.
Proof. apply op_lt_irrefl. Qed.

Lemma op_le_trans a b c : op_le a b -> op_le b c -> op_le a c.
Proof. unfold op_le. rewrite !op_lt_false. lia. Qed.

Lemma op_le_total a b : op_le a b \/ op_le b a.
Proof. unfold op_le. rewrite !op_lt_false. lia. Qed.

Lemma op_le_antisym a b : op_le a b -> op_le b a -> key a = key b.
Proof. unfold op_le, key. rewrite !op_lt_false. intros. f_equal; lia. Qed.

Lemma op_lt_le a b : op_lt a b = true -> op_le a b.
Proof. apply op_lt_asym. Qed.

Lemma not_lt_le a b : op_lt a b = false -> op_le b a.
Proof. auto. Qed.

(* distinct operations carry distinct (time, number) pairs *)
Definition key_inj (l : list aop) : Prop :=
  forall a b, In a l -> In b l -> key a = key b -> a = b.

Lemma key_inj_incl l l' : incl l' l -> key_inj l -> key_inj l'.
Proof. intros Hi Hk a b Ha Hb. apply Hk; auto. Qed.

Lemma key_inj_perm l l' : Permutation l l' -> key_inj l -> key_inj l'.
Proof.
  intros Hp. apply key_inj_incl. intros x Hx. eapply Permutation_in; [apply Permutation_sym; eassumption | assumption].
Qed.

(* decided on a concrete list: no two positions carry the same pair *)
Fixpoint distinct_keys (l : list aop) : bool :=
  match l with
  | [] => true
  | a :: r => forallb (fun b => negb ((time a =? time b) && (num a =? num b))) r && distinct_keys r
  end.

Lemma key_inj_dec l : distinct_keys l = true -> key_inj l.
Proof.
  induction l as [|x r IH]; [intros _ a b []|]. cbn [distinct_keys]. rewrite andb_true_iff, forallb_forall.
  intros [Hx Hr].
  assert (Hne : forall y, In y r -> key x <> key y).
  { intros y Hy [= Ht Hn]. specialize (Hx y Hy). rewrite Ht, Hn, !Z.eqb_refl in Hx. discriminate. }
  intros a b [<-|Ha] [<-|Hb] Hk; [reflexivity | elim (Hne b Hb Hk) | elim (Hne a Ha (eq_sym Hk)) | apply IH; assumption].
Qed.

Lemma insert_perm x l : Permutation (insert op_lt x l) (x :: l).
Proof.
  induction l as [|y r IH]; cbn [insert]; [reflexivity|].
  destruct (op_lt y x); [|reflexivity].
  rewrite IH. apply perm_swap.
Qed.

Lemma sort_ops_perm l : Permutation (sort_ops l) l.
Proof.
  unfold sort_ops. induction l as [|x r IH]; cbn [isort]; [reflexivity|].
  rewrite insert_perm. constructor. exact IH.
Qed.

Lemma in_sort_ops l q : In q (sort_ops l) -> In q l.
Proof. intros H. eapply Permutation_in; [apply sort_ops_perm | exact H]. Qed.

Lemma insert_sorted x l : StronglySorted op_le l -> StronglySorted op_le (insert op_lt x l).
Proof.
  induction l as [|y r IH]; intros Hs; cbn [insert].
  - repeat constructor.
  - destruct (op_lt y x) eqn:E.
    + inversion Hs as [|? ? Hr Hall]; subst. constructor; [apply IH; assumption|].
      rewrite Forall_forall in *. intros z Hz.
      eapply Permutation_in in Hz; [|apply insert_perm]. destruct Hz as [<-|Hz]; [apply op_lt_le; assumption | auto].
    + constructor; [assumption|]. inversion Hs as [|? ? Hr Hall]; subst.
      constructor; [exact E|]. rewrite Forall_forall in *. intros z Hz.
      apply (op_le_trans x y z); [exact E | auto].
Qed.

Lemma sort_ops_sorted l : StronglySorted op_le (sort_ops l).
Proof.
  unfold sort_ops. induction l as [|x r IH]; cbn [isort]; [constructor | apply insert_sorted; exact IH].
Qed.

(* two sorted arrangements of the same operations coincide *)
Lemma sorted_perm_unique l1 : forall l2,
  key_inj l1 -> StronglySorted op_le l1 -> StronglySorted op_le l2 -> Permutation l1 l2 -> l1 = l2.
Proof.
  intros l2 Hk. apply StronglySorted_perm_eq. intros a b Ha Hb Hab Hba. apply Hk; [exact Ha | exact Hb|].
  apply op_le_antisym; assumption.
Qed.

(* the sorted list does not depend on the order in which the store returned the operations *)
Theorem sort_ops_perm_invariant l l' :
  Permutation l l' -> key_inj l -> sort_ops l = sort_ops l'.
Proof.
  intros Hp Hk. apply sorted_perm_unique.
  - eapply key_inj_perm; [apply Permutation_sym, sort_ops_perm | exact Hk].
  - apply sort_ops_sorted.
  - apply sort_ops_sorted.
  - rewrite !sort_ops_perm. exact Hp.
Qed.

Lemma filter_perm {A} (p : A -> bool) l l' : Permutation l l' -> Permutation (filter p l) (filter p l').
Proof.
  induction 1; cbn [filter]; try reflexivity.
  - destruct (p x); [constructor|]; assumption.
  - destruct (p x), (p y); try reflexivity. apply perm_swap.
  - etransitivity; eassumption.
Qed.

Theorem sort_ops_filter (p : aop -> bool) l :
  key_inj l -> sort_ops (filter p l) = filter p (sort_ops l).
Proof.
  intros Hk. apply sorted_perm_unique.
  - eapply key_inj_incl; [|exact Hk]. intros x Hx.
    apply in_sort_ops, filter_In in Hx. apply Hx.
  - apply sort_ops_sorted.
  - apply ss_filter, sort_ops_sorted.
  - rewrite sort_ops_perm. apply filter_perm. symmetry. apply sort_ops_perm.
Qed.

(* a sorted list is left as it is, whatever the coordinates *)
Lemma sort_ops_id l : StronglySorted op_le l -> sort_ops l = l.
Proof.
  induction 1 as [|a r Hs IH Ha]; [reflexivity|].
  change (sort_ops (a :: r)) with (insert op_lt a (sort_ops r)). rewrite IH.
  destruct r as [|b r']; [reflexivity|]. cbn [insert]. inversion Ha as [|? ? Hab _]; subst. rewrite Hab. reflexivity.
Qed.

(* instance of [sort_ops_id]; [key_inj] is not used *)
Lemma sort_ops_sorted_id l : key_inj l -> StronglySorted op_le l -> sort_ops l = l.
Proof. intros _. apply sort_ops_id. Qed.

(* the insertion sort is stable: operations that sort behind (or level with) the existing ones
   stay behind them *)
Lemma insert_app_later x A B :
  (forall b, In b B -> op_lt b x = false) -> insert op_lt x (A ++ B) = insert op_lt x A ++ B.
Proof.
  intros H. induction A as [|y A' IH]; cbn [app insert].
  - destruct B as [|b B']; [reflexivity|]. cbn [insert]. rewrite (H b (or_introl eq_refl)). reflexivity.
  - destruct (op_lt y x); [rewrite IH|]; reflexivity.
Qed.

(* operations anchored later sort behind the existing ones *)
Theorem sort_ops_app_later l ext :
  (forall a b, In a l -> In b ext -> op_le a b) -> sort_ops (l ++ ext) = sort_ops l ++ sort_ops ext.
Proof.
  intros H. induction l as [|x r IH]; [reflexivity|].
  change (sort_ops ((x :: r) ++ ext)) with (insert op_lt x (sort_ops (r ++ ext))).
  change (sort_ops (x :: r)) with (insert op_lt x (sort_ops r)).
  rewrite IH by (intros a b Ha Hb; apply H; [right; exact Ha | exact Hb]).
  apply insert_app_later. intros b Hb. apply (H x b); [left; reflexivity | apply in_sort_ops; exact Hb].
Qed.
