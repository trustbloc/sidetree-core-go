(* C02 "the earliest anchored valid operation wins", C03/C12 "a commitment is consumed at most once":
   corollaries at the level of [resolve_core] / [resolve_full] of the chain lemmas of Chain.v,
   Refine.v and Order.v.  [applied_at] names the point (state, consumed commitments, competitors)
   at which an operation was applied; [processing_order] is the shape of a prepared list. *)
From Coq Require Import List ZArith Bool Sorted.
From SV Require Import Base.ListFacts Resolve.Op Resolve.Apply Resolve.Process Resolve.ProcessFacts Resolve.Order
  Resolve.Chain Resolve.Core Resolve.Prepare Resolve.Version Resolve.Spec Resolve.Refine Resolve.Extend.
Import ListNotations.
Local Open Scope Z_scope.

Lemma run_chain_reveal_nodup sel ops s s' ap :
  follows sel ops -> run_chain sel ops s = Some (s', ap) -> NoDup (map reveal_c ap).
Proof.
  intros Hfo H. apply run_chain_crun in H. destruct H as (cs & Hc & _).
  destruct (crun_nodup _ _ _ _ _ _ _ Hfo Hc (chain_inv_start _ _)) as [Hnd _].
  rewrite (crun_consumed _ _ _ _ _ _ _ Hc) in Hnd. exact Hnd.
Qed.

(* the updates among the applied operations are the second segment *)
Lemma core_run_applied_updates fops c0 s0 s1 s ap1 ap2 :
  core_run fops c0 s0 s1 s ap1 ap2 -> filter (is_ty Update) (ap1 ++ ap2) = ap2.
Proof.
  intros (_ & Hr1 & Hr2). destruct (core_classes _ _ _ _ _ _ Hr1 Hr2) as [H1 H2]. rewrite Forall_forall in H1, H2.
  rewrite filter_app, (filter_none _ ap1), (filter_all _ ap2); [reflexivity | |].
  - intros x Hx. apply is_ty_true, (H2 x Hx).
  - intros x Hx. apply class_full, (H1 x Hx).
Qed.

(* Among the applied recover / deactivate operations no two reveal the same (recovery)
   commitment, and among the applied updates no two reveal the same (update) commitment.  No
   hypothesis on the operation list at all. *)
Theorem applied_reveals_nodup fops c0 s ap :
  resolve_core fops = inr (Some (c0, s, ap)) ->
  NoDup (map reveal_c (filter is_full ap)) /\ NoDup (map reveal_c (filter (is_ty Update) ap)).
Proof.
  intros H. apply resolve_core_iff in H. destruct H as (s0 & s1 & ap1 & ap2 & Hrun & ->).
  rewrite (core_run_applied_split _ _ _ _ _ _ _ Hrun), (core_run_applied_updates _ _ _ _ _ _ _ Hrun).
  destruct Hrun as (_ & Hr1 & Hr2). split.
  - eapply run_chain_reveal_nodup; [|exact Hr1]. apply follows_fulls.
  - destruct (deact s1); [destruct Hr2 as [_ ->]; constructor|].
    eapply run_chain_reveal_nodup; [|exact Hr2]. apply follows_updates.
Qed.

(* the same for what Resolve returns from the stores, whatever the options *)
Corollary applied_reveals_nodup_store pub unpub opts c0 s ap :
  resolve_full pub unpub opts = inr (Some (c0, s, ap)) ->
  NoDup (map reveal_c (filter is_full ap)) /\ NoDup (map reveal_c (filter (is_ty Update) ap)).
Proof.
  unfold resolve_full. destruct (prepare pub unpub opts) as [e|[[rp ru] fops]]; [discriminate|].
  apply applied_reveals_nodup.
Qed.

Fixpoint fold_apply (l : list aop) (s : state) : option state :=
  match l with
  | [] => Some s
  | o :: r => match apply o s with Some s1 => fold_apply r s1 | None => None end
  end.

(* the state after the create [c0] and the operations [l], applied in that order from scratch *)
Definition state_after (c0 : aop) (l : list aop) : option state := fold_apply (c0 :: l) init_state.

Lemma fold_apply_app l1 l2 s :
  fold_apply (l1 ++ l2) s = match fold_apply l1 s with Some t => fold_apply l2 t | None => None end.
Proof.
  revert s. induction l1 as [|x r IH]; intros s; cbn [app fold_apply]; [reflexivity|].
  destruct (apply x s); [apply IH | reflexivity].
Qed.

(* [traced]: the chain, started in [s] with [consumed], applies [ap] one after the other and ends
   in [s']; each applied operation is, at the state and with the consumed commitments of that
   moment, eligible and the first eligible operation of [ops] *)
Definition traced (sel : state -> Z) (ops : list aop) (s : state) (consumed : list Z)
  (ap : list aop) (s' : state) : Prop :=
  fold_apply ap s = Some s' /\
  forall l1 o l2, ap = l1 ++ o :: l2 ->
    exists st, fold_apply l1 s = Some st /\
      eligible sel st (consumed ++ map reveal_c l1) o /\
      exists before after, ops = before ++ o :: after /\
        (forall x, In x before -> ~ eligible sel st (consumed ++ map reveal_c l1) x).

Lemma traced_nil sel ops s consumed : traced sel ops s consumed [] s.
Proof. split; [reflexivity|]. intros [|y l1] o l2 H; discriminate. Qed.

Lemma traced_cons sel ops s consumed x s1 ap2 s2 :
  first_valid (candidates (sel s) ops) s (sel s) consumed = Some (x, s1) ->
  traced sel ops s1 (consumed ++ [sel s]) ap2 s2 ->
  traced sel ops s consumed (x :: ap2) s2.
Proof.
  intros Hf [Hfold Hpts].
  destruct (first_valid_first_eligible _ _ _ _ _ _ Hf) as (b & a & Hops & Hb & He & Hst).
  apply step_apply in Hst.
  assert (Hrv : reveal_c x = sel s) by (destruct He as (_ & _ & _ & Hr & _); exact Hr).
  split; [cbn [fold_apply]; rewrite Hst; exact Hfold|].
  intros [|y l1] o l2 Hsplit; cbn [app] in Hsplit; injection Hsplit as <- Hrest.
  - exists s. cbn [map fold_apply]. rewrite app_nil_r. split; [reflexivity|]. split; [exact He|].
    exists b, a. split; assumption.
  - destruct (Hpts l1 o l2 Hrest) as (st & Hst' & He' & Hsp).
    exists st. cbn [fold_apply map]. rewrite Hst, Hrv.
    replace (consumed ++ sel s :: map reveal_c l1) with ((consumed ++ [sel s]) ++ map reveal_c l1)
      by (rewrite <- app_assoc; reflexivity).
    split; [exact Hst'|]. split; assumption.
Qed.

Lemma crun_traced sel ops s cs s' cs' ap : crun sel ops s cs s' cs' ap -> traced sel ops s cs ap s'.
Proof.
  induction 1 as [s cs Hf | s cs o s1 Hf H0 | s cs o s1 s' cs' ap Hf H0 Hc IH];
    [apply traced_nil | eapply traced_cons; [exact Hf | apply traced_nil] | eapply traced_cons; [exact Hf | exact IH]].
Qed.

Lemma run_chain_traced sel ops s s' ap :
  run_chain sel ops s = Some (s', ap) -> traced sel ops s [] ap s'.
Proof. intros H. apply run_chain_crun in H. destruct H as (cs & H & _). eapply crun_traced; exact H. Qed.

(* C03.  What Resolve returns is the left fold of Apply over the chosen create followed
   by the applied operations, in the order in which they were applied. *)
Theorem resolved_state_is_fold fops c0 s ap :
  resolve_core fops = inr (Some (c0, s, ap)) -> state_after c0 ap = Some s.
Proof.
  intros H. apply resolve_core_iff in H. destruct H as (s0 & s1 & ap1 & ap2 & (Hfc & Hr1 & Hr2) & ->).
  apply core_create in Hfc. destruct Hfc as (_ & _ & Hc).
  unfold state_after. cbn [fold_apply]. rewrite Hc, fold_apply_app.
  destruct (run_chain_traced _ _ _ _ _ Hr1) as [-> _].
  destruct (deact s1); [destruct Hr2 as [-> ->]; reflexivity|].
  destruct (run_chain_traced _ _ _ _ _ Hr2) as [-> _]. reflexivity.
Qed.

(* a split of a filtered list comes from a split of the list *)
Lemma filter_split {A} (p : A -> bool) l : forall b o a,
  filter p l = b ++ o :: a ->
  exists b' a', l = b' ++ o :: a' /\ filter p b' = b /\ filter p a' = a.
Proof.
  induction l as [|x r IH]; intros b o a H; cbn [filter] in H.
  - destruct b; discriminate.
  - destruct (p x) eqn:Hp.
    + destruct b as [|y b0]; cbn [app] in H; injection H as -> Hr.
      * exists [], r. cbn [filter app]. auto.
      * destruct (IH _ _ _ Hr) as (b' & a' & -> & Hb & Ha). exists (y :: b'), a'.
        cbn [filter app]. rewrite Hp, Hb. auto.
    + destruct (IH _ _ _ H) as (b' & a' & -> & Hb & Ha). exists (x :: b'), a'.
      cbn [filter app]. rewrite Hp. auto.
Qed.

(* [applied_at c0 ap o sel st consumed comp]: in a resolution that chose the create [c0] and
   applied [ap], the operation [o] was applied
     - by the chain whose commitment in force is [sel] ([rec]: recover / deactivate, [upd]: update),
     - in state [st] = the fold of Apply over the create and the operations applied before [o],
     - with [consumed] = the commitments consumed earlier in that chain,
     - in competition with the operations satisfying [comp]: the recover / deactivate operations,
       resp. the updates that are unpublished or anchored after the replay point (the last applied
       recover or, when there is none, the create). *)
Inductive applied_at (c0 : aop) (ap : list aop)
  : aop -> (state -> Z) -> state -> list Z -> (aop -> Prop) -> Prop :=
| at_full l1 o l2 st :
    filter is_full ap = l1 ++ o :: l2 -> state_after c0 l1 = Some st ->
    applied_at c0 ap o rec st (map reveal_c l1) (fun q => is_full q = true)
| at_update l1 o l2 st :
    filter (is_ty Update) ap = l1 ++ o :: l2 -> state_after c0 (filter is_full ap ++ l1) = Some st ->
    applied_at c0 ap o upd st (map reveal_c l1)
      (fun q => ty q = Update /\ after_replay_point c0 ap q = true).

(* every applied operation has such a point *)
Theorem applied_has_point fops c0 s ap o :
  resolve_core fops = inr (Some (c0, s, ap)) -> In o ap ->
  exists sel st consumed comp, applied_at c0 ap o sel st consumed comp.
Proof.
  intros H Hin. pose proof (resolved_state_is_fold _ _ _ _ H) as Hfold.
  apply resolve_core_iff in H. destruct H as (s0 & s1 & ap1 & ap2 & Hrun & ->).
  unfold state_after in Hfold. cbn [fold_apply] in Hfold.
  destruct (apply c0 init_state) as [t0|] eqn:Hc; [|discriminate].
  rewrite fold_apply_app in Hfold.
  destruct (fold_apply ap1 t0) as [t1|] eqn:H1; [|discriminate].
  apply in_app_or in Hin. destruct Hin as [Hin|Hin]; apply in_split in Hin; destruct Hin as (l1 & l2 & Hsp).
  - rewrite Hsp, fold_apply_app in H1. destruct (fold_apply l1 t0) as [st|] eqn:Hst; [|discriminate].
    exists rec, st, (map reveal_c l1), (fun q => is_full q = true).
    apply at_full with (l2 := l2).
    + rewrite (core_run_applied_split _ _ _ _ _ _ _ Hrun). exact Hsp.
    + unfold state_after. cbn [fold_apply]. rewrite Hc. exact Hst.
  - rewrite Hsp, fold_apply_app in Hfold. destruct (fold_apply l1 t1) as [st|] eqn:Hst; [|discriminate].
    exists upd, st, (map reveal_c l1),
      (fun q => ty q = Update /\ after_replay_point c0 (ap1 ++ ap2) q = true).
    apply at_update with (l2 := l2).
    + rewrite (core_run_applied_updates _ _ _ _ _ _ _ Hrun). exact Hsp.
    + rewrite (core_run_applied_split _ _ _ _ _ _ _ Hrun).
      unfold state_after. cbn [fold_apply]. rewrite Hc, fold_apply_app, H1. exact Hst.
Qed.

(* C02.  At its point, an applied operation is eligible (it reveals the commitment in
   force, does not re-commit to it nor to a commitment consumed before, and Apply accepts it), it
   is a competitor, and every competitor that precedes it in the prepared list is NOT eligible. *)
Theorem applied_is_first_eligible fops c0 s ap o sel st consumed comp :
  resolve_core fops = inr (Some (c0, s, ap)) ->
  applied_at c0 ap o sel st consumed comp ->
  eligible sel st consumed o /\ comp o /\
  exists before after, fops = before ++ o :: after /\
    forall q, In q before -> comp q -> ~ eligible sel st consumed q.
Proof.
  intros H Hat. apply resolve_core_iff in H. destruct H as (s0 & s1 & ap1 & ap2 & Hrun & ->).
  pose proof Hrun as (Hfc & Hr1 & Hr2).
  apply core_create in Hfc. destruct Hfc as (_ & _ & Hc).
  destruct (run_chain_traced _ _ _ _ _ Hr1) as [Hf1 Hp1].
  destruct Hat as [l1 o l2 st Hsp Hst | l1 o l2 st Hsp Hst].
  - rewrite (core_run_applied_split _ _ _ _ _ _ _ Hrun) in Hsp.
    destruct (Hp1 _ _ _ Hsp) as (st' & Hst' & He & b & a & Hops & Hb).
    unfold state_after in Hst. cbn [fold_apply] in Hst. rewrite Hc, Hst' in Hst. injection Hst as ->.
    cbn [app] in He, Hb. split; [exact He|]. split.
    { assert (Hin : In o (filter is_full fops)) by (rewrite Hops; apply in_or_app; right; left; reflexivity).
      apply filter_In in Hin. apply Hin. }
    destruct (filter_split _ _ _ _ _ Hops) as (b' & a' & Hfops & Hfb & _).
    exists b', a'. split; [exact Hfops|]. intros q Hq Hcomp. apply Hb. rewrite <- Hfb.
    apply filter_In. split; assumption.
  - rewrite (core_run_applied_updates _ _ _ _ _ _ _ Hrun) in Hsp.
    rewrite (core_run_applied_split _ _ _ _ _ _ _ Hrun) in Hst.
    destruct (deact s1) eqn:Ed.
    { destruct Hr2 as [_ ->]. destruct l1; discriminate. }
    destruct (run_chain_traced _ _ _ _ _ Hr2) as [_ Hp2].
    destruct (Hp2 _ _ _ Hsp) as (st' & Hst' & He & b & a & Hops & Hb).
    unfold state_after in Hst. cbn [fold_apply] in Hst. rewrite Hc, fold_apply_app, Hf1, Hst' in Hst.
    injection Hst as ->. cbn [app] in He, Hb. split; [exact He|].
    assert (Hin : In o (filter (op_after (last_t s1) (last_n s1)) (filter (is_ty Update) fops)))
      by (rewrite Hops; apply in_or_app; right; left; reflexivity).
    apply filter_In in Hin. destruct Hin as [Hin Hafter]. apply filter_In in Hin. destruct Hin as [_ Hu].
    split.
    { split; [apply is_ty_true; exact Hu|]. rewrite (op_after_s1 _ _ _ _ _ _ _ _ Hrun). exact Hafter. }
    destruct (filter_split _ _ _ _ _ Hops) as (b1 & a1 & Hupds & Hfb1 & _).
    destruct (filter_split _ _ _ _ _ Hupds) as (b' & a' & Hfops & Hfb & _).
    exists b', a'. split; [exact Hfops|]. intros q Hq [Hqu Hqa]. apply Hb. rewrite <- Hfb1.
    apply filter_In. split.
    + rewrite <- Hfb. apply filter_In. split; [exact Hq | apply is_ty_true; exact Hqu].
    + rewrite <- (op_after_s1 _ _ _ _ _ _ _ _ Hrun). exact Hqa.
Qed.

(* consequences of eligibility worth naming (C12): the applied operation reveals the commitment in
   force, commits to a different one, and not to one consumed earlier in its chain *)
Corollary applied_consumes_fresh fops c0 s ap o sel st consumed comp :
  resolve_core fops = inr (Some (c0, s, ap)) ->
  applied_at c0 ap o sel st consumed comp ->
  reveal_c o = sel st /\ next_c o <> reveal_c o /\ ~ In (reveal_c o) consumed /\
  (next_c o = 0 \/ ~ In (next_c o) consumed).
Proof.
  intros H Hat. pose proof (applied_is_first_eligible _ _ _ _ _ _ _ _ _ H Hat) as ((_ & _ & _ & Hr & Hn & Hfresh & _) & _).
  split; [exact Hr|]. split; [congruence|]. split; [|exact Hfresh].
  destruct (applied_reveals_nodup _ _ _ _ H) as [Hnd1 Hnd2].
  destruct Hat as [l1 o l2 st Hsp _ | l1 o l2 st Hsp _].
  - rewrite Hsp, map_app in Hnd1. cbn [map] in Hnd1. apply NoDup_remove_2 in Hnd1.
    intros Hin. apply Hnd1. apply in_or_app. left. exact Hin.
  - rewrite Hsp, map_app in Hnd2. cbn [map] in Hnd2. apply NoDup_remove_2 in Hnd2.
    intros Hin. apply Hnd2. apply in_or_app. left. exact Hin.
Qed.

(* a precedes b in processing order: when b is published, a is published and not anchored later *)
Definition proc_le (a b : aop) : Prop := published b = true -> published a = true /\ op_le a b.

(* published operations in chronological order, then unpublished ones *)
Definition processing_order (l : list aop) : Prop := StronglySorted proc_le l.

Lemma ss_split {A} (R : A -> A -> Prop) b o a : StronglySorted R (b ++ o :: a) -> Forall (R o) a.
Proof.
  induction b as [|x r IH]; cbn [app]; intros H; apply StronglySorted_inv in H; destruct H as [Hs Ha];
    [exact Ha | apply IH; exact Hs].
Qed.

(* published operations sorted by [R], then unpublished ones *)
Lemma published_first_sorted (R : aop -> aop -> Prop) p u :
  StronglySorted R p -> Forall (fun o => published o = true) p -> Forall (fun o => published o = false) u ->
  StronglySorted (fun a b => published b = true -> published a = true /\ R a b) (p ++ u).
Proof.
  intros Hs Hp Hu. induction Hs as [|a r Hs IH Ha]; cbn [app].
  - clear Hp. induction Hu as [|x t Hx Ht IHu]; constructor; [exact IHu|].
    rewrite Forall_forall in *. intros y Hy Hpy. rewrite (Ht y Hy) in Hpy. discriminate.
  - inversion Hp as [|? ? Hpa Hpr]; subst. constructor; [apply IH; exact Hpr|].
    rewrite Forall_forall in *. intros y Hy Hpy. apply in_app_or in Hy. destruct Hy as [Hy|Hy].
    + split; [exact Hpa | apply Ha; exact Hy].
    + rewrite (Hu y Hy) in Hpy. discriminate.
Qed.

Lemma processing_order_app p u :
  StronglySorted op_le p -> Forall (fun o => published o = true) p ->
  Forall (fun o => published o = false) u -> processing_order (p ++ u).
Proof. apply published_first_sorted. Qed.

Lemma Forall_sort_ops (P : aop -> Prop) l : Forall P l -> Forall P (sort_ops l).
Proof. rewrite !Forall_forall. intros H x Hx. apply H. apply in_sort_ops. exact Hx. Qed.

(* the stores' invariants: the operation store returns operations that carry a canonical
   reference, the unpublished-operation store returns operations that carry none *)
Definition stores_ok (pub unpub : list aop) : Prop :=
  Forall (fun o => published o = true) pub /\ Forall (fun o => published o = false) unpub.

(* Whatever the resolution options (additional operations, version id, version time),
   the list handed to the core of Resolve is in processing order. *)
Theorem prepare_processing_order pub unpub opts rp ru fops :
  stores_ok pub unpub -> prepare pub unpub opts = inr (rp, ru, fops) -> processing_order fops.
Proof.
  intros [Hp Hu] Hprep. pose proof (prepare_fops _ _ _ _ _ _ Hprep) as Hf.
  rewrite merge_additional_spec in Hf.
  assert (Hall : processing_order (sort_ops (pub ++ added_pub pub (o_additional opts)) ++
                                   sort_ops (unpub ++ added_unpub (o_additional opts)))).
  { apply processing_order_app; [apply sort_ops_sorted | |]; apply Forall_sort_ops, Forall_app; split; try assumption.
    - apply Forall_forall. intros x Hx. unfold added_pub in Hx. apply filter_In in Hx. destruct Hx as [_ Hx].
      apply andb_true_iff in Hx. apply Hx.
    - apply Forall_forall. intros x Hx. unfold added_unpub in Hx. apply filter_In in Hx. destruct Hx as [_ Hx].
      unfold published. rewrite Hx. reflexivity. }
  revert Hf Hall. generalize (sort_ops (pub ++ added_pub pub (o_additional opts)) ++
                             sort_ops (unpub ++ added_unpub (o_additional opts))). intros l.
  unfold filter_ops. destruct (negb (o_vid opts =? 0)).
  - destruct (prefix_through (o_vid opts) l) as [p|] eqn:Ep; [|discriminate]. intros Hf Hall. injection Hf as <-.
    destruct (prefix_through_is_prefix _ _ _ Ep) as [rest ->]. eapply ss_prefix; exact Hall.
  - destruct (o_vtime opts) as [t|].
    + destruct (filter_time t l) as [|x r] eqn:Eft; [discriminate|]. intros Hf Hall. injection Hf as <-.
      rewrite <- Eft. apply ss_filter. exact Hall.
    + intros Hf Hall. injection Hf as <-. exact Hall.
Qed.

Lemma resolve_full_prepared pub unpub opts r :
  resolve_full pub unpub opts = inr r ->
  exists rp ru fops, prepare pub unpub opts = inr (rp, ru, fops) /\ resolve_core fops = inr r.
Proof.
  unfold resolve_full. destruct (prepare pub unpub opts) as [e|[[rp ru] fops]]; [discriminate|].
  intros H. exists rp, ru, fops. auto.
Qed.

(* C02.  [fops] in processing order.  If [o] was applied at a point and [q] is a
   published competitor that is eligible at that very point, then [o] is published too and [q] is
   not anchored before [o]: no eligible anchored operation is earlier than the applied one. *)
Theorem applied_is_earliest fops c0 s ap o sel st consumed comp :
  processing_order fops ->
  resolve_core fops = inr (Some (c0, s, ap)) ->
  applied_at c0 ap o sel st consumed comp ->
  forall q, In q fops -> comp q -> published q = true -> eligible sel st consumed q ->
    published o = true /\ op_lt q o = false.
Proof.
  intros Hord H Hat q Hq Hcomp Hpub Heq.
  destruct (applied_is_first_eligible _ _ _ _ _ _ _ _ _ H Hat) as (_ & _ & b & a & Hfops & Hb).
  rewrite Hfops in Hq. apply in_app_or in Hq. destruct Hq as [Hq|[<-|Hq]].
  - exfalso. exact (Hb q Hq Hcomp Heq).
  - split; [exact Hpub | apply op_lt_irrefl].
  - unfold processing_order in Hord. rewrite Hfops in Hord. apply ss_split in Hord.
    rewrite Forall_forall in Hord. exact (Hord q Hq Hpub).
Qed.

(* with distinct anchoring coordinates: the applied operation is STRICTLY earlier than every other
   eligible published competitor *)
Corollary applied_is_strictly_earliest fops c0 s ap o sel st consumed comp :
  processing_order fops -> key_inj fops ->
  resolve_core fops = inr (Some (c0, s, ap)) ->
  applied_at c0 ap o sel st consumed comp ->
  forall q, In q fops -> comp q -> published q = true -> eligible sel st consumed q -> q <> o ->
    op_lt o q = true.
Proof.
  intros Hord Hk H Hat q Hq Hcomp Hpub Heq Hne.
  destruct (applied_is_earliest _ _ _ _ _ _ _ _ _ Hord H Hat q Hq Hcomp Hpub Heq) as [_ Hle].
  destruct (op_lt o q) eqn:E; [reflexivity|]. exfalso. apply Hne.
  destruct (applied_is_first_eligible _ _ _ _ _ _ _ _ _ H Hat) as (_ & _ & b & a & Hfops & _).
  apply Hk; [exact Hq | rewrite Hfops; apply in_or_app; right; left; reflexivity |].
  apply op_le_antisym; [exact E | exact Hle].
Qed.

(* published before unpublished: an unpublished operation is applied only when no published
   competitor is eligible at that point *)
Corollary published_preferred fops c0 s ap o sel st consumed comp :
  processing_order fops ->
  resolve_core fops = inr (Some (c0, s, ap)) ->
  applied_at c0 ap o sel st consumed comp -> published o = false ->
  forall q, In q fops -> comp q -> eligible sel st consumed q -> published q = false.
Proof.
  intros Hord H Hat Hun q Hq Hcomp Heq. destruct (published q) eqn:Hpub; [|reflexivity].
  destruct (applied_is_earliest _ _ _ _ _ _ _ _ _ Hord H Hat q Hq Hcomp Hpub Heq) as [Hpo _]. congruence.
Qed.

(* store level, all options: what [prepare] hands to the core *)
Theorem earliest_wins_resolve pub unpub opts c0 s ap :
  stores_ok pub unpub ->
  resolve_full pub unpub opts = inr (Some (c0, s, ap)) ->
  exists rp ru fops, prepare pub unpub opts = inr (rp, ru, fops) /\
  forall o sel st consumed comp, applied_at c0 ap o sel st consumed comp ->
    eligible sel st consumed o /\
    forall q, In q fops -> comp q -> eligible sel st consumed q ->
      (published q = true -> published o = true /\ op_lt q o = false) /\
      (published o = false -> published q = false).
Proof.
  intros Hst Hres. destruct (resolve_full_prepared _ _ _ _ Hres) as (rp & ru & fops & Hprep & Hcore).
  exists rp, ru, fops. split; [exact Hprep|].
  pose proof (prepare_processing_order _ _ _ _ _ _ Hst Hprep) as Hord.
  intros o sel st consumed comp Hat. split.
  - apply (applied_is_first_eligible _ _ _ _ _ _ _ _ _ Hcore Hat).
  - intros q Hq Hcomp Heq. split.
    + intros Hpub. eapply applied_is_earliest; eassumption.
    + intros Hun. eapply published_preferred; eassumption.
Qed.

(* store level, no options: the competitors range over everything the two stores hold *)
Theorem earliest_wins_store pub unpub c0 s ap :
  stores_ok pub unpub ->
  resolve_full pub unpub no_opts = inr (Some (c0, s, ap)) ->
  forall o sel st consumed comp, applied_at c0 ap o sel st consumed comp ->
    eligible sel st consumed o /\
    forall q, In q (pub ++ unpub) -> comp q -> eligible sel st consumed q ->
      (published q = true -> published o = true /\ op_lt q o = false) /\
      (published o = false -> published q = false).
Proof.
  intros Hst Hres. destruct (earliest_wins_resolve _ _ _ _ _ _ Hst Hres) as (rp & ru & fops & Hprep & Hall).
  rewrite prepare_no_opts in Hprep. injection Hprep as _ _ <-.
  intros o sel st consumed comp Hat. destruct (Hall _ _ _ _ _ Hat) as [He Hq]. split; [exact He|].
  intros q Hin. apply Hq. apply in_sorted_app. exact Hin.
Qed.

(* A fork.  create (commits to update key 20, recovery key 30); THREE updates reveal 20:
     f_late   anchored at (12,0)          commits to 41
     f_early  anchored at (11,5)          commits to 42     <- earliest anchored: wins
     f_unpub  unpublished, time 9         commits to 43     <- earlier "time" but unpublished
   then an update revealing 42 and one revealing 41 (the losing branch), and a recover.
   The stores return them in an arbitrary order. *)
Definition f_create := xop 1 Create 10 0 0 101 20 30.
Definition f_late := xop 2 Update 12 0 20 102 41 0.
Definition f_early := xop 3 Update 11 5 20 103 42 0.
Definition f_unpub := unpublished (xop 4 Update 9 0 20 104 43 0).
Definition f_next42 := xop 5 Update 13 0 42 105 44 0.
Definition f_next41 := xop 6 Update 13 1 41 106 45 0.
Definition f_pub := [f_next41; f_late; f_next42; f_create; f_early].
Definition f_unp := [f_unpub].

Definition f_state : state :=
  {| doc := Some [101; 103; 105]; upd := 44; rec := 30; deact := false; last_t := 13; last_n := 0;
     created := 10; updated := 13; vid := 5; canon := 1; aorigin := 1 |}.

Example fork_resolves :
  resolve_full f_pub f_unp no_opts = inr (Some (f_create, f_state, [f_early; f_next42])).
Proof. vm_compute. reflexivity. Qed.

Example fork_stores_ok : stores_ok f_pub f_unp.
Proof. split; repeat constructor. Qed.

Example fork_state_is_fold : state_after f_create [f_early; f_next42] = Some f_state.
Proof. exact (resolved_state_is_fold _ _ _ _ (eq_trans (eq_sym (resolve_full_no_opts f_pub f_unp)) fork_resolves)). Qed.

Definition f_s0 : state :=
  {| doc := Some [101]; upd := 20; rec := 30; deact := false; last_t := 10; last_n := 0;
     created := 10; updated := 0; vid := 1; canon := 1; aorigin := 1 |}.

(* the point at which f_early was applied: right after the create, nothing consumed *)
Example fork_point :
  applied_at f_create [f_early; f_next42] f_early upd f_s0 []
    (fun q => ty q = Update /\ after_replay_point f_create [f_early; f_next42] q = true).
Proof. apply (at_update f_create [f_early; f_next42] [] f_early [f_next42] f_s0); vm_compute; reflexivity. Qed.

(* the theorem, instantiated: f_late and f_unpub are eligible competitors at that point ... *)
Example fork_competitors_eligible :
  eligible upd f_s0 [] f_late /\ eligible upd f_s0 [] f_unpub.
Proof.
  split; apply eligible_iff; split; vm_compute; reflexivity.
Qed.

(* ... so the applied operation is published and not later than f_late *)
Example fork_earliest_wins : published f_early = true /\ op_lt f_late f_early = false.
Proof.
  destruct (earliest_wins_store _ _ _ _ _ fork_stores_ok fork_resolves _ _ _ _ _ fork_point) as [_ H].
  apply (H f_late); [vm_compute; tauto | split; vm_compute; reflexivity | apply fork_competitors_eligible | reflexivity].
Qed.

Example fork_nodup :
  NoDup (map reveal_c (filter is_full [f_early; f_next42])) /\
  NoDup (map reveal_c (filter (is_ty Update) [f_early; f_next42])).
Proof. exact (applied_reveals_nodup_store _ _ _ _ _ _ fork_resolves). Qed.

(* when the anchored competitors are absent the unpublished one is applied:
   [published_preferred] is about preference, not exclusion *)
Example unpublished_applied_when_alone :
  resolve_full [f_create] f_unp no_opts
  = inr (Some (f_create,
               {| doc := Some [101; 104]; upd := 43; rec := 30; deact := false; last_t := 9; last_n := 0;
                  created := 10; updated := 9; vid := 0; canon := 1; aorigin := 1 |}, [f_unpub])).
Proof. vm_compute. reflexivity. Qed.

(* in the history of Extend.v: the point at which the recover was applied *)
Example hist_points :
  applied_at h_create [h_rec; h_upd2] h_rec rec
    {| doc := Some [101]; upd := 20; rec := 30; deact := false; last_t := 10; last_n := 0;
       created := 10; updated := 0; vid := 1; canon := 1; aorigin := 1 |} []
    (fun q => is_full q = true).
Proof. apply (at_full h_create [h_rec; h_upd2] [] h_rec [] _); vm_compute; reflexivity. Qed.

(* the prepared list of the fork, and the core-level theorems on it *)
Definition f_fops := [f_create; f_early; f_late; f_next42; f_next41; f_unpub].

Example fork_prepared : prepare f_pub f_unp no_opts = inr (sort_ops f_pub, sort_ops f_unp, f_fops).
Proof. vm_compute. reflexivity. Qed.

Example fork_core : resolve_core f_fops = inr (Some (f_create, f_state, [f_early; f_next42])).
Proof. vm_compute. reflexivity. Qed.

Example fork_order : processing_order f_fops.
Proof. exact (prepare_processing_order _ _ _ _ _ _ fork_stores_ok fork_prepared). Qed.

Example fork_key_inj : key_inj f_fops.
Proof. apply key_inj_dec. reflexivity. Qed.

Example fork_first_eligible :
  exists before after, f_fops = before ++ f_early :: after /\
    forall q, In q before -> ty q = Update /\ after_replay_point f_create [f_early; f_next42] q = true ->
              ~ eligible upd f_s0 [] q.
Proof. destruct (applied_is_first_eligible _ _ _ _ _ _ _ _ _ fork_core fork_point) as (_ & _ & H). exact H. Qed.

Example fork_strictly_earliest : op_lt f_early f_late = true.
Proof.
  apply (applied_is_strictly_earliest _ _ _ _ _ _ _ _ _ fork_order fork_key_inj fork_core fork_point f_late).
  - vm_compute. tauto.
  - split; vm_compute; reflexivity.
  - reflexivity.
  - apply fork_competitors_eligible.
  - discriminate.
Qed.

Example fork_has_point :
  exists sel st consumed comp, applied_at f_create [f_early; f_next42] f_next42 sel st consumed comp.
Proof. exact (applied_has_point _ _ _ _ _ fork_core (or_intror (or_introl eq_refl))). Qed.

Example fork_consumes_fresh :
  reveal_c f_early = upd f_s0 /\ next_c f_early <> reveal_c f_early /\ ~ In (reveal_c f_early) [] /\
  (next_c f_early = 0 \/ ~ In (next_c f_early) []).
Proof. exact (applied_consumes_fresh _ _ _ _ _ _ _ _ _ fork_core fork_point). Qed.

(* [published_preferred] instantiated: in the store [f_create] + [f_unpub] the unpublished update is applied, so
   every competitor eligible at that point is unpublished *)
Example alone_point :
  applied_at f_create [f_unpub] f_unpub upd f_s0 []
    (fun q => ty q = Update /\ after_replay_point f_create [f_unpub] q = true).
Proof. apply (at_update f_create [f_unpub] [] f_unpub [] f_s0); vm_compute; reflexivity. Qed.

Example alone_no_published_competitor :
  forall q, In q ([f_create] ++ f_unp) -> ty q = Update /\ after_replay_point f_create [f_unpub] q = true ->
    eligible upd f_s0 [] q -> published q = false.
Proof.
  assert (Hst : stores_ok [f_create] f_unp) by (split; repeat constructor).
  destruct (earliest_wins_store _ _ _ _ _ Hst unpublished_applied_when_alone _ _ _ _ _ alone_point) as [_ H].
  intros q Hq Hc He. apply (H q Hq Hc He). reflexivity.
Qed.

(* with a version time: the earliest eligible anchored operation still wins among the operations
   that pass the filter *)
Example fork_at_time :
  exists s rp ru fops,
    resolve_full f_pub f_unp (at_time 12) = inr (Some (f_create, s, [f_early])) /\
    prepare f_pub f_unp (at_time 12) = inr (rp, ru, fops) /\ processing_order fops /\
    forall o sel st consumed comp, applied_at f_create [f_early] o sel st consumed comp ->
      eligible sel st consumed o /\
      forall q, In q fops -> comp q -> eligible sel st consumed q ->
        (published q = true -> published o = true /\ op_lt q o = false) /\
        (published o = false -> published q = false).
Proof.
  assert (H : exists s, resolve_full f_pub f_unp (at_time 12) = inr (Some (f_create, s, [f_early])))
    by (eexists; vm_compute; reflexivity).
  destruct H as [s H]. destruct (earliest_wins_resolve _ _ _ _ _ _ fork_stores_ok H) as (rp & ru & fops & Hp & Hall).
  exists s, rp, ru, fops. split; [exact H|]. split; [exact Hp|].
  split; [exact (prepare_processing_order _ _ _ _ _ _ fork_stores_ok Hp) | exact Hall].
Qed.

Print Assumptions applied_reveals_nodup.
Print Assumptions resolved_state_is_fold.
Print Assumptions applied_has_point.
Print Assumptions applied_is_first_eligible.
Print Assumptions applied_consumes_fresh.
Print Assumptions prepare_processing_order.
Print Assumptions applied_is_earliest.
Print Assumptions applied_is_strictly_earliest.
Print Assumptions published_preferred.
Print Assumptions earliest_wins_resolve.
Print Assumptions earliest_wins_store.
