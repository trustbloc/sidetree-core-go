(* Operations that are never applied have no effect on resolution (C01, C02, C04); the core never
   runs out of fuel; [authorised], the predicate of C01 (Auth.v), and that only authorised
   operations are applied. *)
From Coq Require Import List.
From SV Require Import Base.ListFacts Resolve.Op Resolve.Apply Resolve.ApplyFacts Resolve.Process Resolve.ProcessFacts
  Resolve.Chain Resolve.Core.
Import ListNotations.
Local Open Scope Z_scope.

Lemma first_valid_create_filter_none (q : aop -> bool) l :
  first_valid_create l = None -> first_valid_create (filter q l) = None.
Proof.
  rewrite !first_valid_create_none, !Forall_forall. intros H x Hx. apply filter_In in Hx. apply H, Hx.
Qed.

(* dropping operations that are neither the chosen create nor applied leaves the result of
   the core of Resolve unchanged *)
Theorem resolve_core_filter (q : aop -> bool) fops c0 s ap :
  resolve_core fops = inr (Some (c0, s, ap)) ->
  q c0 = true -> Forall (fun o => q o = true) ap ->
  resolve_core (filter q fops) = inr (Some (c0, s, ap)).
Proof.
  intros H Hc Hq. apply resolve_core_some in H. destruct H as (s0 & s1 & ap1 & ap2 & (Hfc & Hr1 & Hr2) & ->).
  apply Forall_app in Hq. destruct Hq as [Hq1 Hq2].
  apply resolve_core_some. exists s0, s1, ap1, ap2. split; [|reflexivity].
  rewrite (filter_comm (is_ty Create) q), (filter_comm is_full q), (filter_comm (is_ty Update) q), creates_pf_filter.
  split; [apply first_valid_create_filter; assumption|].
  split; [apply run_chain_filter; [apply follows_fulls | assumption | assumption]|].
  destruct (deact s1); [exact Hr2|].
  rewrite (filter_comm _ q). apply run_chain_filter; [apply follows_updates | assumption | assumption].
Qed.

(* error outcomes are preserved when no create is dropped *)
Theorem resolve_core_filter_err (q : aop -> bool) fops e :
  resolve_core fops = inl e -> (forall o, In o fops -> ty o = Create -> q o = true) ->
  resolve_core (filter q fops) = inl e.
Proof.
  intros H Hc. apply resolve_core_err in H. destruct H as [Hn ->]. apply resolve_core_err.
  assert (Hid : filter q (filter (is_ty Create) fops) = filter (is_ty Create) fops).
  { apply filter_all. intros x Hx. apply filter_In in Hx. destruct Hx as [Hx Ht].
    apply Hc; [exact Hx | apply is_ty_true; exact Ht]. }
  rewrite (filter_comm _ q), Hid. split; [exact Hn | reflexivity].
Qed.

(* the core never runs out of fuel *)
Theorem resolve_core_total fops : resolve_core fops <> inr None.
Proof.
  unfold resolve_core.
  destruct (creates_published_first (filter (is_ty Create) fops)) as [|cx cr]; [discriminate|].
  destruct (first_valid_create (cx :: cr)) as [[c1 s0]|]; [|discriminate].
  pose proof (run_chain_total rec _ s0 (follows_fulls fops)) as H1.
  destruct (run_chain rec (filter is_full fops) s0) as [[s1 ap1]|]; [|congruence].
  destruct (deact s1); [discriminate|].
  pose proof (run_chain_total upd _ s1 (follows_updates (op_after (last_t s1) (last_n s1)) fops)) as H2.
  destruct (run_chain upd _ s1) as [[? ?]|]; [discriminate | congruence].
Qed.

(* what Apply requires of an operation whatever the state ([apply_some_authorised]) *)
Definition authorised (o : aop) : bool :=
  parse_ok o && match ty o with
                | Create => true
                | Update | Recover => sig_ok o
                | Deactivate => sig_ok o && sfx_ok o
                end.

Lemma apply_some_authorised o s s' : apply o s = Some s' -> authorised o = true.
Proof.
  intros H. apply apply_some in H. destruct H as [H _]. apply accepts_iff in H. destruct H as (_ & Hp & H).
  unfold authorised. rewrite Hp. destruct (ty o); cbn [andb]; [reflexivity | apply H | apply H |].
  destruct H as (_ & -> & -> & _). reflexivity.
Qed.

Theorem resolve_core_applied_authorised fops c0 s ap :
  resolve_core fops = inr (Some (c0, s, ap)) ->
  authorised c0 = true /\ Forall (fun o => authorised o = true) ap.
Proof.
  intros H. apply resolve_core_applied in H. destruct H as [(_ & _ & s0 & Hc) Ha].
  split; [eapply apply_some_authorised; exact Hc|].
  eapply Forall_impl; [|exact Ha]. cbn. intros o (_ & _ & s1 & s2 & Hs). eapply apply_some_authorised; exact Hs.
Qed.

Theorem resolve_core_applied_in fops c0 s ap :
  resolve_core fops = inr (Some (c0, s, ap)) ->
  In c0 fops /\ ty c0 = Create /\ Forall (fun o => In o fops /\ ty o <> Create) ap.
Proof.
  intros H. apply resolve_core_applied in H. destruct H as [(Hi & Hty & _) Ha].
  split; [exact Hi | split; [exact Hty|]]. eapply Forall_impl; [|exact Ha]. cbn. tauto.
Qed.
