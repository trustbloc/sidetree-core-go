(* resolve_core taken apart: the three phases of a successful resolution, the error outcomes,
   and what is known of the chosen create and of the operations each chain applied.
   (Extend.core_run names the three phases of [resolve_core_some] as one predicate.) *)
From Coq Require Import List.
From SV Require Import Resolve.Op Resolve.Apply Resolve.Process Resolve.ProcessFacts Resolve.Chain.
Import ListNotations.
Local Open Scope Z_scope.

Lemma updates_are_updates p fops : Forall (fun o => ty o = Update) (filter p (filter (is_ty Update) fops)).
Proof.
  apply Forall_forall. intros x Hx. apply filter_In in Hx. destruct Hx as [Hx _].
  apply filter_In in Hx. apply is_ty_true, Hx.
Qed.

Lemma follows_fulls fops : follows rec (filter is_full fops).
Proof. apply follows_rec, Forall_forall. intros x Hx. apply filter_In in Hx. apply Hx. Qed.

Lemma follows_updates p fops : follows upd (filter p (filter (is_ty Update) fops)).
Proof. apply follows_upd, updates_are_updates. Qed.

(* first valid create (c0, s0); recovery chain to s1 applying ap1; then, unless deactivated,
   update chain to s applying ap2 *)
Lemma resolve_core_some fops c0 s ap :
  resolve_core fops = inr (Some (c0, s, ap)) <->
  exists s0 s1 ap1 ap2,
    (first_valid_create (creates_published_first (filter (is_ty Create) fops)) = Some (c0, s0) /\
     run_chain rec (filter is_full fops) s0 = Some (s1, ap1) /\
     (if deact s1 then s = s1 /\ ap2 = []
      else run_chain upd (filter (op_after (last_t s1) (last_n s1)) (filter (is_ty Update) fops)) s1
           = Some (s, ap2))) /\
    ap = ap1 ++ ap2.
Proof.
  unfold resolve_core. split.
  - destruct (creates_published_first (filter (is_ty Create) fops)) as [|cx cr]; [discriminate|].
    destruct (first_valid_create (cx :: cr)) as [[c1 s0]|] eqn:Efc; [|discriminate].
    destruct (run_chain rec (filter is_full fops) s0) as [[s1 ap1]|] eqn:Er1; [|discriminate].
    destruct (deact s1) eqn:Ed.
    + intros [= <- <- <-]. exists s0, s1, ap1, []. rewrite Ed, app_nil_r. auto.
    + destruct (run_chain upd _ s1) as [[s2 ap2]|] eqn:Er2; [|discriminate].
      intros [= <- <- <-]. exists s0, s1, ap1, ap2. rewrite Ed. auto.
  - intros (s0 & s1 & ap1 & ap2 & (Hfc & Hr1 & Hr2) & ->). revert Hfc.
    destruct (creates_published_first (filter (is_ty Create) fops)) as [|cx cr]; [discriminate|].
    intros Hfc. rewrite Hfc, Hr1. destruct (deact s1).
    + destruct Hr2 as [-> ->]. rewrite app_nil_r. reflexivity.
    + rewrite Hr2. reflexivity.
Qed.

(* the two errors: no create accepted by Apply; the message tells whether there was a create at all *)
Lemma resolve_core_err fops e :
  resolve_core fops = inl e <->
  first_valid_create (creates_published_first (filter (is_ty Create) fops)) = None /\
  e = match filter (is_ty Create) fops with [] => ENoCreate | _ => ENoValidCreate end.
Proof.
  unfold resolve_core. pose proof (creates_pf_nil (filter (is_ty Create) fops)) as Hnil.
  destruct (creates_published_first (filter (is_ty Create) fops)) as [|cx cr].
  - rewrite (proj1 Hnil eq_refl). split; [intros [= <-]; auto | intros [_ ->]; reflexivity].
  - destruct (filter (is_ty Create) fops) as [|y t]; [discriminate (proj2 Hnil eq_refl)|].
    destruct (first_valid_create (cx :: cr)) as [[c1 s0]|].
    + split; [|intros [[=] _]].
      destruct (run_chain rec (filter is_full fops) s0) as [[s1 ap1]|]; [|discriminate].
      destruct (deact s1); [discriminate|]. destruct (run_chain upd _ s1) as [[? ?]|]; discriminate.
    + split; [intros [= <-]; auto | intros [_ ->]; reflexivity].
Qed.

Lemma core_create fops c0 s0 :
  first_valid_create (creates_published_first (filter (is_ty Create) fops)) = Some (c0, s0) ->
  In c0 fops /\ ty c0 = Create /\ apply c0 init_state = Some s0.
Proof. intros H. apply first_valid_create_in in H. destruct H as [Hi Hc]. apply in_creates in Hi. tauto. Qed.

(* the recovery chain applies recovers and deactivates, the update chain updates that pass the
   "after" filter *)
Lemma core_classes fops s0 s1 s ap1 ap2 :
  run_chain rec (filter is_full fops) s0 = Some (s1, ap1) ->
  (if deact s1 then s = s1 /\ ap2 = []
   else run_chain upd (filter (op_after (last_t s1) (last_n s1)) (filter (is_ty Update) fops)) s1 = Some (s, ap2)) ->
  Forall (fun o => In o fops /\ is_full o = true) ap1 /\
  Forall (fun o => In o fops /\ ty o = Update /\ op_after (last_t s1) (last_n s1) o = true) ap2.
Proof.
  intros Hr1 Hr2. split.
  - eapply Forall_impl; [|apply (run_chain_applied _ _ _ _ _ Hr1)]. cbn. intros o [Ho _]. apply filter_In, Ho.
  - destruct (deact s1); [destruct Hr2 as [_ ->]; constructor|].
    eapply Forall_impl; [|apply (run_chain_applied _ _ _ _ _ Hr2)]. cbn. intros o [Ho _].
    apply filter_In in Ho. destruct Ho as [Ho Ha]. apply filter_In in Ho. destruct Ho as [Ho Hu].
    apply is_ty_true in Hu. auto.
Qed.

(* the chosen create and every applied operation are operations of the list that Apply accepted *)
Lemma resolve_core_applied fops c0 s ap :
  resolve_core fops = inr (Some (c0, s, ap)) ->
  (In c0 fops /\ ty c0 = Create /\ exists s0, apply c0 init_state = Some s0) /\
  Forall (fun o => In o fops /\ ty o <> Create /\ exists s1 s2, apply o s1 = Some s2) ap.
Proof.
  intros H. apply resolve_core_some in H. destruct H as (s0 & s1 & ap1 & ap2 & (Hfc & Hr1 & Hr2) & ->).
  destruct (core_create _ _ _ Hfc) as (Hi & Hty & Hc). split; [eauto|].
  destruct (core_classes _ _ _ _ _ _ Hr1 Hr2) as [H1 H2]. rewrite Forall_forall in H1, H2.
  apply Forall_app. split; apply Forall_forall; intros o Ho.
  - pose proof (run_chain_applied _ _ _ _ _ Hr1) as Ha. rewrite Forall_forall in Ha.
    destruct (H1 o Ho) as [Hio Hf]. apply is_full_true in Hf.
    split; [exact Hio | split; [destruct Hf; congruence | apply (Ha o Ho)]].
  - destruct (deact s1); [destruct Hr2 as [_ ->]; destruct Ho|].
    pose proof (run_chain_applied _ _ _ _ _ Hr2) as Ha. rewrite Forall_forall in Ha.
    destruct (H2 o Ho) as (Hio & Hu & _). split; [exact Hio | split; [congruence | apply (Ha o Ho)]].
Qed.
