(* What the selection functions of Process.v select: operation classes, the create list, the
   first valid create, the candidates of a commitment. *)
From Coq Require Import List ZArith Bool.
From SV Require Import Base.ListFacts Resolve.Op Resolve.Apply Resolve.ApplyFacts Resolve.Process.
Import ListNotations.
Local Open Scope Z_scope.

Lemma filter_snoc {A} (p : A -> bool) l x :
  filter p (l ++ [x]) = if p x then filter p l ++ [x] else filter p l.
Proof. rewrite filter_app. cbn [filter]. destruct (p x); [reflexivity | apply app_nil_r]. Qed.

Lemma filter_comm {A} (p q : A -> bool) l : filter p (filter q l) = filter q (filter p l).
Proof.
  induction l as [|x r IH]; [reflexivity|]. cbn [filter].
  destruct (q x) eqn:Hq, (p x) eqn:Hp; cbn [filter]; rewrite ?Hq, ?Hp, IH; reflexivity.
Qed.

Lemma last_in {A} (l : list A) d : l <> [] -> In (last l d) l.
Proof.
  induction l as [|x r IH]; [congruence|]. intros _. destruct r as [|y t]; [left; reflexivity|].
  right. change (last (x :: y :: t) d) with (last (y :: t) d). apply IH. discriminate.
Qed.

Lemma is_ty_true t o : is_ty t o = true <-> ty o = t.
Proof. unfold is_ty. destruct (ty o), t; cbn; split; congruence. Qed.

Lemma is_ty_false t o : is_ty t o = false <-> ty o <> t.
Proof. rewrite <- is_ty_true. destruct (is_ty t o); split; congruence. Qed.

Lemma is_full_true o : is_full o = true <-> ty o = Recover \/ ty o = Deactivate.
Proof. unfold is_full. rewrite orb_true_iff, !is_ty_true. reflexivity. Qed.

Lemma is_full_false o : is_full o = false <-> ty o = Create \/ ty o = Update.
Proof. unfold is_full, is_ty. destruct (ty o); cbn; split; auto; try discriminate; intros [H|H]; discriminate H. Qed.

Lemma class_create o : ty o = Create -> is_ty Create o = true /\ is_full o = false /\ is_ty Update o = false.
Proof. unfold is_full, is_ty. intros ->. auto. Qed.

Lemma class_update o : ty o = Update -> is_ty Create o = false /\ is_full o = false /\ is_ty Update o = true.
Proof. unfold is_full, is_ty. intros ->. auto. Qed.

Lemma class_full o : is_full o = true -> is_ty Create o = false /\ is_ty Update o = false.
Proof. rewrite is_full_true. unfold is_ty. intros [-> | ->]; auto. Qed.

Lemma in_creates_pf l x : In x (creates_published_first l) <-> In x l.
Proof.
  unfold creates_published_first. rewrite in_app_iff, !filter_In.
  destruct (published x); cbn [negb]; intuition congruence.
Qed.

Lemma in_creates fops x :
  In x (creates_published_first (filter (is_ty Create) fops)) <-> In x fops /\ ty x = Create.
Proof. rewrite in_creates_pf, filter_In, is_ty_true. reflexivity. Qed.

Lemma creates_pf_filter (q : aop -> bool) l :
  creates_published_first (filter q l) = filter q (creates_published_first l).
Proof. unfold creates_published_first. rewrite filter_app, !(filter_comm _ q). reflexivity. Qed.

Lemma creates_pf_nil l : creates_published_first l = [] <-> l = [].
Proof.
  split; [|intros ->; reflexivity]. destruct l as [|x r]; [reflexivity|]. intros H. exfalso.
  assert (Hx : In x (creates_published_first (x :: r))) by (apply in_creates_pf; left; reflexivity).
  rewrite H in Hx. exact Hx.
Qed.

(* the create Resolve chooses is the first one of the list that Apply accepts *)
Lemma first_valid_create_some l c s :
  first_valid_create l = Some (c, s) <->
  exists before after, l = before ++ c :: after /\
    Forall (fun x => apply x init_state = None) before /\ apply c init_state = Some s.
Proof.
  induction l as [|x r IH]; cbn [first_valid_create].
  - split; [discriminate | intros ([|? ?] & ? & H & _); discriminate].
  - destruct (apply x init_state) as [sx|] eqn:E.
    + split.
      * intros [= <- <-]. exists [], r. repeat split; [constructor | exact E].
      * intros ([|y b] & a & Hl & Hb & Hc); injection Hl as <- ->; [congruence|].
        inversion Hb; congruence.
    + rewrite IH. split.
      * intros (b & a & -> & Hb & Hc). exists (x :: b), a. repeat split; [constructor; assumption | exact Hc].
      * intros ([|y b] & a & Hl & Hb & Hc); injection Hl as <- ->; [congruence|].
        exists b, a. inversion Hb; auto.
Qed.

Lemma first_valid_create_none l :
  first_valid_create l = None <-> Forall (fun x => apply x init_state = None) l.
Proof.
  induction l as [|x r IH]; cbn [first_valid_create]; [split; [constructor | reflexivity]|].
  destruct (apply x init_state) eqn:E.
  - split; [discriminate | intros H; inversion H; congruence].
  - rewrite IH. split; [constructor; assumption | intros H; inversion H; assumption].
Qed.

Lemma first_valid_create_in l c s :
  first_valid_create l = Some (c, s) -> In c l /\ apply c init_state = Some s.
Proof.
  intros H. apply first_valid_create_some in H. destruct H as (b & a & -> & _ & Hc).
  split; [apply in_elt | exact Hc].
Qed.

Lemma first_valid_create_app l1 l2 :
  first_valid_create (l1 ++ l2) =
  match first_valid_create l1 with Some r => Some r | None => first_valid_create l2 end.
Proof.
  induction l1 as [|x t IH]; [reflexivity|]. cbn [app first_valid_create].
  destruct (apply x init_state); [reflexivity | exact IH].
Qed.

Lemma first_valid_create_filter (q : aop -> bool) l c s :
  first_valid_create l = Some (c, s) -> q c = true -> first_valid_create (filter q l) = Some (c, s).
Proof.
  rewrite !first_valid_create_some. intros (b & a & -> & Hb & Hc) Hq. exists (filter q b), (filter q a).
  rewrite filter_app. cbn [filter]. rewrite Hq. repeat split; [|exact Hc].
  apply Forall_forall. intros x Hx. apply filter_In in Hx. rewrite Forall_forall in Hb. apply Hb, Hx.
Qed.

(* the test that [candidates] (Process.v) filters by *)
Definition cand_pred (c : Z) (o : aop) : bool :=
  parse_ok o && negb (is_ty Create o) && has_proto o && (reveal_c o =? c).

Lemma candidates_is_filter c ops : candidates c ops = filter (cand_pred c) ops.
Proof. reflexivity. Qed.

Lemma cand_pred_iff c o :
  cand_pred c o = true <-> ty o <> Create /\ parse_ok o = true /\ mdelta o <> None /\ reveal_c o = c.
Proof.
  unfold cand_pred, has_proto. rewrite !andb_true_iff, negb_true_iff, is_ty_false, Z.eqb_eq.
  destruct (mdelta o); intuition congruence.
Qed.

Lemma in_candidates c ops x : In x (candidates c ops) <-> In x ops /\ cand_pred c x = true.
Proof. apply filter_In. Qed.

Lemma candidates_app c l1 l2 : candidates c (l1 ++ l2) = candidates c l1 ++ candidates c l2.
Proof. apply filter_app. Qed.

Lemma candidates_filter (q : aop -> bool) c ops :
  candidates c (filter q ops) = filter q (candidates c ops).
Proof. apply filter_comm. Qed.

Lemma candidates_none c ops : (forall q, In q ops -> reveal_c q <> c) -> candidates c ops = [].
Proof.
  intros H. rewrite candidates_is_filter. apply filter_none. intros q Hq.
  destruct (cand_pred c q) eqn:E; [|reflexivity].
  apply cand_pred_iff in E. elim (H q Hq). apply E.
Qed.

(* an operation Apply accepts is a candidate for the commitment it reveals *)
Lemma accepted_cand o s : accepts o s = true -> ty o <> Create -> cand_pred (reveal_c o) o = true.
Proof. intros Ha Hty. apply accepts_iff in Ha. apply cand_pred_iff. tauto. Qed.
