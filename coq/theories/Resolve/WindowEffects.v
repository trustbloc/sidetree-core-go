(* Effects of the anchoring window on operation application (C05). *)
From Coq Require Import List ZArith Bool.
From SV Require Import Parser.Window Parser.WindowProofs Resolve.Op Resolve.Apply Resolve.ApplyFacts.
Import ListNotations.
Local Open Scope Z_scope.

(* whether an update is accepted at all does not depend on the window *)
Lemma update_accept_window_free o s :
  ty o = Update ->
  (apply o s <> None <->
   doc s <> None /\ mdelta o <> None /\ parse_ok o = true /\ dhash_ok o = true /\ sig_ok o = true /\ dvalid o = true).
Proof. intros Hty. rewrite apply_none, not_false_iff_true, accepts_iff, Hty. tauto. Qed.

Lemma update_outside o s s' :
  ty o = Update -> apply o s = Some s' -> op_in_window o = false ->
  doc s' = doc s /\ upd s' = upd_c o /\ rec s' = rec s /\ deact s' = false.
Proof.
  intros Hty Ha Hw. rewrite (apply_post _ _ _ _ Hty Ha). cbn [post_of].
  unfold effective. rewrite Hw. cbn. destruct (doc s); auto.
Qed.

Lemma update_inside o s s' d :
  ty o = Update -> apply o s = Some s' -> op_in_window o = true -> patch_ok o = true -> doc s = Some d ->
  doc s' = Some (add_content d (delta o)) /\ upd s' = upd_c o /\ rec s' = rec s.
Proof.
  intros Hty Ha Hw Hp Hd. rewrite (apply_post _ _ _ _ Hty Ha). cbn [post_of].
  unfold effective. rewrite Hw, Hp, Hd. auto.
Qed.

Lemma recover_outside o s s' :
  ty o = Recover -> apply o s = Some s' -> op_in_window o = false ->
  doc s' = Some [] /\ rec s' = rec_c o /\ deact s' = false /\
  (dhash_ok o = true -> dvalid o = true -> upd s' = upd_c o).
Proof.
  intros Hty Ha Hw. rewrite (apply_post _ _ _ _ Hty Ha). cbn [post_of].
  unfold effective. rewrite Hw. cbn [andb]. rewrite andb_false_r. cbn. repeat split.
  intros H1 H2. unfold usable. rewrite H1, H2. reflexivity.
Qed.

Lemma recover_inside o s s' :
  ty o = Recover -> apply o s = Some s' -> op_in_window o = true ->
  dhash_ok o = true -> dvalid o = true -> patch_ok o = true ->
  doc s' = Some [delta o] /\ rec s' = rec_c o /\ upd s' = upd_c o.
Proof.
  intros Hty Ha Hw H1 H2 H3. rewrite (apply_post _ _ _ _ Hty Ha). cbn [post_of].
  unfold usable, effective. rewrite Hw, H1, H2, H3. auto.
Qed.

Lemma deactivate_outside o s :
  ty o = Deactivate -> op_in_window o = false -> apply o s = None.
Proof.
  intros Hty Hw. apply apply_none. destruct (accepts o s) eqn:E; [|reflexivity].
  apply accepts_iff in E. rewrite Hty in E. destruct E as (_ & _ & _ & _ & _ & E). congruence.
Qed.

Lemma deactivate_inside o s s' :
  ty o = Deactivate -> apply o s = Some s' ->
  op_in_window o = true /\ deact s' = true /\ doc s' = Some [] /\ upd s' = 0 /\ rec s' = 0.
Proof.
  intros Hty Ha. apply apply_some in Ha. destruct Ha as [Hacc ->]. apply accepts_iff in Hacc. rewrite Hty in Hacc.
  rewrite (post_ty _ _ _ Hty). split; [apply Hacc | auto].
Qed.

(* the window test of an operation is the exact inclusive interval *)
Lemma op_in_window_spec o d :
  mdelta o = Some d ->
  (op_in_window o = true <->
   (a_from o = 0 /\ a_until o = 0) \/ (a_from o <= time o /\ time o <= eff_until d (a_from o) (a_until o))).
Proof. intros H. unfold op_in_window. rewrite H. apply in_window_spec. Qed.
