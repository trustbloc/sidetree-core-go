(* C06 in the presence of additional operations (resolution option "additional operations"):
   the theorems of Version.v, extended to [o_additional].

   Key fact (prepare_additional / resolve_additional): supplying operations through the option is
   the same as having them in the stores, after the merge rule of applyResolutionOptions
   ([merge_additional]: an additional published operation whose canonical reference is already
   among the STORED published operations is dropped, the other published ones join the published
   operations, the unpublished ones join the unpublished operations).  This holds for the complete
   outcome of Resolve (state, returned operation lists, errors) and for every version filter.
   Everything else follows from Version.v. *)
From Coq Require Import List ZArith Bool.
From SV Require Import Base.ListFacts Resolve.Op Resolve.Process Resolve.Order
  Resolve.Prepare Resolve.Version Resolve.Extend.
Import ListNotations.
Local Open Scope Z_scope.

(* the stores' content after the merge *)
Definition merged_pub (pub adds : list aop) : list aop := pub ++ added_pub pub adds.
Definition merged_unpub (unpub adds : list aop) : list aop := unpub ++ added_unpub adds.

(* the same options without the additional operations *)
Definition strip (opts : ropts) : ropts :=
  {| o_vid := o_vid opts; o_vtime := o_vtime opts; o_additional := [] |}.

Lemma merge_additional_merged pub unpub adds :
  merge_additional pub pub unpub adds = (merged_pub pub adds, merged_unpub unpub adds).
Proof. apply merge_additional_spec. Qed.

(* Additional operations = stored operations (after the merge), for every option. *)
Theorem prepare_additional pub unpub opts :
  prepare pub unpub opts =
  prepare (merged_pub pub (o_additional opts)) (merged_unpub unpub (o_additional opts)) (strip opts).
Proof.
  unfold prepare. rewrite merge_additional_merged. cbn [strip o_additional merge_additional].
  reflexivity.
Qed.

Theorem resolve_additional pub unpub opts :
  resolve pub unpub opts =
  resolve (merged_pub pub (o_additional opts)) (merged_unpub unpub (o_additional opts)) (strip opts).
Proof. unfold resolve. rewrite prepare_additional. reflexivity. Qed.

Theorem resolve_full_additional pub unpub opts :
  resolve_full pub unpub opts =
  resolve_full (merged_pub pub (o_additional opts)) (merged_unpub unpub (o_additional opts)) (strip opts).
Proof. unfold resolve_full. rewrite prepare_additional. reflexivity. Qed.

(* what the merge keeps *)
Lemma added_pub_all pub adds :
  (forall o, In o adds -> cref o <> 0 /\ forall q, In q pub -> cref q <> cref o) ->
  added_pub pub adds = adds.
Proof.
  intros H. unfold added_pub. apply filter_all. intros o Ho. destruct (H o Ho) as [Hc Hn].
  apply andb_true_iff. split; [apply negb_true_iff, Z.eqb_neq; exact Hc|].
  apply negb_true_iff. destruct (existsb (fun q => cref q =? cref o) pub) eqn:E; [|reflexivity].
  apply existsb_exists in E. destruct E as (q & Hq & Hqe). apply Z.eqb_eq in Hqe. elim (Hn q Hq Hqe).
Qed.

Lemma added_unpub_none adds : (forall o, In o adds -> cref o <> 0) -> added_unpub adds = [].
Proof.
  intros H. unfold added_unpub. apply filter_none. intros o Ho. apply Z.eqb_neq. apply H. exact Ho.
Qed.

Lemma added_unpub_unpublished adds o : In o (added_unpub adds) -> cref o = 0.
Proof. unfold added_unpub. intros H. apply filter_In in H. apply Z.eqb_eq. apply H. Qed.

Lemma added_pub_published pub adds o : In o (added_pub pub adds) -> cref o <> 0.
Proof.
  unfold added_pub. intros H. apply filter_In in H. destruct H as [_ H]. apply andb_true_iff in H.
  destruct H as [H _]. apply negb_true_iff, Z.eqb_neq in H. exact H.
Qed.

(* an additional published operation whose reference is stored is ignored *)
Lemma added_pub_known_dropped pub adds :
  (forall o, In o adds -> cref o <> 0 /\ exists q, In q pub /\ cref q = cref o) -> added_pub pub adds = [].
Proof.
  intros H. unfold added_pub. apply filter_none. intros o Ho. destruct (H o Ho) as [_ (q & Hq & Hqe)].
  apply andb_false_iff. right. apply negb_false_iff. apply existsb_exists. exists q.
  split; [exact Hq | apply Z.eqb_eq; exact Hqe].
Qed.

(* Part of the history supplied as additional (anchored) operations resolves exactly as
   if it were in the operation store - the complete outcome, including the returned operation
   lists - provided the additional operations carry canonical references that are not stored. *)
Theorem additional_history_as_stored pub unpub adds :
  (forall o, In o adds -> cref o <> 0 /\ forall q, In q pub -> cref q <> cref o) ->
  resolve pub unpub {| o_vid := 0; o_vtime := None; o_additional := adds |}
  = resolve (pub ++ adds) unpub no_opts.
Proof.
  intros H. rewrite resolve_additional. cbn [o_additional]. unfold merged_pub, merged_unpub.
  rewrite (added_pub_all _ _ H), added_unpub_none, app_nil_r; [reflexivity|].
  intros o Ho. apply H. exact Ho.
Qed.

(* ... and re-supplying operations that are already stored changes nothing *)
Theorem additional_known_ignored pub unpub adds :
  (forall o, In o adds -> cref o <> 0 /\ exists q, In q pub /\ cref q = cref o) ->
  resolve pub unpub {| o_vid := 0; o_vtime := None; o_additional := adds |} = resolve pub unpub no_opts.
Proof.
  intros H. rewrite resolve_additional. cbn [o_additional]. unfold merged_pub, merged_unpub.
  rewrite (added_pub_known_dropped _ _ H), added_unpub_none, !app_nil_r; [reflexivity|].
  intros o Ho. apply H. exact Ho.
Qed.

(* additional unpublished operations are appended to the unpublished ones *)
Theorem additional_unpublished_as_stored pub unpub adds :
  (forall o, In o adds -> cref o = 0) ->
  resolve pub unpub {| o_vid := 0; o_vtime := None; o_additional := adds |}
  = resolve pub (unpub ++ adds) no_opts.
Proof.
  intros H. rewrite resolve_additional. cbn [o_additional]. unfold merged_pub, merged_unpub.
  assert (E1 : added_pub pub adds = []).
  { unfold added_pub. apply filter_none. intros o Ho. rewrite (H o Ho). reflexivity. }
  assert (E2 : added_unpub adds = adds).
  { unfold added_unpub. apply filter_all. intros o Ho. rewrite (H o Ho). reflexivity. }
  rewrite E1, E2, app_nil_r. reflexivity.
Qed.

Definition at_time_with (t : Z) (adds : list aop) : ropts :=
  {| o_vid := 0; o_vtime := Some t; o_additional := adds |}.
Definition at_id_with (v : Z) (vt : option Z) (adds : list aop) : ropts :=
  {| o_vid := v; o_vtime := vt; o_additional := adds |}.

Lemma resolve_full_at_time_with t pub unpub adds :
  resolve_full pub unpub (at_time_with t adds) =
  resolve_full (merged_pub pub adds) (merged_unpub unpub adds) (at_time t).
Proof. apply resolve_full_additional. Qed.

(* Resolution at version time t with additional operations = plain resolution of the
   merged history truncated at t. *)
Theorem version_time_additional t pub unpub adds :
  key_inj (merged_pub pub adds) -> key_inj (merged_unpub unpub adds) ->
  (exists o, In o (merged_pub pub adds ++ merged_unpub unpub adds) /\ time o <= t) ->
  resolve_full pub unpub (at_time_with t adds) =
  resolve_full (filter_time t (merged_pub pub adds)) (filter_time t (merged_unpub unpub adds)) no_opts.
Proof.
  intros Hp Hu Hex. rewrite resolve_full_at_time_with.
  apply version_time_is_truncation; assumption.
Qed.

Theorem version_time_additional_before_first t pub unpub adds :
  (forall o, In o (merged_pub pub adds ++ merged_unpub unpub adds) -> t < time o) ->
  resolve_full pub unpub (at_time_with t adds) = inl ENoOpsForTime.
Proof.
  intros H. rewrite resolve_full_at_time_with.
  apply version_time_before_first_is_error. exact H.
Qed.

(* operations anchored (stored or supplied) after the version time cannot change the past *)
Theorem later_additional_cannot_change_past_time t pub unpub adds :
  key_inj (merged_pub pub adds) -> key_inj (merged_unpub unpub adds) ->
  (forall o, In o adds -> t < time o) ->
  (exists o, In o (pub ++ unpub) /\ time o <= t) ->
  resolve_full pub unpub (at_time_with t adds) = resolve_full pub unpub (at_time t).
Proof.
  intros Hp Hu Hlater Hex. rewrite resolve_full_at_time_with.
  apply later_ops_cannot_change_past_time; try assumption.
  intros o Ho. apply Hlater. apply in_app_or in Ho.
  destruct Ho as [Ho|Ho]; [unfold added_pub in Ho | unfold added_unpub in Ho]; apply filter_In in Ho; apply Ho.
Qed.

Lemma filter_ops_vid v vt adds l : v <> 0 ->
  filter_ops (at_id_with v vt adds) l = filter_ops (at_id v) l.
Proof. intros Hv. unfold filter_ops. cbn [at_id_with at_id o_vid]. apply Z.eqb_neq in Hv. rewrite Hv. reflexivity. Qed.

Lemma resolve_full_at_id_with v vt pub unpub adds : v <> 0 ->
  resolve_full pub unpub (at_id_with v vt adds) =
  resolve_full (merged_pub pub adds) (merged_unpub unpub adds) (at_id v).
Proof.
  intros Hv. rewrite !resolve_full_eq. cbn [at_id_with at_id o_additional merge_additional].
  rewrite merge_additional_merged. rewrite filter_ops_vid by exact Hv. reflexivity.
Qed.

(* Resolution at version id v with additional operations (a version time given at the
   same time is ignored by the code) = plain resolution of the prefix of the merged, sorted
   anchored history through the operation carrying reference v; an unknown reference is an error *)
Theorem version_id_additional v vt pub unpub adds :
  v <> 0 -> key_inj (merged_pub pub adds) -> (forall o, In o unpub -> cref o = 0) ->
  match prefix_through v (sort_ops (merged_pub pub adds)) with
  | Some p => resolve_full pub unpub (at_id_with v vt adds) = resolve_full p [] no_opts
  | None => resolve_full pub unpub (at_id_with v vt adds) = inl EBadVersionId
  end.
Proof.
  intros Hv Hk Hun. rewrite resolve_full_at_id_with by exact Hv.
  apply version_id_is_prefix; [exact Hv | exact Hk |].
  intros o Ho. apply in_app_or in Ho. destruct Ho as [Ho|Ho]; [apply Hun; exact Ho | eapply added_unpub_unpublished; exact Ho].
Qed.

(* additional operations anchored after everything stored do not change a past version id *)
Theorem later_additional_cannot_change_past_id v vt pub unpub adds p :
  v <> 0 -> key_inj (merged_pub pub adds) ->
  (forall o, In o unpub -> cref o = 0) ->
  (forall a b, In a pub -> In b adds -> op_le a b) ->
  prefix_through v (sort_ops pub) = Some p ->
  resolve_full pub unpub (at_id_with v vt adds) = resolve_full pub unpub (at_id v).
Proof.
  intros Hv Hk Hun Hlater Hp. rewrite resolve_full_at_id_with by exact Hv.
  unfold merged_pub. apply (later_ops_cannot_change_past_id v pub unpub (added_pub pub adds) _ p); try assumption.
  - intros o Ho. apply in_app_or in Ho. destruct Ho as [Ho|Ho]; [apply Hun; exact Ho | eapply added_unpub_unpublished; exact Ho].
  - intros a b Ha Hb. apply Hlater; [exact Ha|]. unfold added_pub in Hb. apply filter_In in Hb. apply Hb.
Qed.

(* Examples: the history of Extend.v, split between store and option.
   hist = [h_create; h_upd1; h_rec; h_upd2] at times 10, 11, 12, 13 with references 1..4 *)
Definition va_store := [h_upd1; h_create].
Definition va_adds := [h_upd2; h_rec; h_upd1].      (* h_upd1 is already stored: dropped *)
Definition va_pending := unpublished (xop 9 Update 50 0 23 109 29 0).   (* reveals 23 = upd_c h_upd2 *)

Example va_merged : merged_pub va_store va_adds = [h_upd1; h_create; h_upd2; h_rec].
Proof. vm_compute. reflexivity. Qed.

Example va_key_inj : key_inj (merged_pub va_store va_adds).
Proof. apply key_inj_dec. reflexivity. Qed.

Example va_key_inj_unpub : key_inj (merged_unpub [] (va_pending :: va_adds)).
Proof. apply key_inj_dec. reflexivity. Qed.

(* everything supplied: the result of resolving the complete history *)
Example va_all :
  resolve_full va_store [] {| o_vid := 0; o_vtime := None; o_additional := va_adds |}
  = inr (Some (h_create, s_hist, [h_rec; h_upd2])).
Proof. vm_compute. reflexivity. Qed.

Example va_all_as_stored :
  resolve [h_create] [] {| o_vid := 0; o_vtime := None; o_additional := [h_upd2; h_rec; h_upd1] |}
  = resolve ([h_create] ++ [h_upd2; h_rec; h_upd1]) [] no_opts.
Proof.
  apply additional_history_as_stored. intros o Ho. vm_compute in Ho.
  destruct Ho as [<-|[<-|[<-|[]]]]; (split; [vm_compute; discriminate|]);
    intros q [<-|[]]; vm_compute; discriminate.
Qed.

(* version time 12 over store + additional (one of them unpublished, at time 50): the merged
   history truncated at 12 *)
Example va_time :
  resolve_full va_store [] (at_time_with 12 (va_pending :: va_adds))
  = resolve_full (filter_time 12 (merged_pub va_store (va_pending :: va_adds)))
                 (filter_time 12 (merged_unpub [] (va_pending :: va_adds))) no_opts.
Proof.
  apply version_time_additional.
  - exact va_key_inj.
  - exact va_key_inj_unpub.
  - exists h_create. split; [vm_compute; tauto | vm_compute; discriminate].
Qed.

Example va_time_value :
  resolve_full va_store [] (at_time_with 12 (va_pending :: va_adds))
  = inr (Some (h_create,
               {| doc := Some [103]; upd := 22; rec := 31; deact := false; last_t := 12; last_n := 0;
                  created := 10; updated := 12; vid := 3; canon := 3; aorigin := 1 |}, [h_rec])).
Proof. vm_compute. reflexivity. Qed.

(* version id 3 (the recover, supplied as additional): prefix through it *)
Example va_id :
  resolve_full va_store [] (at_id_with 3 (Some 10) va_adds) = resolve_full [h_create; h_upd1; h_rec] [] no_opts.
Proof.
  pose proof (version_id_additional 3 (Some 10) va_store [] va_adds ltac:(discriminate) va_key_inj
                ltac:(intros ? [])) as H.
  vm_compute prefix_through in H. exact H.
Qed.

Example va_id_unknown :
  resolve_full va_store [] (at_id_with 77 None va_adds) = inl EBadVersionId.
Proof.
  pose proof (version_id_additional 77 None va_store [] va_adds ltac:(discriminate) va_key_inj
                ltac:(intros ? [])) as H.
  vm_compute prefix_through in H. exact H.
Qed.

Print Assumptions prepare_additional.
Print Assumptions resolve_additional.
Print Assumptions additional_history_as_stored.
Print Assumptions additional_known_ignored.
Print Assumptions additional_unpublished_as_stored.
Print Assumptions version_time_additional.
Print Assumptions version_time_additional_before_first.
Print Assumptions later_additional_cannot_change_past_time.
Print Assumptions version_id_additional.
Print Assumptions later_additional_cannot_change_past_id.
