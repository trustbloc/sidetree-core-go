(* C06: resolution at a version time / version id equals resolution of the truncated history. *)
From Coq Require Import List ZArith.
From SV Require Import Base.ListFacts Resolve.Op Resolve.Process Resolve.Order Resolve.Prepare.
Import ListNotations.
Local Open Scope Z_scope.

Definition at_time (t : Z) : ropts := {| o_vid := 0; o_vtime := Some t; o_additional := [] |}.
Definition at_id (v : Z) : ropts := {| o_vid := v; o_vtime := None; o_additional := [] |}.

Lemma prepare_fops pub unpub opts rp ru fops :
  prepare pub unpub opts = inr (rp, ru, fops) ->
  let '(p0, u0) := merge_additional pub pub unpub (o_additional opts) in
  filter_ops opts (sort_ops p0 ++ sort_ops u0) = inr fops.
Proof.
  unfold prepare. destruct (merge_additional pub pub unpub (o_additional opts)) as [p0 u0].
  destruct (filter_ops opts (sort_ops p0 ++ sort_ops u0)) as [e|f]; [discriminate|].
  destruct (Nat.eqb _ _); intros H; inversion H; reflexivity.
Qed.

Lemma resolve_full_eq pub unpub opts :
  resolve_full pub unpub opts =
  let '(p0, u0) := merge_additional pub pub unpub (o_additional opts) in
  match filter_ops opts (sort_ops p0 ++ sort_ops u0) with
  | inl e => inl e
  | inr fops => resolve_core fops
  end.
Proof.
  unfold resolve_full, prepare. destruct (merge_additional pub pub unpub (o_additional opts)) as [p0 u0].
  destruct (filter_ops opts (sort_ops p0 ++ sort_ops u0)) as [e|f]; [reflexivity|].
  destruct (Nat.eqb _ _); reflexivity.
Qed.

Lemma resolve_full_at_time t pub unpub :
  resolve_full pub unpub (at_time t) =
  match filter_time t (sort_ops pub ++ sort_ops unpub) with
  | [] => inl ENoOpsForTime
  | l => resolve_core l
  end.
Proof.
  rewrite resolve_full_eq. unfold at_time, filter_ops. cbn [o_additional merge_additional o_vid o_vtime].
  change (negb (0 =? 0)) with false. cbv iota.
  destruct (filter_time t (sort_ops pub ++ sort_ops unpub)); reflexivity.
Qed.

Lemma resolve_full_at_id v pub unpub : v <> 0 ->
  resolve_full pub unpub (at_id v) =
  match prefix_through v (sort_ops pub ++ sort_ops unpub) with
  | Some p => resolve_core p
  | None => inl EBadVersionId
  end.
Proof.
  intros Hv. rewrite resolve_full_eq. unfold at_id, filter_ops. cbn [o_additional merge_additional o_vid o_vtime].
  apply Z.eqb_neq in Hv. rewrite Hv. cbn [negb].
  destruct (prefix_through v (sort_ops pub ++ sort_ops unpub)); reflexivity.
Qed.

Theorem version_time_is_truncation t pub unpub :
  key_inj pub -> key_inj unpub ->
  (exists o, In o (pub ++ unpub) /\ time o <= t) ->
  resolve_full pub unpub (at_time t) = resolve_full (filter_time t pub) (filter_time t unpub) no_opts.
Proof.
  intros Hp Hu (o & Hin & Hle). rewrite resolve_full_at_time.
  unfold filter_time at 2 3. rewrite resolve_full_filter_no_opts by assumption.
  fold (filter_time t (sort_ops pub ++ sort_ops unpub)).
  destruct (filter_time t (sort_ops pub ++ sort_ops unpub)) as [|x r] eqn:E; [|reflexivity].
  exfalso. assert (Hi : In o (filter_time t (sort_ops pub ++ sort_ops unpub))).
  { unfold filter_time. apply filter_In. split; [apply in_sorted_app; exact Hin | apply Z.leb_le; exact Hle]. }
  rewrite E in Hi. exact Hi.
Qed.

Theorem version_time_before_first_is_error t pub unpub :
  (forall o, In o (pub ++ unpub) -> t < time o) ->
  resolve_full pub unpub (at_time t) = inl ENoOpsForTime.
Proof.
  intros Hall. rewrite resolve_full_at_time.
  assert (E : filter_time t (sort_ops pub ++ sort_ops unpub) = []).
  { unfold filter_time. apply filter_none. intros x Hx. apply Z.leb_gt. apply Hall.
    apply (proj1 (in_sorted_app _ _ _)). exact Hx. }
  rewrite E. reflexivity.
Qed.

(* operations anchored after the version time cannot change what the version resolves to *)
Theorem later_ops_cannot_change_past_time t pub unpub ext_pub ext_unpub :
  key_inj (pub ++ ext_pub) -> key_inj (unpub ++ ext_unpub) ->
  (forall o, In o (ext_pub ++ ext_unpub) -> t < time o) ->
  (exists o, In o (pub ++ unpub) /\ time o <= t) ->
  resolve_full (pub ++ ext_pub) (unpub ++ ext_unpub) (at_time t) = resolve_full pub unpub (at_time t).
Proof.
  intros Hkp Hku Hlater (o & Hin & Hle).
  pose proof (key_inj_incl _ _ (incl_appl _ (incl_refl _)) Hkp) as Hkp'.
  pose proof (key_inj_incl _ _ (incl_appl _ (incl_refl _)) Hku) as Hku'.
  assert (Hex : exists o0, In o0 ((pub ++ ext_pub) ++ unpub ++ ext_unpub) /\ time o0 <= t).
  { exists o. split; [|exact Hle]. apply in_app_or in Hin. rewrite !in_app_iff. tauto. }
  rewrite (version_time_is_truncation t (pub ++ ext_pub) (unpub ++ ext_unpub) Hkp Hku Hex).
  rewrite (version_time_is_truncation t pub unpub Hkp' Hku' (ex_intro _ o (conj Hin Hle))).
  unfold filter_time. rewrite !filter_app.
  rewrite (filter_none _ ext_pub), (filter_none _ ext_unpub), !app_nil_r; [reflexivity | |];
    intros x Hx; apply Z.leb_gt; apply Hlater; apply in_or_app; [right | left]; exact Hx.
Qed.

Lemma prefix_through_app_l v l1 l2 p :
  prefix_through v l1 = Some p -> prefix_through v (l1 ++ l2) = Some p.
Proof.
  revert p. induction l1 as [|x r IH]; intros p; [discriminate|]. cbn [app prefix_through].
  destruct (cref x =? v); [auto|].
  destruct (prefix_through v r) as [q|]; [|discriminate]. intros H. rewrite (IH q eq_refl). exact H.
Qed.

Lemma prefix_through_app_none v l1 l2 :
  prefix_through v l1 = None -> (forall o, In o l2 -> cref o <> v) -> prefix_through v (l1 ++ l2) = None.
Proof.
  intros H1 H2. induction l1 as [|x r IH]; cbn [app prefix_through] in *.
  - induction l2 as [|y t IHt]; [reflexivity|]. cbn [prefix_through].
    destruct (cref y =? v) eqn:E; [apply Z.eqb_eq in E; elim (H2 y (or_introl eq_refl) E)|].
    rewrite IHt; [reflexivity|]. intros o Ho. apply H2. right. exact Ho.
  - destruct (cref x =? v); [discriminate|].
    destruct (prefix_through v r); [discriminate|]. rewrite IH; reflexivity.
Qed.

Lemma prefix_through_is_prefix v l p : prefix_through v l = Some p -> exists rest, l = p ++ rest.
Proof.
  revert p. induction l as [|x r IH]; intros p; [discriminate|]. cbn [prefix_through].
  destruct (cref x =? v); [intros H; inversion H; exists r; reflexivity|].
  destruct (prefix_through v r) as [q|]; [|discriminate]. intros H; inversion H; subst.
  destruct (IH q eq_refl) as [rest ->]. exists rest. reflexivity.
Qed.

(* resolving at version id v = resolving only the operations up to and including the one whose
   canonical reference is v (in anchoring order); an unknown id is an error.  [key_inj pub] is not
   used, here and in the theorems derived from this one. *)
Theorem version_id_is_prefix v pub unpub :
  v <> 0 -> key_inj pub -> (forall o, In o unpub -> cref o = 0) ->
  match prefix_through v (sort_ops pub) with
  | Some p => resolve_full pub unpub (at_id v) = resolve_full p [] no_opts
  | None => resolve_full pub unpub (at_id v) = inl EBadVersionId
  end.
Proof.
  intros Hv _ Hun. rewrite resolve_full_at_id by assumption.
  destruct (prefix_through v (sort_ops pub)) as [p|] eqn:E.
  - rewrite (prefix_through_app_l _ _ _ _ E), resolve_full_published.
    destruct (prefix_through_is_prefix _ _ _ E) as [rest Hrest].
    rewrite sort_ops_id; [reflexivity|]. apply ss_prefix with (l2 := rest). rewrite <- Hrest. apply sort_ops_sorted.
  - rewrite prefix_through_app_none; [reflexivity | exact E |].
    intros o Ho. rewrite (Hun o); [congruence|].
    apply in_sort_ops, Ho.
Qed.

Theorem later_ops_cannot_change_past_id v pub unpub ext unpub' p :
  v <> 0 -> key_inj (pub ++ ext) ->
  (forall o, In o unpub -> cref o = 0) -> (forall o, In o unpub' -> cref o = 0) ->
  (forall a b, In a pub -> In b ext -> op_le a b) ->
  prefix_through v (sort_ops pub) = Some p ->
  resolve_full (pub ++ ext) unpub' (at_id v) = resolve_full pub unpub (at_id v).
Proof.
  intros Hv Hk Hun Hun' Hlater Hp.
  pose proof (key_inj_incl _ _ (incl_appl _ (incl_refl _)) Hk) as Hkp.
  pose proof (version_id_is_prefix v pub unpub Hv Hkp Hun) as H1. rewrite Hp in H1.
  pose proof (version_id_is_prefix v (pub ++ ext) unpub' Hv Hk Hun') as H2.
  rewrite sort_ops_app_later in H2 by exact Hlater. rewrite (prefix_through_app_l _ _ _ _ Hp) in H2.
  congruence.
Qed.
