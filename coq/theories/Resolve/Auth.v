(* C01: only authorised operations change the resolved state ([authorised] is in Inert.v). *)
From Coq Require Import List Bool.
From SV Require Import Resolve.Op Resolve.Apply Resolve.ApplyFacts Resolve.Process Resolve.ProcessFacts Resolve.Order
  Resolve.Chain Resolve.Core Resolve.Inert Resolve.Prepare.
Import ListNotations.
Local Open Scope Z_scope.

(* an operation that is not authorised is rejected by Apply in every state *)
Theorem unauthorised_never_applies o s : authorised o = false -> apply o s = None.
Proof.
  intros H. destruct (apply o s) eqn:E; [|reflexivity].
  apply apply_some_authorised in E. congruence.
Qed.

(* General form: dropping any operations that are neither the chosen create nor applied does not
   change the result *)
Theorem unapplied_ops_inert (q : aop -> bool) pub unpub c0 s ap :
  key_inj pub -> key_inj unpub ->
  resolve_full pub unpub no_opts = inr (Some (c0, s, ap)) ->
  q c0 = true -> Forall (fun o => q o = true) ap ->
  resolve_full (filter q pub) (filter q unpub) no_opts = inr (Some (c0, s, ap)).
Proof.
  intros Hp Hu Hr Hc Hq. rewrite resolve_full_filter_no_opts by assumption.
  rewrite resolve_full_no_opts in Hr. apply resolve_core_filter; assumption.
Qed.

(* forged / tampered / wrongly revealed update, recover and deactivate operations, in any number
   and anywhere in the history, leave resolution unchanged *)
Theorem forged_ops_inert (q : aop -> bool) pub unpub :
  key_inj pub -> key_inj unpub ->
  (forall o, In o (pub ++ unpub) -> q o = false -> ty o <> Create /\ authorised o = false) ->
  resolve_full (filter q pub) (filter q unpub) no_opts = resolve_full pub unpub no_opts.
Proof.
  intros Hp Hu Hbad. rewrite resolve_full_filter_no_opts by assumption. rewrite resolve_full_no_opts.
  assert (Hbad' : forall o, In o (sort_ops pub ++ sort_ops unpub) -> q o = false -> ty o <> Create /\ authorised o = false)
    by (intros o Ho; apply Hbad, in_sorted_app, Ho).
  destruct (resolve_core (sort_ops pub ++ sort_ops unpub)) as [e|[[[c0 s] ap]|]] eqn:Hr.
  - apply resolve_core_filter_err; [exact Hr|]. intros o Hin Hty.
    destruct (q o) eqn:Hq; [reflexivity|]. destruct (Hbad' o Hin Hq). contradiction.
  - destruct (resolve_core_applied _ _ _ _ Hr) as [(Hc0 & Hty0 & _) Ha].
    apply resolve_core_filter; [exact Hr | |].
    + destruct (q c0) eqn:Hq; [reflexivity|]. destruct (Hbad' c0 Hc0 Hq). contradiction.
    + eapply Forall_impl; [|exact Ha]. cbn. intros o (Hio & _ & s1 & s2 & Hs). destruct (q o) eqn:Hq; [reflexivity|].
      destruct (Hbad' o Hio Hq) as [_ Hna]. rewrite (apply_some_authorised _ _ _ Hs) in Hna. discriminate.
  - exfalso. eapply resolve_core_total; exact Hr.
Qed.

(* further creates (same or other delta) that are not the chosen create are inert *)
Theorem other_creates_inert (q : aop -> bool) pub unpub c0 s ap :
  key_inj pub -> key_inj unpub ->
  resolve_full pub unpub no_opts = inr (Some (c0, s, ap)) ->
  q c0 = true -> (forall o, q o = false -> ty o = Create) ->
  resolve_full (filter q pub) (filter q unpub) no_opts = inr (Some (c0, s, ap)).
Proof.
  intros Hp Hu Hr Hc Hcr. apply unapplied_ops_inert; try assumption.
  rewrite resolve_full_no_opts in Hr. pose proof (resolve_core_applied_in _ _ _ _ Hr) as (_ & _ & Hin).
  rewrite Forall_forall in *. intros o Ho. destruct (q o) eqn:Hq; [reflexivity|].
  destruct (Hin o Ho) as [_ Hne]. elim Hne. apply Hcr. exact Hq.
Qed.

(* which create is chosen: the first one, published creates first and in anchoring order within
   each class, that the applier accepts *)
Theorem chosen_create_is_first fops c0 s ap :
  resolve_core fops = inr (Some (c0, s, ap)) ->
  exists before after,
    creates_published_first (filter (is_ty Create) fops) = before ++ c0 :: after /\
    Forall (fun c => apply c init_state = None) before /\ apply c0 init_state <> None.
Proof.
  intros H. apply resolve_core_some in H. destruct H as (s0 & _ & _ & _ & (Hfc & _) & _).
  apply first_valid_create_some in Hfc. destruct Hfc as (b & a & Hl & Hb & Hc).
  exists b, a. rewrite Hc. repeat split; [exact Hl | exact Hb | discriminate].
Qed.

(* a create is accepted exactly when it parses (and a protocol version exists for it): the delta
   plays no role in which create wins *)
Theorem create_accepted_iff c : ty c = Create ->
  (apply c init_state <> None <-> parse_ok c = true /\ mdelta c <> None).
Proof.
  intros Hty. rewrite apply_none, not_false_iff_true, accepts_iff, Hty. cbn [doc init_state]. tauto.
Qed.

(* Chain.crun_consumed for [chain]: the commitments consumed are, in order, the reveal values of
   the applied operations *)
Theorem chain_applied_reveal fuel : forall sel ops s consumed s' cs ap,
  chain fuel sel ops s consumed = Some (s', cs, ap) ->
  cs = consumed ++ map reveal_c ap.
Proof. intros sel ops s consumed s' cs ap Hc. apply chain_crun in Hc. eapply crun_consumed, Hc. Qed.
