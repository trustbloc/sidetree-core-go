(* The bridge between the two layers (C01 / C10 / C11): the abstract anchored operation [aop] of the
   resolution model (Resolve/Op.v), COMPUTED from the view of the concrete request (Parser/Accept.v)
   with the parser, hash and JWS models.  The definitions, and a small concrete world with what its hashes
   and built views are and the verdicts the bridge computes on it (theorems: Resolve/FromViewProofs.v).

   What operationapplier.Apply and processor.OperationProcessor compute from the request, per field:

   - ty        : the request's "type" (the anchored operation's Type field is copied from the parsed
                 request when the operation enters the batch; the bridge assumes they agree).  A type
                 that is none of the four gives Update with parse_ok = false (inert).
   - parse_ok  : create  -> ParseCreateOperation(request, batch=true) succeeds.  applyCreateOperation
                            calls the per-type parser DIRECTLY: no size gate, no {type} schema check.
                 others  -> Parser.GetRevealValue succeeds, i.e. ParseOperation(request, batch=true):
                            size gate, schema, then the per-type parser.  This is what puts the
                            operation into the processor's commitment map; the per-type parser that
                            Apply runs afterwards is implied by it ([parse_ok_noncreate_implies_typed]).
   - reveal_c  : commitment.GetCommitmentFromRevealValue(revealValue), named by [intern];
                 0 when it fails (the processor then skips the operation).
   - sig_ok    : internal/jws.VerifyJWS(signedData, key inside the signed data).
   - sfx_ok    : signed didSuffix = request didSuffix.
   - dhash_ok  : hashing.IsValidModelMultihash(delta, signed deltaHash)   (create: suffix-data deltaHash).
   - dvalid    : ValidateDelta(delta).
   - upd_c     : delta.updateCommitment;  rec_c : suffixData / signed recoveryCommitment;  both named
                 by [intern] ("" = absent = 0).
   - a_from, a_until : the signed anchoring window;  mdelta : MaxOperationTimeDelta of the protocol the
                 operation is applied under (parser and applier are built from the same Protocol).

   What REMAINS A FACT (argument of the bridge, not computed):
   - [kf_on_curve], [kf_jose_ok] : decodability of the signing key (secp256k1 point on curve; go-jose's
                 verdict for the other key types) - Jws/Compact.v keeps them as oracle fields of [jwk];
                 the textual part of the key (kty, crv, coordinate lengths) IS computed from the view;
   - [crypto_ok]     : the signature primitive's verdict on (signing input, signature, key);
   - [patch_applies] : DocumentComposer.ApplyPatches succeeds (C17);
   - the anchoring coordinates [coords] (transaction time / number, canonical reference, whether the
     protocol client has a version for the operation), the identity of the delta's content and of the
     anchor origin (C17 / transformer level identities);
   - [intern] : an injective naming of commitment strings by numbers, "" being 0 ([intern_ok]). *)
From Coq Require Import String List ZArith NArith Bool.
From Coq.Strings Require Import Byte.
From SV Require Import Base.Bytes Hash.B64 Hash.Varint Hash.Sha2 Hash.Multihash Jws.Compact Jws.CompactProofs Resolve.Op Parser.Window Parser.Accept
  Parser.Builder Resolve.Apply Resolve.Process.
Import ListNotations.
Local Open Scope string_scope.
Local Open Scope list_scope.
Local Open Scope Z_scope.

Definition is_some {A : Type} (o : option A) : bool := match o with Some _ => true | None => false end.

(* ---- operation type ---- *)
Definition ty_of_view (v : req_view) : optype :=
  if eqs (rv_type v) "create" then Create
  else if eqs (rv_type v) "update" then Update
  else if eqs (rv_type v) "deactivate" then Deactivate
  else if eqs (rv_type v) "recover" then Recover
  else Update.

(* ---- the signing key as VerifyJWS sees it ---- *)
Record key_facts := { kf_on_curve : bool; kf_jose_ok : bool }.

(* decoded length of a base64url coordinate; -1 = empty or undecodable (the convention of [k_x_len]) *)
Definition declen (s : bytes) : Z :=
  if is_empty s then -1
  else match b64_decode s with Some b => blen b | None => -1 end.

Definition jwk_of_view (k : jwk_view) (kf : key_facts) : jwk :=
  {| k_kty := jv_kty k; k_crv := jv_crv k;
     k_x_len := declen (jv_x k); k_y_len := declen (jv_y k);
     k_on_curve := kf_on_curve kf; k_jose_ok := kf_jose_ok kf |}.

(* ---- anchoring coordinates and identities that are not part of the request ---- *)
Record coords := {
  c_oid : Z; c_time : Z; c_num : Z; c_cref : Z;
  c_versioned : bool;        (* the protocol client has a version for the operation's protocol version *)
  c_delta : Z;               (* identity of the content the delta adds *)
  c_origin : Z }.            (* identity of the anchor origin *)

(* ---- commitments as numbers ---- *)
Definition intern_opt (intern : bytes -> Z) (o : option bytes) : Z :=
  match o with Some c => intern c | None => 0 end.

Definition intern_ok (intern : bytes -> Z) : Prop :=
  intern [] = 0 /\ forall a b, intern a = intern b -> a = b.

(* a concrete injective naming: bijective base 257 (digits 1..256), little endian *)
Fixpoint intern_std (b : bytes) : Z :=
  match b with
  | [] => 0
  | x :: r => 1 + Z.of_N (Byte.to_N x) + 257 * intern_std r
  end.

(* ---- the facts, field by field ---- *)
Definition view_parse_ok (p : pproto) (v : req_view) : bool :=
  match ty_of_view v with
  | Create => is_some (parse_create p true v)
  | _ => is_some (parse_operation p true true v)
  end.

Definition view_reveal (v : req_view) : option bytes := commitment_from_reveal (rv_reveal v).

Definition view_sig_ok (v : req_view) (kf : key_facts) (crypto_ok : bool) : bool :=
  verify_jws (sv_compact (rv_signed v)) (sv_hdr (rv_signed v)) (jwk_of_view (sv_key (rv_signed v)) kf) crypto_ok.

Definition view_sfx_ok (v : req_view) : bool := bytes_eqb (sv_did_suffix (rv_signed v)) (rv_did_suffix v).

Definition view_delta_hash (v : req_view) : bytes :=
  match ty_of_view v with
  | Create => sf_delta_hash (rv_suffix v)
  | _ => sv_delta_hash (rv_signed v)
  end.

Definition view_dhash_ok (v : req_view) : bool :=
  is_valid_model_multihash (dv_canonical (rv_delta v)) (view_delta_hash v).

Definition view_upd_commitment (v : req_view) : bytes :=
  match ty_of_view v with
  | Deactivate => []
  | _ => dv_update_commitment (rv_delta v)
  end.

Definition view_rec_commitment (v : req_view) : bytes :=
  match ty_of_view v with
  | Create => sf_recovery_commitment (rv_suffix v)
  | Recover => sv_recovery_commitment (rv_signed v)
  | _ => []
  end.

(* ---- THE BRIDGE ---- *)
Definition aop_of_view (p : pproto) (v : req_view) (kf : key_facts) (crypto_ok patch_applies : bool)
                       (c : coords) (intern : bytes -> Z) : aop :=
  {| oid := c_oid c; ty := ty_of_view v; time := c_time c; num := c_num c; cref := c_cref c;
     mdelta := if c_versioned c then Some (pp_time_delta p) else None;
     parse_ok := view_parse_ok p v;
     reveal_c := intern_opt intern (view_reveal v);
     sig_ok := view_sig_ok v kf crypto_ok;
     sfx_ok := view_sfx_ok v;
     dhash_ok := view_dhash_ok v;
     dvalid := validate_delta p (rv_delta v);
     patch_ok := patch_applies;
     a_from := sv_from (rv_signed v); a_until := sv_until (rv_signed v);
     delta := c_delta c;
     upd_c := intern (view_upd_commitment v);
     rec_c := intern (view_rec_commitment v);
     origin := c_origin c |}.

(* ------------------------------------------------------------------------------------------------ *)
(* A concrete small world for the non-vacuity examples (FromViewProofs.v): Ed25519-shaped keys, an  *)
(* update, a recover and a deactivate built by the client builder model, and a one-operation        *)
(* history whose commitments in force are the commitments of the signing keys.                      *)
(* ------------------------------------------------------------------------------------------------ *)
Definition bs (s : String.string) : bytes := bytes_of_string s.

Definition fx_proto : pproto :=
  {| pp_max_op_size := 6000; pp_max_hash_len := 100; pp_max_delta_size := 3000; pp_nonce_size := 16;
     pp_time_delta := 7200; pp_hash_algs := [18%N; 19%N];
     pp_sig_algs := map bs ["EdDSA"; "ES256"]; pp_key_algs := map bs ["Ed25519"; "P-256"];
     pp_patches := map bs ["replace"; "add-public-keys"] |}.

Definition fx_key (x : String.string) : jwk_view :=
  {| jv_present := true; jv_kty := bs "OKP"; jv_crv := bs "Ed25519";
     jv_x := bs x; jv_y := []; jv_nonce := [];
     jv_canonical := bs "{""crv"":""Ed25519"",""kty"":""OKP"",""x"":""" ++ bs x ++ bs """}" |}.

(* the update key and the recovery key in force, and the next ones *)
Definition fx_upd_key := fx_key "ZqD0u9H32Ks2WZuzYGkbOVnbjm-8x4c5ee8pVZfJ5xA".
Definition fx_rec_key := fx_key "AAD0u9H32Ks2WZuzYGkbOVnbjm-8x4c5ee8pVZfJ5xA".
Definition fx_next_upd_key := fx_key "BBD0u9H32Ks2WZuzYGkbOVnbjm-8x4c5ee8pVZfJ5xA".
Definition fx_next_rec_key := fx_key "CCD0u9H32Ks2WZuzYGkbOVnbjm-8x4c5ee8pVZfJ5xA".

Definition or_empty (o : option bytes) : bytes := match o with Some b => b | None => [] end.
Definition fx_reveal (k : jwk_view) : bytes := or_empty (get_reveal_value (jv_canonical k) 18%N).
Definition fx_commitment (k : jwk_view) : bytes := or_empty (get_commitment (jv_canonical k) 18%N).

Definition fx_signer : signer :=
  {| sg_present := true; sg_headers_present := true; sg_alg := Some (bs "EdDSA"); sg_hdr_names := [bs "alg"];
     sg_header_json := bs "{""alg"":""EdDSA""}"; sg_sign_ok := true;
     sg_sig := bs "0123456789012345678901234567890123456789012345678901234567890123" |}.

Definition fx_delta (next : jwk_view) : delta_view :=
  {| dv_present := true; dv_actions := [Some (bs "replace")]; dv_patch_valid := [true];
     dv_update_commitment := fx_commitment next;
     dv_canonical := bs "{""patches"":[{""action"":""replace"",""document"":{}}],""updateCommitment"":"""
                     ++ fx_commitment next ++ bs """}" |}.

Definition fx_suffix : bytes := bs "EiCGzdVSyAlK6UO5TGVFBioCjelBLQUc0dQ0vuGmuQvkfQ".

Definition fx_update_info : update_info :=
  {| ui_suffix := fx_suffix; ui_reveal := fx_reveal fx_upd_key; ui_delta := fx_delta fx_next_upd_key;
     ui_key := fx_upd_key; ui_code := 18%N; ui_from := 100; ui_until := 0; ui_signer := fx_signer;
     ui_origin_ok := true; ui_payload := bs "{""anchorFrom"":100,""deltaHash"":""..."",""updateKey"":{}}"; ui_len := 900 |}.

Definition fx_recover_info : recover_info :=
  {| ri_suffix := fx_suffix; ri_reveal := fx_reveal fx_rec_key;
     ri_patches := {| pi_opaque := false; pi_has_patches := true; pi_from_doc_ok := true |};
     ri_delta := fx_delta fx_next_upd_key; ri_key := fx_rec_key;
     ri_recovery_commitment := fx_commitment fx_next_rec_key;
     ri_code := 18%N; ri_from := 100; ri_until := 200; ri_signer := fx_signer; ri_origin_ok := true;
     ri_payload := bs "{""anchorFrom"":100,""anchorUntil"":200,""deltaHash"":""..."",""recoveryKey"":{}}"; ri_len := 1100 |}.

Definition fx_deactivate_info : deactivate_info :=
  {| di_suffix := fx_suffix; di_reveal := fx_reveal fx_rec_key; di_key := fx_rec_key;
     di_from := 0; di_until := 0; di_signer := fx_signer;
     di_payload := bs "{""didSuffix"":""..."",""recoveryKey"":{}}"; di_len := 500 |}.

Definition no_view : req_view :=
  {| rv_len := 0; rv_schema_ok := false; rv_type := []; rv_struct_ok := false; rv_did_suffix := []; rv_reveal := [];
     rv_signed_data := []; rv_signed := no_signed; rv_delta := no_delta; rv_suffix := no_suffix |}.
Definition or_no_view (o : option req_view) : req_view := match o with Some v => v | None => no_view end.

Definition fx_update_view : req_view := or_no_view (build_update fx_update_info).
Definition fx_recover_view : req_view := or_no_view (build_recover fx_recover_info).
Definition fx_deactivate_view : req_view := or_no_view (build_deactivate fx_deactivate_info).

Definition fx_kf : key_facts := {| kf_on_curve := false; kf_jose_ok := true |}.
Definition fx_coords (id : Z) : coords :=
  {| c_oid := id; c_time := 150; c_num := 0; c_cref := id; c_versioned := true; c_delta := 100 + id; c_origin := 2 |}.

(* the stored history: one create whose commitments are those of fx_upd_key / fx_rec_key *)
Definition fx_create : aop :=
  {| oid := 1; ty := Create; time := 10; num := 0; cref := 1; mdelta := Some 7200;
     parse_ok := true; reveal_c := 0; sig_ok := false; sfx_ok := false; dhash_ok := true; dvalid := true;
     patch_ok := true; a_from := 0; a_until := 0; delta := 101;
     upd_c := intern_std (fx_commitment fx_upd_key); rec_c := intern_std (fx_commitment fx_rec_key); origin := 1 |}.
Definition fx_state : state :=
  {| doc := Some [101]; upd := intern_std (fx_commitment fx_upd_key); rec := intern_std (fx_commitment fx_rec_key);
     deact := false; last_t := 10; last_n := 0; created := 10; updated := 0; vid := 1; canon := 1; aorigin := 1 |}.

Definition fx_update_op : aop := aop_of_view fx_proto fx_update_view fx_kf true true (fx_coords 2) intern_std.
Definition fx_recover_op : aop := aop_of_view fx_proto fx_recover_view fx_kf true true (fx_coords 3) intern_std.
Definition fx_deactivate_op : aop := aop_of_view fx_proto fx_deactivate_view fx_kf true true (fx_coords 4) intern_std.

(* Under SHA-256 the reveal value and the commitment of a key are what [fx_reveal] and [fx_commitment] name.
   Over a variable key: rewriting with these hashes nothing. *)
Lemma or_empty_some o : is_some o = true -> o = Some (or_empty o).
Proof. destruct o; [reflexivity | discriminate]. Qed.

Lemma fx_reveal_value k : get_reveal_value (jv_canonical k) 18 = Some (fx_reveal k).
Proof. apply or_empty_some. reflexivity. Qed.

Lemma fx_commitment_value k : get_commitment (jv_canonical k) 18 = Some (fx_commitment k).
Proof. apply or_empty_some. reflexivity. Qed.

Lemma fx_commitment_multihash k : calculate_model_multihash (sha256 (jv_canonical k)) 18 = Some (fx_commitment k).
Proof. exact (fx_commitment_value k). Qed.

(* the builders emit something, and the bridge computes all-true verdicts on it *)
Example fx_built :
  (is_some (build_update fx_update_info), is_some (build_recover fx_recover_info), is_some (build_deactivate fx_deactivate_info))
  = (true, true, true).
Proof. vm_compute. reflexivity. Qed.

Lemma or_no_view_built o : is_some o = true -> o = Some (or_no_view o).
Proof. destruct o; [reflexivity | discriminate]. Qed.

(* [fx_built] decided whether the two next commitments differ from those of the signing keys: from here on the
   views are named, not rebuilt *)
Lemma fx_views_built :
  build_update fx_update_info = Some fx_update_view /\ build_recover fx_recover_info = Some fx_recover_view /\
  build_deactivate fx_deactivate_info = Some fx_deactivate_view.
Proof.
  destruct (proj1 (pair_equal_spec _ _ _ _) fx_built) as [H Hd]. destruct (proj1 (pair_equal_spec _ _ _ _) H) as [Hu Hr].
  split; [|split]; apply or_no_view_built; assumption.
Qed.

Example fx_update_op_facts :
  (ty fx_update_op, parse_ok fx_update_op, sig_ok fx_update_op, dhash_ok fx_update_op, dvalid fx_update_op,
   patch_ok fx_update_op, op_in_window fx_update_op, Z.eqb (reveal_c fx_update_op) (upd fx_state))
  = (Update, true, true, true, true, true, true, true).
Proof. vm_compute. reflexivity. Qed.

(* the same view with a forged signature (primitive says no) or a tampered delta: the verdicts change *)
Example fx_forged_sig : sig_ok (aop_of_view fx_proto fx_update_view fx_kf false true (fx_coords 2) intern_std) = false.
Proof. apply forged_signature_rejected. Qed.

Definition tamper_delta (v : req_view) : req_view :=
  {| rv_len := rv_len v; rv_schema_ok := rv_schema_ok v; rv_type := rv_type v; rv_struct_ok := rv_struct_ok v;
     rv_did_suffix := rv_did_suffix v; rv_reveal := rv_reveal v; rv_signed_data := rv_signed_data v;
     rv_signed := rv_signed v; rv_delta := fx_delta fx_next_rec_key; rv_suffix := rv_suffix v |}.

Example fx_tampered_delta :
  let o := aop_of_view fx_proto (tamper_delta fx_update_view) fx_kf true true (fx_coords 2) intern_std in
  (parse_ok o, dhash_ok o) = (true, false).
Proof. vm_compute. reflexivity. Qed.

Definition ok_state (o : outcome) : option state := match o with OOk r => Some (r_state r) | _ => None end.

(* resolution of the history, and of the history extended by each built operation *)
Example fx_history_resolves : resolve_full [fx_create] [] no_opts = inr (Some (fx_create, fx_state, [])).
Proof.
  (* no full operation and no update is stored, so nothing is compared with the two commitments *)
  unfold fx_create, fx_state. generalize (intern_std (fx_commitment fx_upd_key)) (intern_std (fx_commitment fx_rec_key)).
  intros u r. reflexivity.
Qed.
