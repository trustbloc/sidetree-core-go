(* Apply in closed form: [apply o s] is [Some (post o s)] when [accepts o s] and [None] otherwise.
   [accepts] collects the verdicts that make Apply return an error, [post] is the state it returns;
   the facts about single fields of that state are read off [post]. *)
From Coq Require Import List ZArith Bool.
From SV Require Import Resolve.Op Resolve.Apply.
Import ListNotations.
Local Open Scope Z_scope.

Lemma state_eta (a b : state) :
  doc a = doc b -> upd a = upd b -> rec a = rec b -> deact a = deact b -> last_t a = last_t b ->
  last_n a = last_n b -> created a = created b -> updated a = updated b -> vid a = vid b ->
  canon a = canon b -> aorigin a = aorigin b -> a = b.
Proof. destruct a, b; cbn; intros; subst; reflexivity. Qed.

Definition accepts (o : aop) (s : state) : bool :=
  match mdelta o, ty o, doc s with
  | None, _, _ => false
  | Some _, Create, None => parse_ok o
  | Some _, Update, Some _ => parse_ok o && dhash_ok o && sig_ok o && dvalid o
  | Some _, Recover, Some _ => parse_ok o && sig_ok o
  | Some _, Deactivate, Some _ => parse_ok o && sfx_ok o && sig_ok o && op_in_window o
  | Some _, _, _ => false
  end.

(* the delta is looked at (create, recover) / its patches are applied; as propositions these are
   Spec.delta_usable and Spec.delta_takes_effect (Refine.usable_iff, Refine.effective_iff) *)
Definition usable (o : aop) : bool := dhash_ok o && dvalid o.
Definition effective (o : aop) : bool := op_in_window o && patch_ok o.

Definition post_of (t : optype) (o : aop) (s : state) : state :=
  match t with
  | Create =>
    {| doc := Some (if usable o && patch_ok o then [delta o] else []);
       upd := if usable o then upd_c o else 0; rec := rec_c o; deact := false;
       last_t := time o; last_n := num o; created := time o; updated := 0;
       vid := cref o; canon := cref o; aorigin := origin o |}
  | Update =>
    {| doc := option_map (fun d => if effective o then add_content d (delta o) else d) (doc s);
       upd := upd_c o; rec := rec s; deact := false;
       last_t := time o; last_n := num o; created := created s; updated := time o;
       vid := cref o; canon := canon s; aorigin := aorigin s |}
  | Recover =>
    {| doc := Some (if usable o && effective o then [delta o] else []);
       upd := if usable o then upd_c o else 0; rec := rec_c o; deact := false;
       last_t := time o; last_n := num o; created := created s; updated := time o;
       vid := cref o; canon := cref o; aorigin := origin o |}
  | Deactivate =>
    {| doc := Some []; upd := 0; rec := 0; deact := true;
       last_t := time o; last_n := num o; created := created s; updated := time o;
       vid := cref o; canon := canon s; aorigin := aorigin s |}
  end.

Definition post (o : aop) (s : state) : state := post_of (ty o) o s.

Lemma post_ty o s t : ty o = t -> post o s = post_of t o s.
Proof. intros <-. reflexivity. Qed.

Lemma apply_eq o s : apply o s = if accepts o s then Some (post o s) else None.
Proof.
  unfold apply, accepts, post, post_of, usable, effective. destruct (mdelta o); [|reflexivity]. destruct (ty o).
  - unfold apply_create. destruct (doc s), (parse_ok o), (dhash_ok o), (dvalid o), (patch_ok o); reflexivity.
  - unfold apply_update. destruct (doc s); [|reflexivity]. destruct (parse_ok o); [|reflexivity].
    destruct (dhash_ok o); [|reflexivity]. destruct (sig_ok o); [|reflexivity]. destruct (dvalid o); [|reflexivity].
    destruct (op_in_window o), (patch_ok o); reflexivity.
  - unfold apply_recover. destruct (doc s); [|reflexivity]. destruct (parse_ok o); [|reflexivity].
    destruct (sig_ok o); [|reflexivity].
    destruct (dhash_ok o), (dvalid o), (op_in_window o), (patch_ok o); reflexivity.
  - unfold apply_deactivate. destruct (doc s), (parse_ok o), (sfx_ok o), (sig_ok o), (op_in_window o); reflexivity.
Qed.

Lemma apply_some o s s' : apply o s = Some s' <-> accepts o s = true /\ s' = post o s.
Proof.
  rewrite apply_eq. destruct (accepts o s); split; [intros [= <-]; auto | intros [_ ->]; reflexivity | discriminate | intros [[=] _]].
Qed.

Lemma apply_post o s s' t : ty o = t -> apply o s = Some s' -> s' = post_of t o s.
Proof. intros Hty Ha. apply apply_some in Ha. rewrite <- (post_ty _ _ _ Hty). apply Ha. Qed.

Lemma apply_none o s : apply o s = None <-> accepts o s = false.
Proof. rewrite apply_eq. destruct (accepts o s); split; congruence. Qed.

Lemma accepts_iff o s :
  accepts o s = true <->
  mdelta o <> None /\ parse_ok o = true /\
  match ty o with
  | Create => doc s = None
  | Update => doc s <> None /\ dhash_ok o = true /\ sig_ok o = true /\ dvalid o = true
  | Recover => doc s <> None /\ sig_ok o = true
  | Deactivate => doc s <> None /\ sfx_ok o = true /\ sig_ok o = true /\ op_in_window o = true
  end.
Proof.
  unfold accepts. destruct (mdelta o), (ty o), (doc s); rewrite ?andb_true_iff; intuition congruence.
Qed.

Lemma accepts_doc o s : accepts o s = true -> (doc s = None <-> ty o = Create).
Proof. unfold accepts. destruct (mdelta o), (ty o), (doc s); split; congruence. Qed.

(* a recover / deactivate reads only whether there is a document *)
Lemma accepts_full_agree o s t :
  ty o = Recover \/ ty o = Deactivate -> doc s <> None -> doc t <> None -> accepts o t = accepts o s.
Proof. unfold accepts. intros [-> | ->] Hs Ht; destruct (mdelta o), (doc s), (doc t); congruence. Qed.

Lemma post_coords o s : last_t (post o s) = time o /\ last_n (post o s) = num o /\ vid (post o s) = cref o.
Proof. unfold post, post_of. destruct (ty o); repeat split. Qed.

Lemma post_doc o s : accepts o s = true -> doc (post o s) <> None.
Proof. unfold accepts, post, post_of. destruct (mdelta o), (ty o), (doc s); cbn; congruence. Qed.

Lemma post_deact o s : deact (post o s) = true <-> ty o = Deactivate.
Proof. unfold post, post_of. destruct (ty o); cbn; split; congruence. Qed.

(* the commitment in force afterwards is the operation's own next commitment, or none when the
   delta of a create / recover is not usable *)
Lemma post_rec_full o s : ty o = Recover \/ ty o = Deactivate -> rec (post o s) = next_c o.
Proof. unfold post, post_of, next_c. intros [-> | ->]; reflexivity. Qed.

Lemma post_upd o s : upd (post o s) = 0 \/ upd (post o s) = match ty o with Deactivate => 0 | _ => upd_c o end.
Proof. unfold post, post_of. destruct (ty o); cbn; destruct (usable o); auto. Qed.

(* what a recover / deactivate keeps of the state *)
Lemma post_full_agree o s t :
  ty o = Recover \/ ty o = Deactivate ->
  created t = created s -> canon t = canon s -> aorigin t = aorigin s -> post o t = post o s.
Proof. unfold post, post_of. intros [-> | ->] Hc Hn Ho; rewrite Hc, ?Hn, ?Ho; reflexivity. Qed.
