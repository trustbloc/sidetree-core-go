(* C04: the request handler's refusal composed with the terminality of deactivation.

   Intake.v: [decorate pub unpub] is dochandler's defaultOperationDecorator - the check the handler
   runs on every NON-CREATE request (update, recover, deactivate) before queueing it: the DID is
   resolved from the two stores; the request is refused when resolution fails or yields a
   deactivated document.  Terminal.v: once the anchored history deactivates the DID, operations
   processed later do not change the result.

   Here: once the deactivation is anchored, the handler refuses every later non-create request for
   that DID - whatever has been anchored after the deactivation and whatever is pending in the
   unpublished store. *)
From Coq Require Import List ZArith.
From SV Require Import Resolve.Op Resolve.Process Resolve.Order Resolve.Prepare Resolve.Terminal
  Resolve.Extend Resolve.Intake.
Import ListNotations.
Local Open Scope Z_scope.

Lemma resolve_full_of_resolve pub unpub opts r :
  resolve pub unpub opts = OOk r ->
  exists c0 ap, resolve_full pub unpub opts = inr (Some (c0, r_state r, ap)).
Proof.
  unfold resolve, resolve_full. destruct (prepare pub unpub opts) as [e|[[rp ru] fops]]; [discriminate|].
  destruct (resolve_core fops) as [e|[[[c0 s] ap]|]]; try discriminate.
  intros H; injection H as <-. exists c0, ap. reflexivity.
Qed.

Lemma decorate_accepts_iff pub unpub :
  decorate pub unpub = Accepted <->
  exists c0 s ap, resolve_full pub unpub no_opts = inr (Some (c0, s, ap)) /\ deact s = false.
Proof.
  unfold decorate. split.
  - destruct (resolve pub unpub no_opts) as [e|r|] eqn:Hr; try discriminate.
    destruct (deact (r_state r)) eqn:Hd; [discriminate|]. intros _.
    destruct (resolve_full_of_resolve _ _ _ _ Hr) as (c0 & ap & Hf). exists c0, (r_state r), ap. auto.
  - intros (c0 & s & ap & Hf & Hd). rewrite (resolve_of_full _ _ _ _ _ Hf). cbn [r_state]. rewrite Hd. reflexivity.
Qed.

(* the same statements as Order.sort_ops_app_later, Terminal.deactivate_absorbs_core and
   Terminal.deactivate_absorbs *)
Theorem sort_ops_app_later_stable l ext :
  (forall a b, In a l -> In b ext -> op_le a b) -> sort_ops (l ++ ext) = sort_ops l ++ sort_ops ext.
Proof. exact (sort_ops_app_later l ext). Qed.

Theorem deactivate_terminal_core_strong fops ext c0 s ap :
  Forall (fun o => published o = true) fops ->
  resolve_core fops = inr (Some (c0, s, ap)) -> deact s = true ->
  resolve_core (fops ++ ext) = inr (Some (c0, s, ap)).
Proof. exact (deactivate_absorbs_core fops ext c0 s ap). Qed.

Theorem deactivate_terminal_strong pub later unpub c0 s ap :
  Forall (fun o => published o = true) pub ->
  (forall a b, In a pub -> In b later -> op_le a b) ->
  resolve_full pub [] no_opts = inr (Some (c0, s, ap)) -> deact s = true ->
  resolve_full (pub ++ later) unpub no_opts = inr (Some (c0, s, ap)).
Proof. exact (deactivate_absorbs pub later unpub c0 s ap). Qed.

(* C04.  The anchored history [pub] deactivates the DID.  Whatever is anchored afterwards
   ([later]: any operations, of any type, valid or not, anchored not before the operations of
   [pub]) and whatever is pending ([unpub]: any list), the handler refuses every non-create
   request.  The only other hypothesis is the operation store's invariant: it returns anchored
   operations. *)
Theorem deactivated_refuses_forever_strong pub later unpub c0 s ap :
  Forall (fun o => published o = true) pub ->
  (forall a b, In a pub -> In b later -> op_le a b) ->
  resolve_full pub [] no_opts = inr (Some (c0, s, ap)) -> deact s = true ->
  decorate (pub ++ later) unpub = Refused.
Proof.
  intros Hpub Hlater Hr Hd.
  pose proof (deactivate_terminal_strong pub later unpub c0 s ap Hpub Hlater Hr Hd) as Hterm.
  apply (decorate_refuses_deactivated _ _ _ (resolve_of_full _ _ _ _ _ Hterm)). exact Hd.
Qed.

(* instance with the hypotheses of Terminal.deactivate_terminal; [key_inj] and [no_zero_reveal] are
   not used *)
Theorem deactivated_refuses_forever pub later unpub c0 s ap :
  Forall (fun o => published o = true) pub ->
  key_inj (pub ++ later) ->
  (forall a b, In a pub -> In b later -> op_le a b) ->
  no_zero_reveal (pub ++ later ++ unpub) ->
  resolve_full pub [] no_opts = inr (Some (c0, s, ap)) -> deact s = true ->
  decorate (pub ++ later) unpub = Refused.
Proof. intros Hpub _ Hlater _. apply deactivated_refuses_forever_strong; assumption. Qed.

(* the same, starting from what Resolve returned for the anchored history *)
Corollary deactivated_refuses_forever_resolve pub later unpub r :
  Forall (fun o => published o = true) pub ->
  (forall a b, In a pub -> In b later -> op_le a b) ->
  resolve pub [] no_opts = OOk r -> deact (r_state r) = true ->
  decorate (pub ++ later) unpub = Refused.
Proof.
  intros Hpub Hlater Hr Hd. destruct (resolve_full_of_resolve _ _ _ _ Hr) as (c0 & ap & Hf).
  eapply deactivated_refuses_forever_strong; eassumption.
Qed.

(* and the outcome the handler sees stays the deactivated one: same state (empty document, no
   commitments), same applied operations *)
Corollary deactivated_stays_deactivated pub later unpub c0 s ap :
  Forall (fun o => published o = true) pub ->
  (forall a b, In a pub -> In b later -> op_le a b) ->
  resolve_full pub [] no_opts = inr (Some (c0, s, ap)) -> deact s = true ->
  exists r, resolve (pub ++ later) unpub no_opts = OOk r /\ r_state r = s /\
            doc s = Some [] /\ upd s = 0 /\ rec s = 0 /\ r_applied r = map oid ap.
Proof.
  intros Hpub Hlater Hr Hd.
  pose proof (deactivate_terminal_strong pub later unpub c0 s ap Hpub Hlater Hr Hd) as Hterm.
  rewrite (resolve_of_full _ _ _ _ _ Hterm). eexists. split; [reflexivity|]. cbn [r_state r_applied].
  rewrite resolve_full_no_opts in Hr. destruct (deactivated_shape _ _ _ _ Hr Hd) as (H1 & H2 & H3). auto.
Qed.

(* contrapositive: if the handler accepts a non-create request, no earlier stage of the anchored
   history was deactivated *)
Corollary accepted_means_never_deactivated pub later unpub c0 s ap :
  Forall (fun o => published o = true) pub ->
  (forall a b, In a pub -> In b later -> op_le a b) ->
  decorate (pub ++ later) unpub = Accepted ->
  resolve_full pub [] no_opts = inr (Some (c0, s, ap)) -> deact s = false.
Proof.
  intros Hpub Hlater Hacc Hr. destruct (deact s) eqn:Hd; [|reflexivity].
  rewrite (deactivated_refuses_forever_strong _ _ _ _ _ _ Hpub Hlater Hr Hd) in Hacc. discriminate.
Qed.

(* Extend.v: hist = create, update, recover (recovery commitment 31), update; n_deact reveals 31 *)
Definition it_pub := [h_upd2; n_deact; h_create; h_rec; h_upd1].     (* as the store returns them *)
(* anchored afterwards: a recover and an update that would have been valid before the deactivation,
   a fresh create for the same suffix, a recover whose recomputed commitment is empty, and an
   operation with the same coordinates as another one *)
Definition it_later :=
  [xop 8 Recover 20 0 31 108 26 33; xop 9 Update 21 0 23 109 27 0; xop 10 Create 22 0 0 110 28 34;
   xop 13 Recover 22 1 0 113 35 36; xop 14 Update 21 0 23 114 37 0].
Definition it_unpub := [unpublished (xop 11 Update 23 0 23 111 29 0); unpublished (xop 12 Deactivate 23 1 31 0 0 0)].

Definition it_state : state :=
  {| doc := Some []; upd := 0; rec := 0; deact := true; last_t := 14; last_n := 0;
     created := 10; updated := 14; vid := 7; canon := 3; aorigin := 1 |}.

Example it_deactivated : resolve_full it_pub [] no_opts = inr (Some (h_create, it_state, [h_rec; n_deact])).
Proof. vm_compute. reflexivity. Qed.

Example it_hyp_published : Forall (fun o => published o = true) it_pub.
Proof. repeat constructor. Qed.

Example it_hyp_later : forall a b, In a it_pub -> In b it_later -> op_le a b.
Proof.
  intros a b Ha Hb. vm_compute in Ha, Hb.
  repeat (destruct Ha as [<-|Ha]; [repeat (destruct Hb as [<-|Hb]; [vm_compute; reflexivity|]); destruct Hb|]).
  destruct Ha.
Qed.

Example it_refused : decorate (it_pub ++ it_later) it_unpub = Refused.
Proof. exact (deactivated_refuses_forever_strong _ _ _ _ _ _ it_hyp_published it_hyp_later it_deactivated eq_refl). Qed.

Example it_refused_computes : decorate (it_pub ++ it_later) it_unpub = Refused.
Proof. vm_compute. reflexivity. Qed.

(* [deactivated_refuses_forever] on the part of the example that satisfies its extra hypotheses *)
Definition it_later3 := [xop 8 Recover 20 0 31 108 26 33; xop 9 Update 21 0 23 109 27 0; xop 10 Create 22 0 0 110 28 34].

Example it_hyp_later3 : forall a b, In a it_pub -> In b it_later3 -> op_le a b.
Proof. intros a b Ha Hb. apply it_hyp_later; [exact Ha|]. vm_compute in Hb. vm_compute. tauto. Qed.

Example it_hyp_key_inj : key_inj (it_pub ++ it_later3).
Proof. apply key_inj_dec. reflexivity. Qed.

Example it_hyp_nzr : no_zero_reveal (it_pub ++ it_later3 ++ it_unpub).
Proof. unfold no_zero_reveal. repeat constructor; vm_compute; congruence. Qed.

Example it_refused3 : decorate (it_pub ++ it_later3) it_unpub = Refused.
Proof.
  exact (deactivated_refuses_forever _ _ _ _ _ _ it_hyp_published it_hyp_key_inj it_hyp_later3 it_hyp_nzr
           it_deactivated eq_refl).
Qed.

(* before the deactivation was anchored the handler accepted (also with the update pending); a
   pending, not yet anchored deactivate is seen by resolution and makes the handler refuse, but
   that situation is not the theorem's: the deactivate is not anchored *)
Example it_accepted_before :
  decorate [h_upd2; h_create; h_rec; h_upd1] [] = Accepted /\
  decorate [h_upd2; h_create; h_rec; h_upd1] [unpublished (xop 11 Update 23 0 23 111 29 0)] = Accepted /\
  decorate [h_upd2; h_create; h_rec; h_upd1] it_unpub = Refused.
Proof. vm_compute. repeat split. Qed.

(* The remaining hypotheses are needed in the model.
   (a) "anchored after": a deactivation is not terminal against operations anchored BEFORE it -
       a recover anchored earlier for the same commitment wins (earliest wins, C02), the
       deactivate then reveals a stale commitment and the DID is active. *)
Definition it_early_rec := xop 8 Recover 13 5 31 108 26 33.    (* (13,5) precedes n_deact at (14,0) *)
Example needs_anchored_after : decorate (it_pub ++ [it_early_rec]) [] = Accepted.
Proof. vm_compute. reflexivity. Qed.

(* (b) "the operation store returns anchored operations": were the chosen create an operation
       without canonical reference, a create anchored later would be preferred to it (published
       creates come first) and define another DID state *)
Definition it_pub_bad := [unpublished h_create; h_rec; n_deact].
Example needs_published_store :
  (exists c0 s ap, resolve_full it_pub_bad [] no_opts = inr (Some (c0, s, ap)) /\ deact s = true) /\
  decorate (it_pub_bad ++ [xop 10 Create 22 0 0 110 28 34]) [] = Accepted.
Proof. split; [do 3 eexists; vm_compute; split; reflexivity | vm_compute; reflexivity]. Qed.

Print Assumptions deactivated_refuses_forever.
Print Assumptions sort_ops_app_later_stable.
Print Assumptions deactivate_terminal_core_strong.
Print Assumptions deactivate_terminal_strong.
Print Assumptions deactivated_refuses_forever_strong.
Print Assumptions deactivated_refuses_forever_resolve.
Print Assumptions deactivated_stays_deactivated.
Print Assumptions accepted_means_never_deactivated.
Print Assumptions decorate_accepts_iff.
