(* The partial-failure clauses of the state machine, read off Apply (C03). *)
From Coq Require Import List ZArith Bool.
From SV Require Import Resolve.Op Resolve.Apply Resolve.ApplyFacts Resolve.Process Resolve.Chain.
Import ListNotations.
Local Open Scope Z_scope.

Lemma update_bad_delta_ignored o s :
  ty o = Update -> (dhash_ok o = false \/ dvalid o = false) -> apply o s = None.
Proof.
  intros Hty Hbad. apply apply_none. destruct (accepts o s) eqn:E; [|reflexivity].
  apply accepts_iff in E. rewrite Hty in E. destruct E as (_ & _ & _ & Hh & _ & Hv). destruct Hbad; congruence.
Qed.

Lemma update_patch_fail_advances o s s' :
  ty o = Update -> apply o s = Some s' -> patch_ok o = false ->
  doc s' = doc s /\ upd s' = upd_c o /\ rec s' = rec s.
Proof.
  intros Hty Ha Hp. rewrite (apply_post _ _ _ _ Hty Ha). cbn [post_of].
  unfold effective. rewrite Hp, andb_false_r. cbn. destruct (doc s); auto.
Qed.

(* the document and the update commitment after a create / recover, by what became of the delta *)
Lemma delta_outcome (o : aop) (eff : bool) (d : option (list Z)) (u : Z) :
  d = Some (if usable o && eff then [delta o] else []) -> u = (if usable o then upd_c o else 0) ->
  ( (dhash_ok o = false \/ dvalid o = false) -> d = Some [] /\ u = 0 ) /\
  ( dhash_ok o = true -> dvalid o = true -> eff = false -> d = Some [] /\ u = upd_c o ) /\
  ( dhash_ok o = true -> dvalid o = true -> eff = true -> d = Some [delta o] /\ u = upd_c o ).
Proof.
  intros -> ->. unfold usable. split; [|split].
  - intros [Hh | Hv]; [rewrite Hh | rewrite Hv, andb_false_r]; auto.
  - intros Hh Hv He. rewrite Hh, Hv, He. auto.
  - intros Hh Hv He. rewrite Hh, Hv, He. auto.
Qed.

Lemma create_effect o s' :
  ty o = Create -> apply o init_state = Some s' ->
  rec s' = rec_c o /\ aorigin s' = origin o /\ created s' = time o /\ canon s' = cref o /\ deact s' = false /\
  ( (dhash_ok o = false \/ dvalid o = false) -> doc s' = Some [] /\ upd s' = 0 ) /\
  ( dhash_ok o = true -> dvalid o = true -> patch_ok o = false -> doc s' = Some [] /\ upd s' = upd_c o ) /\
  ( dhash_ok o = true -> dvalid o = true -> patch_ok o = true -> doc s' = Some [delta o] /\ upd s' = upd_c o ).
Proof.
  intros Hty Ha. rewrite (apply_post _ _ _ _ Hty Ha). cbn.
  repeat (split; [reflexivity|]). apply delta_outcome; reflexivity.
Qed.

Lemma recover_effect o s s' :
  ty o = Recover -> apply o s = Some s' ->
  rec s' = rec_c o /\ aorigin s' = origin o /\ created s' = created s /\ canon s' = cref o /\ deact s' = false /\
  ( (dhash_ok o = false \/ dvalid o = false) -> doc s' = Some [] /\ upd s' = 0 ) /\
  ( dhash_ok o = true -> dvalid o = true -> (op_in_window o = false \/ patch_ok o = false) -> doc s' = Some [] /\ upd s' = upd_c o ) /\
  ( dhash_ok o = true -> dvalid o = true -> op_in_window o = true -> patch_ok o = true -> doc s' = Some [delta o] /\ upd s' = upd_c o ).
Proof.
  intros Hty Ha. rewrite (apply_post _ _ _ _ Hty Ha). cbn.
  repeat (split; [reflexivity|]).
  destruct (delta_outcome o (effective o) _ _ eq_refl eq_refl) as (H1 & H2 & H3).
  split; [exact H1|]. unfold effective in *. split.
  - intros Hh Hv Hn. apply H2; [exact Hh | exact Hv|]. destruct Hn as [-> | ->]; [|rewrite andb_false_r]; reflexivity.
  - intros Hh Hv Hw Hp. apply H3; [exact Hh | exact Hv|]. rewrite Hw, Hp. reflexivity.
Qed.

Lemma deactivate_effect o s s' :
  ty o = Deactivate -> apply o s = Some s' ->
  deact s' = true /\ doc s' = Some [] /\ upd s' = 0 /\ rec s' = 0 /\ created s' = created s /\ canon s' = canon s.
Proof.
  intros Hty Ha. rewrite (apply_post _ _ _ _ Hty Ha). cbn. auto 10.
Qed.

(* each commitment is consumed at most once, by exactly the applied operations *)
Theorem commitments_consumed_once sel ops s s' cs ap :
  follows sel ops ->
  chain (length ops) sel ops s [] = Some (s', cs, ap) ->
  NoDup cs /\ cs = map reveal_c ap.
Proof.
  intros Hfo Hc. apply chain_crun in Hc. destruct Hc as [Hc _]. split.
  - apply (crun_nodup _ _ _ _ _ _ _ Hfo Hc), chain_inv_start.
  - apply (crun_consumed _ _ _ _ _ _ _ Hc).
Qed.
