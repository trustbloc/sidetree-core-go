(* List facts that several layers need and Coq 8.16's List / Sorted / Permutation do not state. *)
From Coq Require Import List Permutation Sorted.
Import ListNotations.

Lemma NoDup_app_iff : forall {A} (a b : list A),
  NoDup (a ++ b) <-> NoDup a /\ NoDup b /\ (forall x, In x a -> ~ In x b).
Proof.
  intros A a b. induction a as [|x r IH]; cbn [app].
  - split; [intro H; repeat split; [constructor|exact H|intros ? []]|tauto].
  - rewrite !NoDup_cons_iff, IH, in_app_iff. split.
    + intros [Hx [Hr [Hb Hd]]]. repeat split; try tauto. intros y [<-|Hy]; [tauto|now apply Hd].
    + intros [[Hx Hr] [Hb Hd]]. split; [intros [H|H]; [tauto|exact (Hd x (or_introl eq_refl) H)]|].
      repeat split; try assumption. intros y Hy. apply Hd. now right.
Qed.

Lemma NoDup_map_filter : forall {A B} (g : A -> B) (f : A -> bool) l,
  NoDup (map g l) -> NoDup (map g (filter f l)).
Proof.
  intros A B g f l. induction l as [|x r IH]; cbn [filter map]; intro H; [constructor|].
  apply NoDup_cons_iff in H. destruct H as [Hx Hr]. destruct (f x); [|now apply IH].
  cbn [map]. constructor; [|now apply IH].
  intro Hin. apply Hx. apply in_map_iff in Hin. destruct Hin as [y [<- Hy]].
  apply in_map, (proj1 (filter_In f y r) Hy).
Qed.

Lemma filter_all : forall {A} (f : A -> bool) l, (forall x, In x l -> f x = true) -> filter f l = l.
Proof.
  intros A f l H. induction l as [|x r IH]; cbn [filter]; [reflexivity|].
  rewrite (H x (or_introl eq_refl)), IH; [reflexivity|]. intros y Hy. apply H. now right.
Qed.

Lemma filter_none : forall {A} (f : A -> bool) l, (forall x, In x l -> f x = false) -> filter f l = [].
Proof.
  intros A f l H. induction l as [|x r IH]; cbn [filter]; [reflexivity|].
  rewrite (H x (or_introl eq_refl)). apply IH. intros y Hy. apply H. now right.
Qed.

(* Two sorted arrangements of the same elements coincide when the order is antisymmetric on them; for a strict
   order (irreflexive, transitive) the antisymmetry hypothesis holds vacuously. *)
Lemma StronglySorted_perm_eq : forall {A} (R : A -> A -> Prop) l1 l2,
  (forall a b, In a l1 -> In b l1 -> R a b -> R b a -> a = b) ->
  StronglySorted R l1 -> StronglySorted R l2 -> Permutation l1 l2 -> l1 = l2.
Proof.
  intros A R. induction l1 as [|a r1 IH]; intros l2 Hanti H1 H2 Hp.
  - apply Permutation_nil in Hp. now subst.
  - destruct l2 as [|b r2]; [apply Permutation_sym, Permutation_nil in Hp; discriminate|].
    apply StronglySorted_inv in H1, H2. destruct H1 as [Hs1 Ha], H2 as [Hs2 Hb].
    rewrite Forall_forall in Ha, Hb.
    assert (Hin_b : In b (a :: r1)) by (eapply Permutation_in; [apply Permutation_sym, Hp|now left]).
    assert (Hin_a : In a (b :: r2)) by (eapply Permutation_in; [exact Hp|now left]).
    assert (Hab : a = b).
    { destruct Hin_b as [E|Hb']; [exact E|]. destruct Hin_a as [E|Ha']; [now symmetry|].
      apply Hanti; [now left|now right|now apply Ha|now apply Hb]. }
    subst b. f_equal. apply IH; try assumption.
    + intros x y Hx Hy. apply Hanti; now right.
    + eapply Permutation_cons_inv, Hp.
Qed.
