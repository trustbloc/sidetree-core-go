(* cutter.getOperationsAtProtocolVersion takes the longest prefix of a window of the queue whose elements pass a test
   (were queued under one protocol version).  Writer/Machine.v and Pipeline/Model.v each have it as
   [same_version_prefix] over their own element type. *)
From Coq Require Import List Lia.
Import ListNotations.

Fixpoint take_while {A} (p : A -> bool) (l : list A) : list A :=
  match l with
  | [] => []
  | x :: r => if p x then x :: take_while p r else []
  end.

Lemma take_while_spec {A} (p : A -> bool) (P : A -> Prop) l :
  (forall x, p x = true -> P x) ->
  Forall P (take_while p l) /\ length (take_while p l) <= length l /\
  take_while p l = firstn (length (take_while p l)) l.
Proof.
  intros Hp. induction l as [|x r IH]; cbn [take_while]; [repeat split; constructor|].
  destruct (p x) eqn:E; [|repeat split; [constructor | cbn; lia]].
  destruct IH as (Hh & Hl & Hf). cbn [length firstn]. repeat split; [constructor; auto | lia | f_equal; exact Hf].
Qed.

(* the prefix taken from a window of the first [m] elements is a prefix of the whole list *)
Lemma take_while_window {A} (p : A -> bool) (P : A -> Prop) m l :
  (forall x, p x = true -> P x) ->
  let b := take_while p (firstn m l) in
  Forall P b /\ length b <= length (firstn m l) /\ b = firstn (length b) l.
Proof.
  intros Hp b. destruct (take_while_spec p P (firstn m l) Hp) as (Hh & Hl & Hf). fold b in Hh, Hl, Hf.
  repeat split; [exact Hh | exact Hl|]. rewrite Hf at 1. rewrite firstn_firstn. f_equal.
  rewrite firstn_length in Hl. lia.
Qed.
