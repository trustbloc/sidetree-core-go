(* The byte-string equality test of Base/Bytes.v decides equality.  The membership tests [bmem] (Doc/Composer.v,
   Parser/Accept.v) and [Validator.mem_bytes] are [existsb (bytes_eqb x)], which is characterised here once. *)
From Coq Require Import List Bool NArith.
From Coq.Strings Require Import Byte.
From SV Require Import Base.Bytes.
Import ListNotations.

Lemma byte_eqb_eq : forall x y, Byte.eqb x y = true <-> x = y.
Proof. split; [apply Byte.byte_dec_bl|apply Byte.byte_dec_lb]. Qed.

Lemma bytes_eqb_eq : forall a b, bytes_eqb a b = true <-> a = b.
Proof.
  induction a as [|x a IH]; intros [|y b]; cbn [bytes_eqb]; try (split; discriminate); [tauto|].
  rewrite andb_true_iff, byte_eqb_eq, IH. split; [intros [-> ->]; reflexivity|intro H; inversion H; tauto].
Qed.

Lemma bytes_eqb_refl : forall a, bytes_eqb a a = true.
Proof. intro a. now apply bytes_eqb_eq. Qed.

Lemma bytes_eqb_neq : forall a b, bytes_eqb a b = false <-> a <> b.
Proof. intros a b. rewrite <- bytes_eqb_eq. symmetry. apply not_true_iff_false. Qed.

Lemma bytes_eqb_sym : forall a b, bytes_eqb a b = bytes_eqb b a.
Proof.
  intros a b. apply eq_true_iff_eq. rewrite !bytes_eqb_eq. split; intro; now symmetry.
Qed.

Lemma bytes_eqb_spec : forall a b, reflect (a = b) (bytes_eqb a b).
Proof. intros a b. apply iff_reflect. symmetry. apply bytes_eqb_eq. Qed.

Lemma existsb_bytes_eqb : forall x l, existsb (bytes_eqb x) l = true <-> In x l.
Proof.
  intros x l. rewrite existsb_exists. split.
  - intros [y [Hin He]]. apply bytes_eqb_eq in He. now subst.
  - intro Hin. exists x. split; [exact Hin|apply bytes_eqb_refl].
Qed.

Lemma existsb_bytes_eqb_false : forall x l, existsb (bytes_eqb x) l = false <-> ~ In x l.
Proof. intros x l. rewrite <- existsb_bytes_eqb. symmetry. apply not_true_iff_false. Qed.

Lemma byte_to_N_inj : forall x y, Byte.to_N x = Byte.to_N y -> x = y.
Proof.
  intros x y H. apply (f_equal Byte.of_N) in H. rewrite !Byte.of_to_N in H. now inversion H.
Qed.
