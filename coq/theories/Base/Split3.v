(* OperationHandler.parseOperations as a function of what it looks at: a test [exp] for expired elements, a key
   (the DID suffix) and the keys [seen] so far.  Expired elements are set aside, the first remaining element of
   every key not yet seen is included, further ones are deferred.  The batch writer (Writer/Machine.v), the
   pipeline (Pipeline/Model.v) and the batch files (Batch/Handler.v) each carry a copy of this function over their
   own element type; what is proved here is carried over by one equation per copy. *)
From Coq Require Import List Permutation Lia.
Import ListNotations.

Record parts3 (A : Type) := { s3_in : list A; s3_add : list A; s3_exp : list A }.
Arguments s3_in {A}. Arguments s3_add {A}. Arguments s3_exp {A}.

Section Split3.
  Context {A K : Type}.
  Variables (exp : A -> bool) (key : A -> K) (mem : K -> list K -> bool).
  Hypothesis mem_In : forall x l, mem x l = true <-> In x l.

  Fixpoint split3 (seen : list K) (l : list A) : parts3 A :=
    match l with
    | [] => {| s3_in := []; s3_add := []; s3_exp := [] |}
    | o :: r =>
      if exp o then
        let s := split3 seen r in {| s3_in := s3_in s; s3_add := s3_add s; s3_exp := o :: s3_exp s |}
      else if mem (key o) seen then
        let s := split3 seen r in {| s3_in := s3_in s; s3_add := o :: s3_add s; s3_exp := s3_exp s |}
      else
        let s := split3 (key o :: seen) r in {| s3_in := o :: s3_in s; s3_add := s3_add s; s3_exp := s3_exp s |}
    end.

  Lemma split3_perm l : forall seen,
    Permutation l (s3_in (split3 seen l) ++ s3_add (split3 seen l) ++ s3_exp (split3 seen l)).
  Proof.
    induction l as [|o r IH]; intros seen; cbn [split3]; [reflexivity|].
    destruct (exp o); [|destruct (mem (key o) seen)]; cbn [s3_in s3_add s3_exp].
    - rewrite app_assoc. apply Permutation_cons_app. rewrite <- app_assoc. apply IH.
    - apply Permutation_cons_app. apply IH.
    - cbn [app]. constructor. apply IH.
  Qed.

  (* one element per key, of a key not seen before, not expired, taken from the input *)
  Lemma split3_in l : forall seen,
    NoDup (map key (s3_in (split3 seen l))) /\
    forall o, In o (s3_in (split3 seen l)) -> ~ In (key o) seen /\ exp o = false /\ In o l.
  Proof.
    induction l as [|o r IH]; intros seen; cbn [split3]; [split; [constructor | intros ? []]|].
    destruct (exp o) eqn:Ee; [|destruct (mem (key o) seen) eqn:Em]; cbn [s3_in].
    1, 2: destruct (IH seen) as [Hn Hi]; split; [exact Hn|]; intros x Hx; destruct (Hi x Hx) as (? & ? & ?);
      repeat split; [assumption | assumption | right; assumption].
    destruct (IH (key o :: seen)) as [Hn Hi]. split.
    - cbn [map]. constructor; [|exact Hn]. intros Hin. apply in_map_iff in Hin. destruct Hin as (x & Hx & Hin).
      apply (proj1 (Hi x Hin)). left. symmetry. exact Hx.
    - intros x [<-|Hx].
      + repeat split; [|exact Ee | left; reflexivity]. intros Hin. apply mem_In in Hin. congruence.
      + destruct (Hi x Hx) as (Hns & ? & ?). repeat split; [|assumption | right; assumption].
        intros Hin. apply Hns. right. exact Hin.
  Qed.

  (* an element is deferred only behind one of the same key that is already seen or included *)
  Lemma split3_add_behind l : forall seen o,
    In o (s3_add (split3 seen l)) ->
    In (key o) seen \/ exists i, In i (s3_in (split3 seen l)) /\ key i = key o.
  Proof.
    induction l as [|h r IH]; intros seen o; cbn [split3]; [intros []|].
    destruct (exp h); cbn [s3_in s3_add]; [apply IH|].
    destruct (mem (key h) seen) eqn:Em; cbn [s3_in s3_add].
    - intros [<-|Hin]; [left; apply mem_In; exact Em | apply IH; exact Hin].
    - intros Hin. destruct (IH _ _ Hin) as [[Hs|Hs]|(i & Hi & Hs)].
      + right. exists h. split; [left; reflexivity | exact Hs].
      + left. exact Hs.
      + right. exists i. split; [right; exact Hi | exact Hs].
  Qed.

  (* so from nothing seen, nothing is deferred unless something is included *)
  Lemma split3_in_nil l : s3_in (split3 [] l) = [] -> s3_add (split3 [] l) = [].
  Proof.
    intros Hi. destruct (s3_add (split3 [] l)) as [|o r] eqn:Ea; [reflexivity|].
    destruct (split3_add_behind l [] o) as [[]|(i & Hin & _)]; [rewrite Ea; left; reflexivity|].
    rewrite Hi in Hin. destruct Hin.
  Qed.

  Lemma split3_all_exp l : forall seen,
    s3_in (split3 seen l) = [] -> s3_add (split3 seen l) = [] -> s3_exp (split3 seen l) = l.
  Proof.
    induction l as [|o r IH]; intros seen; cbn [split3]; [reflexivity|].
    destruct (exp o); [|destruct (mem (key o) seen)]; cbn [s3_in s3_add s3_exp]; try discriminate.
    intros Hi Ha. f_equal. apply IH; assumption.
  Qed.

  Lemma split3_no_exp l : forall seen, (forall o, In o l -> exp o = false) -> s3_exp (split3 seen l) = [].
  Proof.
    induction l as [|o r IH]; intros seen H; cbn [split3]; [reflexivity|].
    rewrite (H o (or_introl eq_refl)).
    destruct (mem (key o) seen); cbn [s3_exp]; apply IH; intros x Hx; apply H; right; exact Hx.
  Qed.

  Lemma split3_add_le l : forall seen, length (s3_add (split3 seen l)) <= length l.
  Proof.
    induction l as [|o r IH]; intros seen; cbn [split3]; [cbn; lia|].
    destruct (exp o); [|destruct (mem (key o) seen)]; cbn [s3_add length];
      [specialize (IH seen) | specialize (IH seen) | specialize (IH (key o :: seen))]; lia.
  Qed.

  (* the head of a batch is never deferred when nothing has been seen: a non-empty batch makes progress *)
  Lemma split3_add_lt l : l <> [] -> length (s3_add (split3 [] l)) < length l.
  Proof.
    destruct l as [|o r]; [congruence|]. intros _. cbn [split3].
    replace (mem (key o) []) with false by (destruct (mem (key o) []) eqn:E; [apply mem_In in E; destruct E | reflexivity]).
    destruct (exp o); cbn [s3_add length]; [pose proof (split3_add_le r []) | pose proof (split3_add_le r [key o])]; lia.
  Qed.
End Split3.
