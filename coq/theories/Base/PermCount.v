(* Rearrangements of appended lists are decided by counting.  With [dec] an equality test on the elements, the goal
   [Permutation l l'] and every Permutation hypothesis become equations between the numbers of occurrences of an
   arbitrary [x], split along [++]; what is left is linear arithmetic. *)
From Coq Require Import List Permutation.

Ltac perm_count dec x :=
  apply (Permutation_count_occ dec); intro x;
  repeat match goal with
         | H : Permutation _ _ |- _ => generalize (proj1 (Permutation_count_occ dec _ _) H x); clear H; intro H
         end;
  rewrite ?map_app, ?count_occ_app in *.
