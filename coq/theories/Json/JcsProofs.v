(* The model of jsoncanonicalizer.Transform (C07), sections 1-11: the order on sort keys and sorted insertion; well-formed
   values [wf], their canonical value [cnorm], the I-JSON equivalence [json_equiv_jcs]; parsing the canonical text of
   a value gives its canonical value; from that the main theorems (fixed point, same value, unique serialisation,
   output determined by the value), the rejection classes for strings, the shape of the output, and that neither the
   fuel nor trailing white space influence the result. *)
From Coq Require Import String List NArith Bool Lia Permutation Sorted.
From Coq.Strings Require Import Byte.
From SV Require Import Base.Bytes Base.BytesFacts Base.ListFacts Json.Ast Json.Utf Json.Num Json.Jcs Json.NumProofs.
Import ListNotations.
Local Open Scope N_scope.

(** * 1. The UTF-16 code unit order is a strict total order *)

Lemma key_ltb_irrefl : forall a, key_ltb a a = false.
Proof.
  induction a as [|x a IH]; cbn [key_ltb]; [reflexivity|].
  rewrite N.ltb_irrefl. exact IH.
Qed.

Lemma key_ltb_trans : forall a b c, key_ltb a b = true -> key_ltb b c = true -> key_ltb a c = true.
Proof.
  induction a as [|x a IH]; intros [|y b] [|z c] Hab Hbc; try discriminate; [reflexivity|]. cbn [key_ltb] in *.
  destruct (N.ltb_spec x z); [reflexivity|].
  destruct (N.ltb_spec x y); [destruct (N.ltb_spec y z); [lia|destruct (N.ltb_spec z y); [discriminate|lia]]|].
  destruct (N.ltb_spec y x); [discriminate|]. destruct (N.ltb_spec y z); [lia|].
  destruct (N.ltb_spec z y); [discriminate|]. destruct (N.ltb_spec z x); [lia|]. eapply IH; eassumption.
Qed.

Lemma key_ltb_total : forall a b, key_ltb a b = false -> key_ltb b a = false -> a = b.
Proof.
  induction a as [|x a IH]; intros b Hab Hba; destruct b as [|y b]; try reflexivity; try discriminate.
  cbn [key_ltb] in *.
  destruct (x <? y) eqn:Hxy; [discriminate|]. destruct (y <? x) eqn:Hyx; [discriminate|].
  apply N.ltb_ge in Hxy, Hyx. assert (x = y) by lia. subst. f_equal. now apply IH.
Qed.

Lemma key_ltb_asym : forall a b, key_ltb a b = true -> key_ltb b a = false.
Proof.
  intros a b Hab. destruct (key_ltb b a) eqn:Hba; [|reflexivity].
  pose proof (key_ltb_trans _ _ _ Hab Hba) as H. rewrite key_ltb_irrefl in H. discriminate.
Qed.

Lemma key_eqb_eq : forall a b, key_eqb a b = true <-> a = b.
Proof.
  induction a as [|x a IH]; intros [|y b]; cbn [key_eqb]; split; intro H; try reflexivity; try discriminate.
  - apply andb_true_iff in H. destruct H as [H1 H2]. apply N.eqb_eq in H1. apply IH in H2. now subst.
  - inversion H; subst. rewrite N.eqb_refl. cbn. now apply IH.
Qed.

(** * 2. Sorted insertion (generic in the member payload) *)

Section Sorting.
  Context {A : Type}.

  Definition kof (p : bytes * A) : list N := utf16_key (fst p).
  Definition klt (p q : bytes * A) : Prop := key_ltb (kof p) (kof q) = true.

  Fixpoint insert_g (k : bytes) (v : A) (l : list (bytes * A)) : list (bytes * A) :=
    match l with
    | [] => [(k, v)]
    | (k', v') :: r =>
      if key_ltb (utf16_key k) (utf16_key k') then (k, v) :: l else (k', v') :: insert_g k v r
    end.

  Definition sort_g (m : list (bytes * A)) : list (bytes * A) :=
    fold_left (fun acc kv => insert_g (fst kv) (snd kv) acc) m [].

  Lemma insert_g_perm : forall k v l, Permutation (insert_g k v l) ((k, v) :: l).
  Proof.
    induction l as [|[k' v'] r IH]; cbn [insert_g]; [apply Permutation_refl|].
    destruct (key_ltb (utf16_key k) (utf16_key k')); [apply Permutation_refl|].
    eapply Permutation_trans; [apply perm_skip, IH|apply perm_swap].
  Qed.

  Lemma fold_insert_perm : forall m acc,
    Permutation (fold_left (fun acc kv => insert_g (fst kv) (snd kv) acc) m acc) (acc ++ m).
  Proof.
    induction m as [|[k v] m IH]; intro acc; cbn [fold_left fst snd].
    - rewrite app_nil_r. apply Permutation_refl.
    - eapply Permutation_trans; [apply IH|].
      eapply Permutation_trans; [apply Permutation_app_tail, insert_g_perm|].
      cbn [app]. apply Permutation_middle.
  Qed.

  Lemma sort_g_perm : forall m, Permutation (sort_g m) m.
  Proof. intro m. unfold sort_g. apply (fold_insert_perm m []). Qed.

  Lemma Forall_sort_g : forall (P : bytes * A -> Prop) m, Forall P m -> Forall P (sort_g m).
  Proof. intros P m. apply Permutation_Forall, Permutation_sym, sort_g_perm. Qed.

  Definition keys (m : list (bytes * A)) : list (list N) := map kof m.

  Lemma insert_g_sorted : forall k v l,
    StronglySorted klt l -> ~ In (utf16_key k) (keys l) -> StronglySorted klt (insert_g k v l).
  Proof.
    induction l as [|[k' v'] r IH]; intros Hs Hn; cbn [insert_g].
    - constructor; constructor.
    - inversion Hs as [|? ? Hr Hall]; subst.
      destruct (key_ltb (utf16_key k) (utf16_key k')) eqn:Hlt.
      + constructor; [exact Hs|]. constructor; [exact Hlt|].
        eapply Forall_impl; [|exact Hall]. intros q Hq. unfold klt in *. cbn [kof fst] in *.
        eapply key_ltb_trans; eassumption.
      + assert (Hgt : key_ltb (utf16_key k') (utf16_key k) = true).
        { destruct (key_ltb (utf16_key k') (utf16_key k)) eqn:Hgt; [reflexivity|].
          exfalso. apply Hn. left. cbn [kof fst]. symmetry. now apply key_ltb_total. }
        constructor.
        * apply IH; [exact Hr|]. intro Hin. apply Hn. right. exact Hin.
        * eapply Permutation_Forall; [apply Permutation_sym, insert_g_perm|].
          constructor; [exact Hgt|exact Hall].
  Qed.

  Lemma keys_perm : forall l l', Permutation l l' -> Permutation (keys l) (keys l').
  Proof. intros l l' H. unfold keys. now apply Permutation_map. Qed.

  Lemma fold_insert_sorted : forall m acc,
    StronglySorted klt acc -> NoDup (keys (acc ++ m)) ->
    StronglySorted klt (fold_left (fun acc kv => insert_g (fst kv) (snd kv) acc) m acc).
  Proof.
    induction m as [|[k v] m IH]; intros acc Hs Hnd; cbn [fold_left fst snd]; [exact Hs|].
    assert (Hp : Permutation (keys (acc ++ (k, v) :: m)) (utf16_key k :: keys (acc ++ m))).
    { apply Permutation_sym. eapply Permutation_trans; [|apply keys_perm, Permutation_middle]. apply Permutation_refl. }
    pose proof (Permutation_NoDup Hp Hnd) as Hnd'. inversion Hnd' as [|? ? Hni Hnd'']; subst.
    apply IH.
    - apply insert_g_sorted; [exact Hs|]. intro Hin. apply Hni. unfold keys in *. rewrite map_app. apply in_or_app. now left.
    - eapply Permutation_NoDup; [|exact Hnd'].
      change (utf16_key k :: keys (acc ++ m)) with (keys ((k, v) :: acc ++ m)).
      apply keys_perm. change ((k, v) :: acc ++ m) with (((k, v) :: acc) ++ m).
      apply Permutation_app_tail, Permutation_sym, insert_g_perm.
  Qed.

  Lemma sort_g_sorted : forall m, NoDup (keys m) -> StronglySorted klt (sort_g m).
  Proof. intros m H. unfold sort_g. apply fold_insert_sorted; [constructor|exact H]. Qed.

  Lemma sort_g_perm_eq : forall m m', NoDup (keys m) -> Permutation m m' -> sort_g m = sort_g m'.
  Proof.
    intros m m' Hnd Hp. apply (StronglySorted_perm_eq klt).
    - intros a b _ _ H1 H2. unfold klt in *. rewrite (key_ltb_asym _ _ H1) in H2. discriminate.
    - now apply sort_g_sorted.
    - apply sort_g_sorted. eapply Permutation_NoDup; [apply keys_perm, Hp|exact Hnd].
    - eapply Permutation_trans; [apply sort_g_perm|]. eapply Permutation_trans; [exact Hp|]. apply Permutation_sym, sort_g_perm.
  Qed.
End Sorting.

(* mapping the payload commutes with sorting *)
Definition map_snd {A B} (f : A -> B) (m : list (bytes * A)) : list (bytes * B) :=
  map (fun kv => let '(k, v) := kv in (k, f v)) m.

Lemma insert_g_map : forall {A B} (f : A -> B) k v l,
  insert_g k (f v) (map_snd f l) = map_snd f (insert_g k v l).
Proof.
  intros A B f k v. induction l as [|[k' v'] r IH]; cbn [insert_g map_snd map]; [reflexivity|].
  destruct (key_ltb (utf16_key k) (utf16_key k')); cbn [map]; [reflexivity|].
  f_equal. exact IH.
Qed.

Lemma sort_g_map : forall {A B} (f : A -> B) m, sort_g (map_snd f m) = map_snd f (sort_g m).
Proof.
  intros A B f m. unfold sort_g.
  change (@nil (bytes * B)) with (map_snd f (@nil (bytes * A))).
  generalize (@nil (bytes * A)) as acc.
  induction m as [|[k v] m IH]; intro acc; cbn [fold_left map_snd map fst snd]; [reflexivity|].
  rewrite insert_g_map. apply IH.
Qed.

Lemma keys_map_snd : forall {A B} (f : A -> B) m, keys (map_snd f m) = keys m.
Proof.
  intros A B f m. unfold keys, map_snd. rewrite map_map. apply map_ext. intros [k v]. reflexivity.
Qed.

Lemma insert_kv_g : forall k v l, insert_kv k v l = insert_g k v l.
Proof.
  intros k v. induction l as [|[k' v'] r IH]; cbn [insert_kv insert_g]; [reflexivity|]. now rewrite IH.
Qed.

Lemma sort_members_g : forall m, sort_members m = sort_g m.
Proof.
  intro m. unfold sort_members, sort_g. generalize (@nil (bytes * bytes)) as acc.
  induction m as [|kv m IH]; intro acc; cbn [fold_left]; [reflexivity|]. rewrite insert_kv_g. apply IH.
Qed.

(** * 3. Values: induction principle, well-formedness, canonical value, I-JSON equivalence *)

Section JsonInd.
  Variable P : json -> Prop.
  Hypothesis Hnull : P JNull.
  Hypothesis Hbool : forall b, P (JBool b).
  Hypothesis Hnum : forall b, P (JNum b).
  Hypothesis Hstr : forall s, P (JStr s).
  Hypothesis Harr : forall l, Forall P l -> P (JArr l).
  Hypothesis Hobj : forall m, Forall (fun kv => P (snd kv)) m -> P (JObj m).

  Fixpoint json_ind' (j : json) : P j :=
    match j with
    | JNull => Hnull
    | JBool b => Hbool b
    | JNum b => Hnum b
    | JStr s => Hstr s
    | JArr l => Harr l ((fix go (l : list json) : Forall P l :=
                           match l with
                           | [] => Forall_nil _
                           | x :: r => Forall_cons x (json_ind' x) (go r)
                           end) l)
    | JObj m => Hobj m ((fix go (m : list (bytes * json)) : Forall (fun kv => P (snd kv)) m :=
                           match m with
                           | [] => Forall_nil _
                           | (k, v) :: r => Forall_cons (k, v) (json_ind' v) (go r)
                           end) m)
    end.
End JsonInd.

Lemma Forall_mp : forall {A} (P Q : A -> Prop) l, Forall (fun x => P x -> Q x) l -> Forall P l -> Forall Q l.
Proof. intros A P Q l H. induction H as [|x l Hx _ IH]; intro Hp; inversion Hp; subst; constructor; auto. Qed.

(* -0 and +0 are the same I-JSON number *)
Definition is_zero (b : N) : bool := (b =? 0) || (b =? 0x8000000000000000).
Definition nnorm (b : N) : N := if is_zero b then 0 else b.

(* the value the canonical form denotes when parsed again: members sorted, zero unsigned *)
Fixpoint cnorm (j : json) : json :=
  match j with
  | JNum b => JNum (nnorm b)
  | JArr l => JArr (map cnorm l)
  | JObj m => JObj (sort_g (map (fun kv => let '(k, v) := kv in (k, cnorm v)) m))
  | _ => j
  end.

(* what the parser produces: finite numbers that are the result of parsing some token (of the token only the bound
   b < 2^64 is used, through [parse_number_bound]), member names with pairwise different sort keys *)
Fixpoint wf (j : json) : Prop :=
  match j with
  | JNum b => number_to_json b <> None /\ exists tok, parse_number tok = Some b
  | JArr l => (fix go (l : list json) : Prop := match l with [] => True | x :: r => wf x /\ go r end) l
  | JObj m => NoDup (keys m) /\
              (fix go (m : list (bytes * json)) : Prop :=
                 match m with [] => True | (k, v) :: r => wf v /\ go r end) m
  | _ => True
  end.

Lemma wf_arr : forall l, wf (JArr l) <-> Forall wf l.
Proof.
  induction l as [|x r IH]; [split; constructor|]. rewrite Forall_cons_iff, <- IH. reflexivity.
Qed.

Lemma wf_obj : forall m, wf (JObj m) <-> NoDup (keys m) /\ Forall (fun kv => wf (snd kv)) m.
Proof.
  intro m. cbn [wf]. apply and_iff_compat_l.
  induction m as [|[k v] r IH]; [split; constructor|]. rewrite Forall_cons_iff, <- IH. reflexivity.
Qed.

Definition num_equiv (a b : N) : Prop := nnorm a = nnorm b.

(* same I-JSON value: arrays pointwise, objects as finite maps (member order irrelevant) *)
Inductive json_equiv_jcs : json -> json -> Prop :=
| JE_null : json_equiv_jcs JNull JNull
| JE_bool b : json_equiv_jcs (JBool b) (JBool b)
| JE_num a b : num_equiv a b -> json_equiv_jcs (JNum a) (JNum b)
| JE_str s : json_equiv_jcs (JStr s) (JStr s)
| JE_arr l1 l2 : Forall2 json_equiv_jcs l1 l2 -> json_equiv_jcs (JArr l1) (JArr l2)
| JE_obj m1 m2 m2' :
    Permutation m2 m2' ->
    Forall2 (fun p q => fst p = fst q /\ json_equiv_jcs (snd p) (snd q)) m1 m2' ->
    json_equiv_jcs (JObj m1) (JObj m2).

Lemma nnorm_idem : forall b, nnorm (nnorm b) = nnorm b.
Proof. intro b. unfold nnorm. destruct (is_zero b) eqn:H; [reflexivity|]. now rewrite H. Qed.

Lemma number_to_json_nnorm : forall b, number_to_json (nnorm b) = number_to_json b.
Proof.
  intro b. unfold nnorm. destruct (is_zero b) eqn:H; [|reflexivity].
  unfold is_zero in H. apply orb_true_iff in H. destruct H as [H|H]; apply N.eqb_eq in H; subst; reflexivity.
Qed.

Lemma cnorm_obj : forall m, cnorm (JObj m) = JObj (sort_g (map_snd cnorm m)).
Proof. reflexivity. Qed.

Lemma print_obj : forall m,
  print_canonical (JObj m)
  = x7b :: join_comma (map print_member (sort_g (map_snd print_canonical m))) ++ [x7d].
Proof. intro m. cbn [print_canonical]. rewrite sort_members_g. reflexivity. Qed.

Lemma json_equiv_cnorm : forall v, json_equiv_jcs v (cnorm v).
Proof.
  induction v as [| | | |l IH|m IH] using json_ind'; cbn [cnorm]; try constructor.
  - unfold num_equiv. symmetry. apply nnorm_idem.
  - induction IH as [|x r Hx Hr IHr]; cbn [map]; constructor; assumption.
  - fold (map_snd cnorm m). econstructor; [apply sort_g_perm|].
    induction IH as [|[k x] r Hx Hr IHr]; cbn [map_snd map]; constructor; [|exact IHr].
    split; [reflexivity|exact Hx].
Qed.

Lemma wf_cnorm : forall v, wf v -> wf (cnorm v).
Proof.
  induction v as [| | | |l IH|m IH] using json_ind'; intro Hw; try exact Hw.
  - cbn [cnorm wf] in *. destruct Hw as [Hw [tok Ht]]. split; [now rewrite number_to_json_nnorm|].
    unfold nnorm. destruct (is_zero b); [exists [x30]; vm_compute; reflexivity|now exists tok].
  - cbn [cnorm]. apply wf_arr, Forall_map, (Forall_mp _ _ _ IH), wf_arr, Hw.
  - rewrite cnorm_obj. apply wf_obj. apply wf_obj in Hw. destruct Hw as [Hnd Hall]. split.
    + eapply Permutation_NoDup; [apply keys_perm, Permutation_sym, sort_g_perm|]. now rewrite keys_map_snd.
    + apply Forall_sort_g, Forall_map. eapply Forall_impl; [|exact (Forall_mp _ _ _ IH Hall)]. now intros [k y].
Qed.

(* the serialization depends only on the I-JSON value *)
Lemma print_equiv : forall v1 v2, wf v1 -> wf v2 -> json_equiv_jcs v1 v2 ->
  print_canonical v1 = print_canonical v2.
Proof.
  induction v1 as [| |a|s|l IH|m IH] using json_ind'; intros v2 Hw1 Hw2 He; inversion He; subst; try reflexivity.
  - cbn [print_canonical]. match goal with H : num_equiv _ _ |- _ => unfold num_equiv in H; rename H into Hn end.
    rewrite <- (number_to_json_nnorm a), Hn, number_to_json_nnorm. reflexivity.
  - cbn [print_canonical].
    assert (Hm : map print_canonical l = map print_canonical l2); [|now rewrite Hm].
    apply wf_arr in Hw1, Hw2. match goal with H : Forall2 _ _ _ |- _ => rename H into H2 end.
    clear He. induction H2 as [|x y l1 l2' Hxy Hr IHr]; [reflexivity|].
    inversion IH; subst. inversion Hw1; subst. inversion Hw2; subst. cbn [map]. f_equal; [|now apply IHr].
    match goal with H : forall v2, wf x -> _ |- _ => apply H; assumption end.
  - rewrite !print_obj.
    assert (Hm : sort_g (map_snd print_canonical m) = sort_g (map_snd print_canonical m2)); [|now rewrite Hm].
    apply wf_obj in Hw1, Hw2. destruct Hw1 as [Hnd1 Hall1]. destruct Hw2 as [Hnd2 Hall2].
    match goal with H : Permutation _ _ |- _ => rename H into Hp end.
    match goal with H : Forall2 _ _ _ |- _ => rename H into H2 end.
    assert (Hall2' : Forall (fun kv => wf (snd kv)) m2') by (eapply Permutation_Forall; eassumption).
    transitivity (sort_g (map_snd print_canonical m2')).
    + f_equal. clear He Hp Hnd1 Hnd2 Hall2. induction H2 as [|[k x] [k' y] l1 l2' [Hk Hxy] Hr IHr]; [reflexivity|].
      inversion IH; subst. inversion Hall1; subst. inversion Hall2'; subst. cbn [fst snd] in *. subst k'.
      cbn [map_snd map]. f_equal; [|now apply IHr].
      f_equal. match goal with H : forall v2, wf x -> _ |- _ => apply H; assumption end.
    + symmetry. apply sort_g_perm_eq; [now rewrite keys_map_snd|]. unfold map_snd. now apply Permutation_map.
Qed.

(** * 4. Scanner facts *)

Definition tokchar (c : byte) : Prop :=
  is_ws (bN c) = false /\ (0x7f <? bN c) = false /\ is_term (bN c) = false.

Lemma scan_plain : forall c r, is_ws (bN c) = false -> (0x7f <? bN c) = false -> scan (c :: r) = Some (c, r).
Proof. intros c r H1 H2. cbn [scan]. now rewrite H1, H2. Qed.

Lemma is_term_cases : forall c, is_term (bN c) = true -> c = x2c \/ c = x5d \/ c = x7d.
Proof. intros c H. destruct c; try discriminate H; auto. Qed.

Lemma not_term_close : forall n, is_term n = false -> (n =? 0x5d) = false /\ (n =? 0x7d) = false.
Proof.
  intros n H. unfold is_term in H. apply orb_false_iff in H. destruct H as [H H7]. apply orb_false_iff in H. now destruct H.
Qed.

Lemma scan_term : forall t r, is_term (bN t) = true -> scan (t :: r) = Some (t, r).
Proof. intros t r H. destruct (is_term_cases _ H) as [->|[->| ->]]; reflexivity. Qed.

Lemma token_loop_eq : forall s acc,
  token_loop s acc =
  match scan s with
  | None => None
  | Some (c, _) =>
    if is_term (bN c) then Some (rev acc, s)
    else match s with
         | [] => None
         | d :: r => if 0x7f <? bN d then None else if is_ws (bN d) then Some (rev acc, r) else token_loop r (d :: acc)
         end
  end.
Proof. intros [|c s] acc; reflexivity. Qed.

Lemma token_loop_chars : forall s acc t r,
  Forall tokchar s -> is_term (bN t) = true ->
  token_loop (s ++ t :: r) acc = Some (rev acc ++ s, t :: r).
Proof.
  induction s as [|c s IH]; intros acc t r Hs Ht; rewrite token_loop_eq.
  - cbn [app]. rewrite (scan_term _ _ Ht), Ht. now rewrite app_nil_r.
  - inversion Hs as [|? ? [H1 [H2 H3]] Hs']; subst. cbn [app].
    rewrite (scan_plain _ _ H1 H2), H3, H2, H1. rewrite IH by assumption.
    cbn [rev]. now rewrite <- app_assoc.
Qed.

(* one byte of decorateString is read back as that byte (all 256 cases by computation) *)
Lemma string_step : forall c rest acc, parse_string (escape_byte c ++ rest) acc = parse_string rest (c :: acc).
Proof. intros c rest acc. destruct c; reflexivity. Qed.

Lemma parse_string_decorate : forall s rest acc,
  parse_string (flat_map escape_byte s ++ x22 :: rest) acc = Some (rev acc ++ s, rest).
Proof.
  induction s as [|c s IH]; intros rest acc.
  - cbn [flat_map app]. rewrite app_nil_r. reflexivity.
  - cbn [flat_map]. rewrite <- app_assoc, string_step, IH. cbn [rev]. now rewrite <- app_assoc.
Qed.

Lemma decorate_app : forall s rest, decorate s ++ rest = x22 :: flat_map escape_byte s ++ x22 :: rest.
Proof. intros s rest. unfold decorate. cbn [app]. now rewrite <- app_assoc. Qed.

(* one step of the string scanner (stated so that rewriting does not unfold the recursive calls) *)
Lemma parse_string_eq : forall c r acc,
  parse_string (c :: r) acc =
  if bN c =? 0x22 then Some (rev acc, r)
  else if bN c <? 0x20 then None
  else if bN c =? 0x5c then
    match r with
    | [] => None
    | e :: r1 =>
      if bN e =? 0x75 then
        match r1 with
        | h1 :: h2 :: h3 :: h4 :: r2 =>
          match hex4 h1 h2 h3 h4 with
          | None => None
          | Some u1 =>
            if is_surrogate u1 then
              match r2 with
              | b :: u :: k1 :: k2 :: k3 :: k4 :: r3 =>
                if (bN b =? 0x5c) && (bN u =? 0x75) then
                  match hex4 k1 k2 k3 k4 with
                  | None => None
                  | Some u2 =>
                    if utf16_decode_pair u1 u2 =? rune_error then None
                    else parse_string r3 (rev_append (utf8_encode (utf16_decode_pair u1 u2)) acc)
                  end
                else None
              | _ => None
              end
            else parse_string r2 (rev_append (utf8_encode u1) acc)
          end
        | _ => None
        end
      else if bN e =? 0x2f then parse_string r1 (x2f :: acc)
      else match unescape (bN e) with
           | Some x => parse_string r1 (x :: acc)
           | None => None
           end
    end
  else parse_string r (c :: acc).
Proof. reflexivity. Qed.

(* What the string scanner consumed is a self-contained prefix: it never looks beyond the closing quote, and the
   same prefix followed by anything else leaves the scanner in the state "accumulated = decoded prefix".  (The
   look-ahead for the second half of a surrogate pair stays inside the prefix: a prefix cannot end inside an
   escape.) *)
Lemma parse_string_split : forall s acc k r, parse_string s acc = Some (k, r) ->
  exists sp, s = sp ++ x22 :: r /\ forall rest, parse_string (sp ++ rest) acc = parse_string rest (rev k).
Proof.
  intro s. assert (Hl : (length s <= length s)%nat) by lia. revert Hl. generalize (length s) at 2 as n. intro n. revert s.
  induction n as [|n IH]; intros s Hl acc k r H.
  - destruct s; [discriminate|cbn in Hl; lia].
  - destruct s as [|c s']; [discriminate|]. cbn [parse_string] in H.
    destruct (bN c =? 0x22) eqn:E22.
    { inversion H; subst. exists []. split.
      - apply N.eqb_eq in E22. apply (byte_to_N_inj c x22) in E22. now subst.
      - intro rest. now rewrite rev_involutive. }
    destruct (bN c <? 0x20) eqn:Ectl; [discriminate|].
    destruct (bN c =? 0x5c) eqn:E5c.
    2: { apply IH in H; [|cbn [length] in Hl; lia]. destruct H as [sp [-> Hsp]].
         exists (c :: sp). split; [reflexivity|].
         intro rest. cbn [app]. rewrite parse_string_eq, E22, Ectl, E5c. apply Hsp. }
    destruct s' as [|e r1]; [discriminate|].
    destruct (bN e =? 0x75) eqn:E75.
    + destruct r1 as [|h1 [|h2 [|h3 [|h4 r2]]]]; try discriminate.
      destruct (hex4 h1 h2 h3 h4) as [u1|] eqn:Eh; [|discriminate].
      destruct (is_surrogate u1) eqn:Esur.
      * destruct r2 as [|b0 [|u [|k1 [|k2 [|k3 [|k4 r3]]]]]]; try discriminate.
        destruct ((bN b0 =? 0x5c) && (bN u =? 0x75)) eqn:Ebu; [|discriminate].
        destruct (hex4 k1 k2 k3 k4) as [u2|] eqn:Eh2; [|discriminate].
        destruct (utf16_decode_pair u1 u2 =? rune_error) eqn:Edp; [discriminate|].
        apply IH in H; [|cbn [length] in Hl; lia]. destruct H as [sp [-> Hsp]].
        exists (c :: e :: h1 :: h2 :: h3 :: h4 :: b0 :: u :: k1 :: k2 :: k3 :: k4 :: sp). split; [reflexivity|].
        intro rest. cbn [app]. rewrite parse_string_eq, E22, Ectl, E5c. cbv beta iota.
        rewrite E75, Eh, Esur, Ebu, Eh2, Edp. apply Hsp.
      * apply IH in H; [|cbn [length] in Hl; lia]. destruct H as [sp [-> Hsp]].
        exists (c :: e :: h1 :: h2 :: h3 :: h4 :: sp). split; [reflexivity|].
        intro rest. cbn [app]. rewrite parse_string_eq, E22, Ectl, E5c. cbv beta iota.
        rewrite E75, Eh, Esur. apply Hsp.
    + destruct (bN e =? 0x2f) eqn:E2f.
      * apply IH in H; [|cbn [length] in Hl; lia]. destruct H as [sp [-> Hsp]].
        exists (c :: e :: sp). split; [reflexivity|].
        intro rest. cbn [app]. rewrite parse_string_eq, E22, Ectl, E5c. cbv beta iota.
        rewrite E75, E2f. apply Hsp.
      * destruct (unescape (bN e)) as [x|] eqn:Eun; [|discriminate].
        apply IH in H; [|cbn [length] in Hl; lia]. destruct H as [sp [-> Hsp]].
        exists (c :: e :: sp). split; [reflexivity|].
        intro rest. cbn [app]. rewrite parse_string_eq, E22, Ectl, E5c. cbv beta iota.
        rewrite E75, E2f, Eun. apply Hsp.
Qed.

Lemma parse_string_len : forall s acc k r, parse_string s acc = Some (k, r) -> (length r < length s)%nat.
Proof.
  intros s acc k r H. destruct (parse_string_split _ _ _ _ H) as [sp [-> _]]. rewrite app_length. cbn [length]. lia.
Qed.

Lemma parse_string_frame : forall s acc k r g,
  parse_string s acc = Some (k, r) -> parse_string (s ++ g) acc = Some (k, r ++ g).
Proof.
  intros s acc k r g H. destruct (parse_string_split _ _ _ _ H) as [sp [-> Hsp]]. rewrite <- app_assoc, Hsp.
  change (Some (rev (rev k), r ++ g) = Some (k, r ++ g)). now rewrite rev_involutive.
Qed.

(* without a closing quote the string scanner always fails *)
Lemma parse_string_no_quote : forall s acc, ~ In x22 s -> parse_string s acc = None.
Proof.
  intros s acc Hq. destruct (parse_string s acc) as [[k r]|] eqn:E; [|reflexivity].
  destruct (parse_string_split _ _ _ _ E) as [sp [-> _]]. exfalso. apply Hq, in_or_app. right. now left.
Qed.

Lemma parse_elem_eq : forall f s,
  parse (S f) MElem s =
  match scan s with
  | None => None
  | Some (c, r) =>
    if bN c =? 0x7b then parse f (MObj false []) r
    else if bN c =? 0x22 then
      match parse_string r [] with Some (str, r') => Some (JStr str, r') | None => None end
    else if bN c =? 0x5b then parse f (MArr false []) r
    else match token_loop (c :: r) [] with
         | None => None
         | Some (tok, r') => match simple_value tok with Some v => Some (v, r') | None => None end
         end
  end.
Proof. reflexivity. Qed.

(* the dispatch of an element on its first byte, for the three bytes that open a container or a string *)
Lemma parse_elem_arr : forall f r, parse (S f) MElem (x5b :: r) = parse f (MArr false []) r.
Proof. reflexivity. Qed.

Lemma parse_elem_obj : forall f r, parse (S f) MElem (x7b :: r) = parse f (MObj false []) r.
Proof. reflexivity. Qed.

Lemma parse_elem_str : forall f r,
  parse (S f) MElem (x22 :: r) = match parse_string r [] with Some (str, r') => Some (JStr str, r') | None => None end.
Proof. reflexivity. Qed.

Lemma parse_arr_eq : forall f next acc s,
  parse (S f) (MArr next acc) s =
  match scan s with
  | None => None
  | Some (c, r) =>
    if bN c =? 0x5d then Some (JArr (rev acc), r)
    else match (if next then scan_for 0x2c s else Some s) with
         | None => None
         | Some s1 =>
           match parse f MElem s1 with
           | None => None
           | Some (v, s2) => parse f (MArr true (v :: acc)) s2
           end
         end
  end.
Proof. reflexivity. Qed.

Lemma parse_obj_eq : forall f next acc s,
  parse (S f) (MObj next acc) s =
  match scan s with
  | None => None
  | Some (c, r) =>
    if bN c =? 0x7d then Some (JObj (rev acc), r)
    else match (if next then scan_for 0x2c s else Some s) with
         | None => None
         | Some s1 =>
           match scan_for 0x22 s1 with
           | None => None
           | Some s2 =>
             match parse_string s2 [] with
             | None => None
             | Some (k, s3) =>
               match scan_for 0x3a s3 with
               | None => None
               | Some s4 =>
                 match parse f MElem s4 with
                 | None => None
                 | Some (v, s5) =>
                   if key_mem (utf16_key k) acc then None else parse f (MObj true ((k, v) :: acc)) s5
                 end
               end
             end
           end
         end
  end.
Proof. reflexivity. Qed.

Lemma key_mem_false : forall k acc, key_mem k acc = false <-> ~ In k (keys acc).
Proof.
  intros k. induction acc as [|[k' v] r IH]; cbn [key_mem keys map In]; [tauto|].
  rewrite orb_false_iff, IH, <- not_true_iff_false, key_eqb_eq. unfold kof. cbn [fst]. intuition congruence.
Qed.

(** * 4b. What a successful run of the worker entails *)

Lemma scan_ok : forall s c r g, scan s = Some (c, r) ->
  (length r < length s)%nat /\ scan (s ++ g) = Some (c, r ++ g).
Proof.
  induction s as [|d s IH]; intros c r g H; [discriminate|]. cbn [scan app length] in *.
  destruct (is_ws (bN d)); [destruct (IH _ _ g H); split; [lia|assumption]|].
  destruct (0x7f <? bN d); [discriminate|]. inversion H; subst. split; [lia|reflexivity].
Qed.

Lemma scan_for_ok : forall x s r g, scan_for x s = Some r ->
  (length r < length s)%nat /\ scan_for x (s ++ g) = Some (r ++ g).
Proof.
  intros x s r g H. unfold scan_for in *. destruct (scan s) as [[c r0]|] eqn:E; [|discriminate].
  destruct (scan_ok _ _ _ g E) as [L F]. rewrite F. destruct (bN c =? x); [|discriminate]. inversion H; subst. now split.
Qed.

Lemma token_loop_ok : forall s acc tok r g, token_loop s acc = Some (tok, r) ->
  (length r + length tok <= length s + length acc)%nat /\ token_loop (s ++ g) acc = Some (tok, r ++ g).
Proof.
  induction s as [|d s IH]; intros acc tok r g H; rewrite token_loop_eq in H |- *; [discriminate|].
  destruct (scan (d :: s)) as [[c x]|] eqn:E; [|discriminate]. rewrite (proj2 (scan_ok _ _ _ g E)).
  destruct (is_term (bN c)). { inversion H; subst. rewrite rev_length. split; [lia|reflexivity]. }
  cbn [app]. destruct (0x7f <? bN d); [discriminate|].
  destruct (is_ws (bN d)). { inversion H; subst. rewrite rev_length. cbn [length]. split; [lia|reflexivity]. }
  destruct (IH _ _ _ g H) as [L F]. cbn [length] in *. split; [lia|exact F].
Qed.

(* the separator test before every element or member but the first *)
Lemma sep_ok : forall (next : bool) s s1 g,
  (if next then scan_for 0x2c s else Some s) = Some s1 ->
  (length s1 <= length s)%nat /\ (if next then scan_for 0x2c (s ++ g) else @Some bytes (s ++ g)) = Some (s1 ++ g).
Proof. intros [|] s s1 g H; [destruct (scan_for_ok _ _ _ g H); split; [lia|assumption]|injection H as <-; now split]. Qed.

Definition mode_wf (m : mode) : Prop :=
  match m with
  | MElem => True
  | MArr _ acc => Forall wf acc
  | MObj _ acc => Forall (fun kv => wf (snd kv)) acc /\ NoDup (keys acc)
  end.

Definition mode_shape (m : mode) (v : json) : Prop :=
  match m with
  | MElem => True
  | MArr _ _ => exists l, v = JArr l
  | MObj _ _ => exists l, v = JObj l
  end.

Lemma simple_value_wf : forall tok v, simple_value tok = Some v -> wf v.
Proof.
  intros tok v H. unfold simple_value in H. destruct tok as [|c tok]; [discriminate|].
  destruct (bytes_eqb (c :: tok) lit_true); [inversion H; exact I|].
  destruct (bytes_eqb (c :: tok) lit_false); [inversion H; exact I|].
  destruct (bytes_eqb (c :: tok) lit_null); [inversion H; exact I|].
  destruct (parse_number (c :: tok)) as [b|] eqn:Ep; [|discriminate].
  destruct (number_to_json b) as [s|] eqn:E; [|discriminate].
  inversion H; subst. cbn [wf]. split; [now rewrite E|now exists (c :: tok)].
Qed.

(* enough fuel for every run on [s] that does not fail: two calls for a byte, the loop step and the element *)
Definition need (m : mode) (s : bytes) : nat :=
  (2 * length s + match m with MElem => 1 | _ => 2 end)%nat.

(* A successful run consumes input, yields a well-formed value of the shape the mode asks for, and is repeated on the
   same text followed by anything else by every run that has at least as much fuel, or at least [need m s] units.
   One induction: the sub-runs of a loop step are covered by the induction hypothesis, and the fuel bound of the last
   part needs the lengths of the first. *)
Lemma parse_ok : forall f m s v r, parse f m s = Some (v, r) ->
  forall f' g, (f <= f' \/ need m s <= f')%nat ->
  (length r < length s)%nat /\ (mode_wf m -> wf v /\ mode_shape m v) /\ parse f' m (s ++ g) = Some (v, r ++ g).
Proof.
  induction f as [|f IH]; intros m s v r H f' g Hf; [discriminate|].
  destruct f' as [|f']; [unfold need in Hf; destruct m; lia|]. destruct m as [|next acc|next acc]; unfold need in Hf.
  - rewrite parse_elem_eq in H |- *. destruct (scan s) as [[c r0]|] eqn:Es; [|discriminate].
    destruct (scan_ok _ _ _ g Es) as [Ls Fs]. rewrite Fs.
    destruct (bN c =? 0x7b).
    { destruct (IH _ _ _ _ H f' g) as [L [W F]]; [unfold need; lia|].
      split; [lia|]. split; [intros _; split; [apply W; split; constructor|exact I]|exact F]. }
    destruct (bN c =? 0x22).
    { destruct (parse_string r0 []) as [[str r']|] eqn:Ep; [|discriminate]. rewrite (parse_string_frame _ _ _ _ g Ep).
      injection H as <- <-. split; [apply parse_string_len in Ep; lia|]. split; [intros _; split; exact I|reflexivity]. }
    destruct (bN c =? 0x5b).
    { destruct (IH _ _ _ _ H f' g) as [L [W F]]; [unfold need; lia|].
      split; [lia|]. split; [intros _; split; [apply W; constructor|exact I]|exact F]. }
    destruct (token_loop (c :: r0) []) as [[tok r']|] eqn:Et; [|discriminate].
    change (c :: r0 ++ g) with ((c :: r0) ++ g). destruct (token_loop_ok _ _ _ _ g Et) as [Lt Ft]. rewrite Ft.
    destruct (simple_value tok) as [v0|] eqn:Ev; [|discriminate]. injection H as <- <-.
    split; [destruct tok; [discriminate Ev|]; cbn [length] in Lt; lia|].
    split; [intros _; split; [eapply simple_value_wf; eassumption|exact I]|reflexivity].
  - rewrite parse_arr_eq in H |- *. destruct (scan s) as [[c r0]|] eqn:Es; [|discriminate].
    destruct (scan_ok _ _ _ g Es) as [Ls Fs]. rewrite Fs.
    destruct (bN c =? 0x5d).
    { injection H as <- <-. split; [exact Ls|].
      split; [intro Hm; split; [apply wf_arr, Forall_rev, Hm|eexists; reflexivity]|reflexivity]. }
    destruct (if next then scan_for 0x2c s else Some s) as [s1|] eqn:E2; [|discriminate].
    destruct (sep_ok _ _ _ g E2) as [L2 F2]. rewrite F2.
    destruct (parse f MElem s1) as [[v0 s2]|] eqn:E3; [|discriminate].
    destruct (IH _ _ _ _ E3 f' g) as [L3 [W3 F3]]; [unfold need; lia|]. rewrite F3.
    destruct (IH _ _ _ _ H f' g) as [L [W F]]; [unfold need; lia|].
    split; [lia|]. split; [intro Hm; apply W; constructor; [apply W3; exact I|exact Hm]|exact F].
  - rewrite parse_obj_eq in H |- *. destruct (scan s) as [[c r0]|] eqn:Es; [|discriminate].
    destruct (scan_ok _ _ _ g Es) as [Ls Fs]. rewrite Fs.
    destruct (bN c =? 0x7d).
    { injection H as <- <-. split; [exact Ls|]. split; [|reflexivity].
      intros [Hall Hnd]. split; [|eexists; reflexivity]. apply wf_obj.
      split; [eapply Permutation_NoDup; [apply keys_perm, Permutation_rev|exact Hnd]|apply Forall_rev, Hall]. }
    destruct (if next then scan_for 0x2c s else Some s) as [s1|] eqn:E2; [|discriminate].
    destruct (sep_ok _ _ _ g E2) as [L2 F2]. rewrite F2.
    destruct (scan_for 0x22 s1) as [s2|] eqn:E3; [|discriminate].
    destruct (scan_for_ok _ _ _ g E3) as [L3 F3]. rewrite F3.
    destruct (parse_string s2 []) as [[k s3]|] eqn:E4; [|discriminate].
    rewrite (parse_string_frame _ _ _ _ g E4). apply parse_string_len in E4.
    destruct (scan_for 0x3a s3) as [s4|] eqn:E5; [|discriminate].
    destruct (scan_for_ok _ _ _ g E5) as [L5 F5]. rewrite F5.
    destruct (parse f MElem s4) as [[v0 s5]|] eqn:E6; [|discriminate].
    destruct (IH _ _ _ _ E6 f' g) as [L6 [W6 F6]]; [unfold need; lia|]. rewrite F6.
    destruct (key_mem (utf16_key k) acc) eqn:Ek; [discriminate|].
    destruct (IH _ _ _ _ H f' g) as [L [W F]]; [unfold need; lia|].
    split; [lia|]. split; [|exact F].
    intros [Hall Hnd]. apply W. split; [constructor; [apply W6; exact I|exact Hall]|].
    unfold keys. cbn [map]. constructor; [apply key_mem_false, Ek|exact Hnd].
Qed.

Lemma parse_len : forall f m s v r, parse f m s = Some (v, r) -> (length r < length s)%nat.
Proof. intros f m s v r H. apply (parse_ok _ _ _ _ _ H f [] (or_introl (le_n f))). Qed.

Lemma parse_wf : forall f m s v r, parse f m s = Some (v, r) -> mode_wf m -> wf v /\ mode_shape m v.
Proof. intros f m s v r H. apply (parse_ok _ _ _ _ _ H f [] (or_introl (le_n f))). Qed.

Lemma parse_frame : forall f f' m s v r g, parse f m s = Some (v, r) -> (f <= f' \/ need m s <= f')%nat ->
  parse f' m (s ++ g) = Some (v, r ++ g).
Proof. intros f f' m s v r g H Hf. apply (parse_ok _ _ _ _ _ H f' g Hf). Qed.

Lemma parse_refuel : forall f f' m s x, parse f m s = Some x -> (f <= f' \/ need m s <= f')%nat -> parse f' m s = Some x.
Proof.
  intros f f' m s [v r] H Hf. rewrite <- (app_nil_r s), <- (app_nil_r r). exact (parse_frame _ _ _ _ _ _ [] H Hf).
Qed.

(** * 5. Parsing the canonical form gives back the canonical value *)

Lemma numchar_tokchar : forall c, numchar c -> tokchar c.
Proof.
  intros c [H|[->|[->|[->| ->]]]]; try (repeat split; reflexivity).
  unfold tokchar, is_ws, is_term. repeat split.
  - repeat (apply orb_false_iff; split); apply N.eqb_neq; lia.
  - apply N.ltb_ge. lia.
  - repeat (apply orb_false_iff; split); apply N.eqb_neq; lia.
Qed.

Fixpoint fsize (j : json) : nat :=
  match j with
  | JArr l => 2 + list_sum (map (fun v => S (fsize v)) l)
  | JObj m => 2 + list_sum (map (fun kv => let '(k, v) := kv in S (fsize v)) m)
  | _ => 1
  end.

Definition asum (l : list json) : nat := list_sum (map (fun v => S (fsize v)) l).
Definition osum (m : list (bytes * json)) : nat := list_sum (map (fun kv => let '(k, v) := kv in S (fsize v)) m).

Lemma osum_perm : forall m m', Permutation m m' -> osum m = osum m'.
Proof.
  intros m m' H. unfold osum. induction H as [|[k x] l l' H IH|[k x] [k' y] l|l l' l'' H1 IH1 H2 IH2]; simpl; lia.
Qed.

Lemma join_comma_2 : forall x y r, join_comma (x :: y :: r) = x ++ x2c :: join_comma (y :: r).
Proof. reflexivity. Qed.

Lemma join_comma_map_2 : forall {A} (p : A -> bytes) x y l,
  join_comma (map p (x :: y :: l)) = p x ++ x2c :: join_comma (map p (y :: l)).
Proof. intros. apply join_comma_2. Qed.

Lemma join_comma_cons : forall x r, join_comma (x :: r) = x ++ flat_map (fun y => x2c :: y) r.
Proof.
  intros x r. revert x. induction r as [|y r IH]; intro x.
  - cbn [join_comma flat_map]. now rewrite app_nil_r.
  - rewrite join_comma_2, IH. reflexivity.
Qed.

Lemma asum_cons : forall v l, asum (v :: l) = (S (fsize v) + asum l)%nat.
Proof. reflexivity. Qed.

Lemma osum_cons : forall k v m, osum ((k, v) :: m) = (S (fsize v) + osum m)%nat.
Proof. reflexivity. Qed.

(* The one fact about numbers that the document-level proofs use: a double that was read from some token, printed by
   NumberToJSON and read again, is the same double (-0 printed as "0" reads as +0). *)
Theorem num_roundtrip : forall tok b s,
  parse_number tok = Some b -> number_to_json b = Some s -> parse_number s = Some (nnorm b).
Proof.
  intros tok b s Hp Hs. apply parse_number_bound in Hp. rewrite (number_roundtrip b s Hp Hs). reflexivity.
Qed.

(* what the induction carries for one value *)
Definition rt (v : json) : Prop :=
  forall f t r, (fsize v <= f)%nat -> is_term (bN t) = true ->
  parse f MElem (print_canonical v ++ t :: r) = Some (cnorm v, t :: r).

(* the loops at the first byte of an element and at the comma before one *)
Lemma parse_arr_head : forall f acc s c r0, scan s = Some (c, r0) -> (bN c =? 0x5d) = false ->
  parse (S f) (MArr false acc) s =
  match parse f MElem s with None => None | Some (v, s2) => parse f (MArr true (v :: acc)) s2 end.
Proof. intros f acc s c r0 Hs Hc. now rewrite parse_arr_eq, Hs, Hc. Qed.

Lemma parse_arr_comma : forall f acc r,
  parse (S f) (MArr true acc) (x2c :: r) =
  match parse f MElem r with None => None | Some (v, s2) => parse f (MArr true (v :: acc)) s2 end.
Proof. reflexivity. Qed.

Lemma parse_obj_comma : forall f (next : bool) acc r,
  parse (S f) (MObj next acc) ((if next then [x2c] else []) ++ x22 :: r) = parse (S f) (MObj false acc) (x22 :: r).
Proof. intros f [|] acc r; reflexivity. Qed.

Lemma parse_obj_quote : forall f acc r,
  parse (S f) (MObj false acc) (x22 :: r) =
  match parse_string r [] with
  | None => None
  | Some (k, s3) =>
    match scan_for 0x3a s3 with
    | None => None
    | Some s4 =>
      match parse f MElem s4 with
      | None => None
      | Some (v, s5) => if key_mem (utf16_key k) acc then None else parse f (MObj true ((k, v) :: acc)) s5
      end
    end
  end.
Proof. reflexivity. Qed.

Lemma parse_value_arr : forall r,
  parse_value (x5b :: r) =
  match parse (parse_fuel (x5b :: r)) (MArr false []) r with
  | None => None
  | Some (v, rest) => if all_ws rest then Some v else None
  end.
Proof. reflexivity. Qed.

Lemma parse_value_obj : forall r,
  parse_value (x7b :: r) =
  match parse (parse_fuel (x7b :: r)) (MObj false []) r with
  | None => None
  | Some (v, rest) => if all_ws rest then Some v else None
  end.
Proof. reflexivity. Qed.

Lemma print_head : forall v, wf v ->
  exists c r, print_canonical v = c :: r /\ is_ws (bN c) = false /\ (0x7f <? bN c) = false /\
              (bN c =? 0x5d) = false /\ (bN c =? 0x7d) = false.
Proof.
  intros v Hw. destruct v as [|[|]|b|s|l|m]; cbn [print_canonical]; try (eexists _, _; repeat split; reflexivity).
  - cbn [wf] in Hw. destruct Hw as [Hw _]. destruct (number_to_json b) as [s|] eqn:E; [|contradiction].
    destruct (number_to_json_chars _ _ E) as [Hne Hall]. destruct s as [|c s]; [contradiction|].
    inversion Hall as [|? ? Hc _]; subst. exists c, s. split; [reflexivity|].
    pose proof (numchar_tokchar _ Hc) as [H1 [H2 H3]]. repeat split; try assumption; apply (not_term_close _ H3).
Qed.

(* one element, after a comma or as the first *)
Lemma arr_step : forall (next : bool) v acc f t r, wf v -> rt v -> (fsize v <= f)%nat -> is_term (bN t) = true ->
  parse (S f) (MArr next acc) ((if next then [x2c] else []) ++ print_canonical v ++ t :: r)
  = parse f (MArr true (cnorm v :: acc)) (t :: r).
Proof.
  intros [|] v acc f t r Hw Hv Hf Ht; cbn [app].
  - now rewrite parse_arr_comma, (Hv f t r Hf Ht).
  - destruct (print_head v Hw) as [c [r0 [Hp [H1 [H2 [H3 _]]]]]].
    rewrite (parse_arr_head _ _ _ c (r0 ++ t :: r)), (Hv f t r Hf Ht); [reflexivity| |exact H3].
    rewrite Hp. now apply scan_plain.
Qed.

Lemma arr_loop : forall l x, Forall wf (x :: l) -> Forall rt (x :: l) -> forall (next : bool) acc f rest,
  (1 + asum (x :: l) <= f)%nat ->
  parse f (MArr next acc) ((if next then [x2c] else []) ++ join_comma (map print_canonical (x :: l)) ++ x5d :: rest)
  = Some (JArr (rev acc ++ map cnorm (x :: l)), rest).
Proof.
  induction l as [|y l IH]; intros x Hw Hl next acc f rest Hf; rewrite asum_cons in Hf; (destruct f as [|f]; [lia|]);
    inversion Hw as [|? ? Hwx Hw']; inversion Hl as [|? ? Hx Hl']; subst.
  - cbn [map join_comma]. rewrite arr_step by (try assumption; try reflexivity; cbn in Hf; lia).
    destruct f as [|f]; [cbn in Hf; lia|]. reflexivity.
  - rewrite join_comma_map_2, <- app_assoc. cbn [app]. rewrite arr_step by (try assumption; try reflexivity; lia).
    specialize (IH y Hw' Hl' true (cnorm x :: acc) f rest). cbn [app] in IH. rewrite IH by lia.
    cbn [rev map]. now rewrite <- app_assoc.
Qed.

Lemma arr_first : forall l, Forall wf l -> Forall rt l -> forall f rest,
  (1 + asum l <= f)%nat ->
  parse f (MArr false []) (join_comma (map print_canonical l) ++ x5d :: rest) = Some (JArr (map cnorm l), rest).
Proof.
  intros [|x l] Hw Hl f rest Hf; [destruct f; [cbn in Hf; lia|reflexivity]|]. exact (arr_loop l x Hw Hl false [] f rest Hf).
Qed.

Definition pmember (kv : bytes * json) : bytes := decorate (fst kv) ++ x3a :: print_canonical (snd kv).

(* one member: key, colon, value *)
Lemma obj_step : forall (next : bool) k v acc f t r,
  rt v -> (fsize v <= f)%nat -> is_term (bN t) = true -> ~ In (utf16_key k) (keys acc) ->
  parse (S f) (MObj next acc) ((if next then [x2c] else []) ++ pmember (k, v) ++ t :: r)
  = parse f (MObj true ((k, cnorm v) :: acc)) (t :: r).
Proof.
  intros next k v acc f t r Hv Hf Ht Hk. unfold pmember. cbn [fst snd].
  rewrite <- app_assoc, decorate_app, parse_obj_comma, parse_obj_quote, parse_string_decorate. cbn [rev app].
  change (scan_for 0x3a (x3a :: ?x)) with (Some x). cbn match. now rewrite (Hv f t r Hf Ht), (proj2 (key_mem_false _ _) Hk).
Qed.

Lemma not_in_acc : forall (acc : list (bytes * json)) k v ms,
  NoDup (keys (rev acc ++ (k, v) :: ms)) -> ~ In (utf16_key k) (keys acc).
Proof.
  intros acc k v ms Hnd Hin. unfold keys in Hnd. rewrite map_app in Hnd. cbn [map] in Hnd.
  apply NoDup_remove_2 in Hnd. apply Hnd. apply in_or_app. left.
  rewrite map_rev. apply -> in_rev. exact Hin.
Qed.

Lemma obj_loop : forall ms kv, Forall (fun kv => rt (snd kv)) (kv :: ms) -> forall (next : bool) acc f rest,
  (1 + osum (kv :: ms) <= f)%nat -> NoDup (keys (rev acc ++ kv :: ms)) ->
  parse f (MObj next acc) ((if next then [x2c] else []) ++ join_comma (map pmember (kv :: ms)) ++ x7d :: rest)
  = Some (JObj (rev acc ++ map_snd cnorm (kv :: ms)), rest).
Proof.
  induction ms as [|kv' ms IH]; intros [k v] Hl next acc f rest Hf Hnd; rewrite osum_cons in Hf;
    (destruct f as [|f]; [lia|]); inversion Hl as [|? ? Hv Hl']; subst; cbn [snd] in Hv;
    pose proof (not_in_acc _ _ _ _ Hnd) as Hk.
  - cbn [map join_comma]. rewrite obj_step by (try assumption; try reflexivity; cbn in Hf; lia).
    destruct f as [|f]; [cbn in Hf; lia|]. reflexivity.
  - rewrite join_comma_map_2, <- app_assoc. cbn [app]. rewrite obj_step by (try assumption; try reflexivity; lia).
    specialize (IH kv' Hl' true ((k, cnorm v) :: acc) f rest). cbn [app] in IH.
    rewrite IH; [cbn [rev map_snd map]; now rewrite <- app_assoc|lia|].
    cbn [rev]. unfold keys in *. rewrite <- app_assoc. rewrite !map_app in *. exact Hnd.
Qed.

Lemma map_print_member : forall ms,
  map print_member (map_snd print_canonical ms) = map pmember ms.
Proof.
  intro ms. unfold map_snd. rewrite map_map. apply map_ext. intros [k v]. reflexivity.
Qed.

(* the members of an object as they are printed: sorted *)
Lemma obj_first : forall m, NoDup (keys m) -> Forall (fun kv => rt (snd kv)) m -> forall f rest,
  (1 + osum m <= f)%nat ->
  parse f (MObj false []) (join_comma (map print_member (sort_g (map_snd print_canonical m))) ++ x7d :: rest)
  = Some (cnorm (JObj m), rest).
Proof.
  intros m Hnd Hl f rest Hf. rewrite sort_g_map, map_print_member, cnorm_obj, sort_g_map. pose proof (sort_g_perm m) as Hp.
  rewrite (osum_perm _ _ (Permutation_sym Hp)) in Hf. apply Forall_sort_g in Hl.
  apply (Permutation_NoDup (keys_perm _ _ (Permutation_sym Hp))) in Hnd.
  destruct (sort_g m) as [|kv ms]; [destruct f; [cbn in Hf; lia|reflexivity]|]. exact (obj_loop ms kv Hl false [] f rest Hf Hnd).
Qed.

(* a literal or number token, followed by a terminator *)
Lemma tok_lit : forall c r0 v t r f,
  Forall tokchar (c :: r0) -> simple_value (c :: r0) = Some v ->
  (bN c =? 0x7b) = false -> (bN c =? 0x22) = false -> (bN c =? 0x5b) = false -> is_term (bN t) = true ->
  parse (S f) MElem (c :: r0 ++ t :: r) = Some (v, t :: r).
Proof.
  intros c r0 v t r f Hall Hsv E1 E2 E3 Ht. rewrite parse_elem_eq.
  inversion Hall as [|? ? [H1 [H2 H3]] Hall']; subst. rewrite (scan_plain _ _ H1 H2), E1, E2, E3.
  change (c :: r0 ++ t :: r) with ((c :: r0) ++ t :: r). rewrite token_loop_chars by assumption. cbn [rev app]. now rewrite Hsv.
Qed.

Lemma rt_all : forall v, wf v -> rt v.
Proof.
  induction v as [|b|b|s|l IH|m IH] using json_ind'; intros Hw f t r Hf Ht;
    (destruct f as [|f]; [cbn in Hf; lia|]).
  - apply (tok_lit x6e [x75; x6c; x6c]); try reflexivity; [repeat constructor|exact Ht].
  - destruct b; [apply (tok_lit x74 [x72; x75; x65])|apply (tok_lit x66 [x61; x6c; x73; x65])]; try reflexivity;
      try exact Ht; repeat constructor.
  - cbn [wf] in Hw. destruct Hw as [Hw [tok0 Htok0]].
    cbn [print_canonical cnorm]. destruct (number_to_json b) as [s|] eqn:E; [|contradiction].
    destruct (number_to_json_chars _ _ E) as [Hne Hall]. destruct s as [|c s']; [contradiction|].
    inversion Hall as [|? ? Hc _]; subst. cbn [app].
    apply tok_lit; try assumption.
    + eapply Forall_impl; [apply numchar_tokchar|exact Hall].
    + unfold simple_value.
      assert (Hl : forall lit, In lit [lit_true; lit_false; lit_null] -> bytes_eqb (c :: s') lit = false).
      { intros lit Hin. destruct Hc as [Hc|Hc]; [|destruct Hc as [->|[->|[->| ->]]]; destruct Hin as [<-|[<-|[<-|[]]]]; reflexivity].
        destruct Hin as [<-|[<-|[<-|[]]]]; cbn [lit_true lit_false lit_null bs bytes_of_string list_ascii_of_string map bytes_eqb];
          (destruct (Byte.eqb c _) eqn:Ec; [apply Byte.byte_dec_bl in Ec; subst c; cbn in Hc; lia|reflexivity]). }
      rewrite (Hl lit_true), (Hl lit_false), (Hl lit_null) by (cbn [In]; auto).
      rewrite (num_roundtrip _ _ _ Htok0 E). rewrite number_to_json_nnorm, E. reflexivity.
    + destruct Hc as [Hc|[->|[->|[->| ->]]]]; [apply N.eqb_neq; lia|reflexivity..].
    + destruct Hc as [Hc|[->|[->|[->| ->]]]]; [apply N.eqb_neq; lia|reflexivity..].
    + destruct Hc as [Hc|[->|[->|[->| ->]]]]; [apply N.eqb_neq; lia|reflexivity..].
  - cbn [print_canonical cnorm]. now rewrite decorate_app, parse_elem_str, parse_string_decorate.
  - cbn [print_canonical cnorm app]. rewrite parse_elem_arr.
    apply wf_arr in Hw. rewrite <- app_assoc. cbn [app].
    apply arr_first; [exact Hw|exact (Forall_mp _ _ _ IH Hw)|]. cbn [fsize] in Hf. unfold asum. lia.
  - rewrite print_obj. cbn [app]. rewrite parse_elem_obj, <- app_assoc. cbn [app].
    apply wf_obj in Hw. destruct Hw as [Hnd Hall].
    apply obj_first; [exact Hnd|exact (Forall_mp _ _ _ IH Hall)|]. cbn [fsize] in Hf. unfold osum. lia.
Qed.

(** * 6. What the parser accepts is well formed (in particular: no duplicate member names) *)

Definition top_shape (v : json) : Prop := (exists l, v = JArr l) \/ (exists m, v = JObj m).

Lemma parse_value_wf : forall b v, parse_value b = Some v -> wf v /\ top_shape v.
Proof.
  intros b v H. unfold parse_value in H. destruct (scan b) as [[c r]|]; [|discriminate].
  destruct (bN c =? 0x5b).
  - destruct (parse (parse_fuel b) (MArr false []) r) as [[v0 rest]|] eqn:E; [|discriminate].
    destruct (all_ws rest); [|discriminate]. inversion H; subst.
    apply parse_wf in E; [|constructor]. destruct E as [E1 E2]. split; [exact E1|left; exact E2].
  - destruct (bN c =? 0x7b); [|discriminate].
    destruct (parse (parse_fuel b) (MObj false []) r) as [[v0 rest]|] eqn:E; [|discriminate].
    destruct (all_ws rest); [|discriminate]. inversion H; subst.
    apply parse_wf in E; [|split; constructor]. destruct E as [E1 E2]. split; [exact E1|right; exact E2].
Qed.

(* Rejection class "duplicate member names", general form: every object inside an accepted document has
   members with pairwise different sort keys (hence pairwise different names). *)
Theorem duplicate_names_rejected : forall b v, parse_value b = Some v -> wf v.
Proof. intros b v H. now apply parse_value_wf in H. Qed.

(** * 7. Main theorems *)

Lemma sum_le : forall {A} (g : A -> nat) (p : A -> bytes) l,
  Forall (fun x => g x <= 2 * length (p x) + 1)%nat l ->
  (list_sum (map g l) <= 2 * length (join_comma (map p l)) + 2)%nat.
Proof.
  intros A g p. induction l as [|x r IH]; intro H; [simpl; lia|].
  inversion H as [|? ? Hx Hr]; subst. specialize (IH Hr).
  destruct r as [|y r'].
  - simpl. simpl in Hx. lia.
  - rewrite join_comma_map_2, app_length. cbn [length].
    change (list_sum (map g (x :: ?l))) with (g x + list_sum (map g l))%nat. lia.
Qed.

Lemma fsize_le : forall v, (fsize v <= 2 * length (print_canonical v))%nat.
Proof.
  induction v as [|b|b|s|l IH|m IH] using json_ind'.
  - cbn. lia.
  - destruct b; cbn; lia.
  - cbn [fsize print_canonical]. destruct (number_to_json b) as [s|] eqn:E; [|cbn; lia].
    destruct (number_to_json_chars _ _ E) as [Hne _]. destruct s; [contradiction|]. cbn [length]. lia.
  - cbn [fsize print_canonical]. unfold decorate. cbn [length]. lia.
  - cbn [fsize print_canonical length]. rewrite app_length. cbn [length]. fold (asum l).
    enough (H : (asum l <= 2 * length (join_comma (map print_canonical l)) + 2)%nat) by lia.
    apply sum_le. eapply Forall_impl; [|exact IH]. cbv beta. lia.
  - rewrite print_obj, sort_g_map, map_print_member.
    cbn [fsize length]. rewrite app_length. cbn [length].
    fold (osum m). rewrite <- (osum_perm _ _ (sort_g_perm m)).
    enough (H : (osum (sort_g m) <= 2 * length (join_comma (map pmember (sort_g m))) + 2)%nat) by lia.
    apply sum_le, Forall_sort_g. eapply Forall_impl; [|exact IH]. intros [k x] Hx. cbn [snd] in Hx.
    unfold pmember. cbn [fst snd]. rewrite app_length. cbn [length]. lia.
Qed.

(* parsing the canonical text gives the canonical value *)
Lemma rt_top : forall v, wf v -> top_shape v -> parse_value (print_canonical v) = Some (cnorm v).
Proof.
  intros v Hw Hs. pose proof (fsize_le v) as Hf.
  destruct Hs as [[l ->]|[m ->]].
  - cbn [print_canonical] in *. rewrite parse_value_arr. apply wf_arr in Hw.
    rewrite (arr_first l Hw (Forall_impl _ rt_all Hw)); [reflexivity|].
    unfold parse_fuel. cbn [fsize] in Hf. fold (asum l) in Hf. lia.
  - rewrite print_obj in *. rewrite parse_value_obj. apply wf_obj in Hw. destruct Hw as [Hnd Hall].
    rewrite obj_first; [reflexivity|exact Hnd|exact (Forall_impl _ (fun kv => rt_all (snd kv)) Hall)|].
    unfold parse_fuel. cbn [fsize] in Hf. fold (osum m) in Hf. lia.
Qed.

Lemma print_cnorm : forall v, wf v -> print_canonical (cnorm v) = print_canonical v.
Proof.
  intros v Hw. symmetry. apply print_equiv; [exact Hw|now apply wf_cnorm|apply json_equiv_cnorm].
Qed.

(* the canonical form is a fixed point *)
Theorem transform_fixed_point : forall b c, transform b = Some c -> transform c = Some c.
Proof.
  intros b c H. unfold transform in *. destruct (parse_value b) as [v|] eqn:E; [|discriminate].
  inversion H; subst. apply parse_value_wf in E. destruct E as [Hw Hs].
  rewrite (rt_top v Hw Hs). cbn [option_map]. now rewrite print_cnorm.
Qed.

(* the canonical form denotes the same I-JSON value *)
Theorem transform_same_value : forall b c v, transform b = Some c -> parse_value b = Some v ->
  exists v', parse_value c = Some v' /\ json_equiv_jcs v v'.
Proof.
  intros b c v H E. unfold transform in H. rewrite E in H. inversion H; subst.
  apply parse_value_wf in E. destruct E as [Hw Hs].
  exists (cnorm v). split; [now apply rt_top|apply json_equiv_cnorm].
Qed.

(* uniqueness: different canonical values have different serializations *)
Theorem print_canonical_injective : forall v1 v2, wf v1 -> wf v2 -> top_shape v1 -> top_shape v2 ->
  print_canonical v1 = print_canonical v2 -> cnorm v1 = cnorm v2.
Proof.
  intros v1 v2 Hw1 Hw2 Hs1 Hs2 Hp. pose proof (rt_top v1 Hw1 Hs1) as H1. pose proof (rt_top v2 Hw2 Hs2) as H2.
  rewrite Hp in H1. rewrite H1 in H2. now inversion H2.
Qed.

(* byte-identical output for every serialization of the same value *)
Theorem transform_value_only : forall b1 b2 v1 v2,
  parse_value b1 = Some v1 -> parse_value b2 = Some v2 -> json_equiv_jcs v1 v2 -> transform b1 = transform b2.
Proof.
  intros b1 b2 v1 v2 H1 H2 He. unfold transform. rewrite H1, H2. cbn [option_map]. f_equal.
  apply parse_value_wf in H1, H2. apply print_equiv; [apply H1|apply H2|exact He].
Qed.

(** * 8. Rejection classes *)

(* a document that starts with an opening bracket and a quote and whose string body makes parse_string fail is rejected *)
Lemma string_failure_rejected : forall body, parse_string body [] = None -> transform (x5b :: x22 :: body) = None.
Proof.
  intros body H. unfold transform. rewrite parse_value_arr. destruct (parse_fuel _) as [|[|f]]; try reflexivity.
  now rewrite (parse_arr_head _ _ _ x22 body), parse_elem_str, H.
Qed.

Theorem unterminated_string_rejected : forall s, ~ In x22 s -> transform (x5b :: x22 :: s) = None.
Proof. intros s H. apply string_failure_rejected. now apply parse_string_no_quote. Qed.

(* raw control characters inside strings *)
Definition plainb (c : byte) : bool := (0x20 <=? bN c) && negb (bN c =? 0x22) && negb (bN c =? 0x5c).

Lemma plain_step : forall p rest acc, plainb p = true -> parse_string (p :: rest) acc = parse_string rest (p :: acc).
Proof.
  intros p rest acc H. unfold plainb in H. apply andb_true_iff in H. destruct H as [H H3].
  apply andb_true_iff in H. destruct H as [H1 H2]. apply negb_true_iff in H2, H3.
  cbn [parse_string]. rewrite H2, H3. apply N.leb_le in H1.
  assert (E : bN p <? 0x20 = false) by (apply N.ltb_ge; exact H1). now rewrite E.
Qed.

Lemma parse_string_plain_prefix : forall pre s acc,
  forallb plainb pre = true -> parse_string (pre ++ s) acc = parse_string s (rev pre ++ acc).
Proof.
  induction pre as [|p pre IH]; intros s acc Hp; [reflexivity|].
  cbn [forallb] in Hp. apply andb_true_iff in Hp. destruct Hp as [Hp1 Hp2].
  cbn [app rev]. rewrite plain_step, IH, <- app_assoc by assumption. reflexivity.
Qed.

Lemma control_in_string : forall c r acc, bN c < 0x20 -> parse_string (c :: r) acc = None.
Proof.
  intros c r acc Hc. cbn [parse_string]. assert (E1 : bN c =? 0x22 = false) by (apply N.eqb_neq; lia).
  assert (E2 : bN c <? 0x20 = true) by (apply N.ltb_lt; exact Hc). now rewrite E1, E2.
Qed.

Theorem raw_control_rejected : forall pre c r,
  forallb plainb pre = true -> bN c < 0x20 -> transform (x5b :: x22 :: pre ++ c :: r) = None.
Proof. intros. apply string_failure_rejected. rewrite parse_string_plain_prefix by assumption. now apply control_in_string. Qed.

(* invalid escapes: everything except backslash followed by one of  u / backslash quote b f n r t *)
Definition escb (e : byte) : bool :=
  (bN e =? 0x75) || (bN e =? 0x2f) || match unescape (bN e) with Some _ => true | None => false end.

Lemma escb_spec : forall e, escb e = true <-> In e [x75; x2f; x5c; x22; x62; x66; x6e; x72; x74].
Proof.
  intro e. split.
  - destruct e; intro H; try discriminate H; cbn [In]; tauto.
  - intro H. cbn [In] in H. repeat (destruct H as [<-|H]; [reflexivity|]). contradiction.
Qed.

(* the three tests that lead a backslash into the escape branch *)
Lemma backslash_head : (bN x5c =? 0x22) = false /\ (bN x5c <? 0x20) = false /\ (bN x5c =? 0x5c) = true.
Proof. repeat split. Qed.

Lemma invalid_escape_in_string : forall e r acc, escb e = false -> parse_string (x5c :: e :: r) acc = None.
Proof.
  intros e r acc He. unfold escb in He. apply orb_false_iff in He. destruct He as [He H3].
  apply orb_false_iff in He. destruct He as [H1 H2].
  rewrite parse_string_eq. destruct backslash_head as [-> [-> ->]]. rewrite H1, H2.
  destruct (unescape (bN e)); [discriminate|reflexivity].
Qed.

Theorem invalid_escape_rejected : forall pre e r,
  forallb plainb pre = true -> escb e = false -> transform (x5b :: x22 :: pre ++ x5c :: e :: r) = None.
Proof. intros. apply string_failure_rejected. rewrite parse_string_plain_prefix by assumption. now apply invalid_escape_in_string. Qed.

Lemma bad_u_escape_in_string : forall h1 h2 h3 h4 r acc,
  hex4 h1 h2 h3 h4 = None -> parse_string (x5c :: x75 :: h1 :: h2 :: h3 :: h4 :: r) acc = None.
Proof.
  intros h1 h2 h3 h4 r acc He. rewrite parse_string_eq. destruct backslash_head as [-> [-> ->]].
  change (bN x75 =? 0x75) with true. cbv iota. now rewrite He.
Qed.

(* lone surrogates (after the repair 1d72439): a \uXXXX escape with a surrogate value is accepted only as the
   first half of a (high, low) pair of escapes. *)
Definition is_high (u : N) : bool := (0xD800 <=? u) && (u <? 0xDC00).
Definition is_low (u : N) : bool := (0xDC00 <=? u) && (u <? 0xE000).

(* [rest] starts with an escape that completes a pair begun by u1 *)
Definition pair_ok (u1 : N) (rest : bytes) : bool :=
  match rest with
  | b :: u :: k1 :: k2 :: k3 :: k4 :: _ =>
    if (bN b =? 0x5c) && (bN u =? 0x75) then
      match hex4 k1 k2 k3 k4 with
      | Some u2 => negb (utf16_decode_pair u1 u2 =? rune_error)
      | None => false
      end
    else false
  | _ => false
  end.

(* [rest] starts with a low-surrogate escape *)
Definition low_escape_follows (rest : bytes) : bool :=
  match rest with
  | b :: u :: k1 :: k2 :: k3 :: k4 :: _ =>
    (bN b =? 0x5c) && (bN u =? 0x75) &&
    match hex4 k1 k2 k3 k4 with Some u2 => is_low u2 | None => false end
  | _ => false
  end.

Lemma decode_pair_error : forall u1 u2, is_high u1 && is_low u2 = false -> utf16_decode_pair u1 u2 = rune_error.
Proof.
  intros u1 u2 H. unfold utf16_decode_pair, is_high, is_low in *.
  rewrite <- !andb_assoc. rewrite <- andb_assoc in H. now rewrite H.
Qed.

Lemma decode_pair_valid : forall u1 u2, is_high u1 && is_low u2 = true ->
  (utf16_decode_pair u1 u2 =? rune_error) = false.
Proof.
  intros u1 u2 H. unfold utf16_decode_pair, is_high, is_low in *.
  rewrite <- !andb_assoc. rewrite <- andb_assoc in H. rewrite H. apply N.eqb_neq. unfold rune_error. lia.
Qed.

Lemma pair_ok_spec : forall u1 rest, pair_ok u1 rest = is_high u1 && low_escape_follows rest.
Proof.
  intros u1 rest. unfold pair_ok, low_escape_follows.
  destruct rest as [|b [|u [|k1 [|k2 [|k3 [|k4 r]]]]]]; try (now rewrite andb_false_r).
  destruct ((bN b =? 0x5c) && (bN u =? 0x75)); [|now rewrite andb_false_r]. cbn [andb].
  destruct (hex4 k1 k2 k3 k4) as [u2|]; [|now rewrite andb_false_r].
  destruct (is_high u1 && is_low u2) eqn:E.
  - now rewrite (decode_pair_valid _ _ E).
  - rewrite (decode_pair_error _ _ E). reflexivity.
Qed.

Lemma surrogate_in_string : forall h1 h2 h3 h4 u1 rest acc,
  hex4 h1 h2 h3 h4 = Some u1 -> is_surrogate u1 = true -> pair_ok u1 rest = false ->
  parse_string (x5c :: x75 :: h1 :: h2 :: h3 :: h4 :: rest) acc = None.
Proof.
  intros h1 h2 h3 h4 u1 rest acc Hh Hs Hr. rewrite parse_string_eq. destruct backslash_head as [-> [-> ->]].
  change (bN x75 =? 0x75) with true. cbv iota. rewrite Hh, Hs.
  destruct rest as [|b0 [|u [|k1 [|k2 [|k3 [|k4 r3]]]]]]; try reflexivity.
  cbn [pair_ok] in Hr. destruct ((bN b0 =? 0x5c) && (bN u =? 0x75)); [|reflexivity].
  destruct (hex4 k1 k2 k3 k4) as [u2|]; [|reflexivity].
  apply negb_false_iff in Hr. now rewrite Hr.
Qed.

Lemma is_high_surrogate : forall u, is_high u = true -> is_surrogate u = true.
Proof.
  intros u Hs. unfold is_high in Hs. unfold is_surrogate. apply andb_true_iff in Hs. destruct Hs as [H1 H2].
  rewrite H1. cbn [andb]. apply N.ltb_lt in H2. apply N.ltb_lt. lia.
Qed.

Lemma is_low_surrogate : forall u, is_low u = true -> is_surrogate u = true /\ is_high u = false.
Proof.
  intros u Hs. unfold is_low in Hs. unfold is_surrogate, is_high. apply andb_true_iff in Hs. destruct Hs as [H1 H2].
  apply N.leb_le in H1. split; [rewrite H2, andb_true_r; apply N.leb_le; lia|].
  apply andb_false_iff. right. apply N.ltb_ge. exact H1.
Qed.

(* general form: the first surrogate escape of a string literal (everything before it is plain: no escapes, quotes
   or control bytes) makes the document invalid unless it is a high surrogate immediately followed by a
   low-surrogate escape *)
Theorem lone_surrogate_rejected : forall pre h1 h2 h3 h4 u1 rest,
  forallb plainb pre = true -> hex4 h1 h2 h3 h4 = Some u1 -> is_surrogate u1 = true ->
  is_high u1 && low_escape_follows rest = false ->
  transform (x5b :: x22 :: pre ++ x5c :: x75 :: h1 :: h2 :: h3 :: h4 :: rest) = None.
Proof.
  intros pre h1 h2 h3 h4 u1 rest Hp Hh Hs Hr. apply string_failure_rejected.
  rewrite parse_string_plain_prefix by exact Hp. eapply surrogate_in_string; try eassumption. now rewrite pair_ok_spec.
Qed.

(* a high surrogate escape must be followed by a low-surrogate escape *)
Corollary lone_high_surrogate_rejected : forall pre h1 h2 h3 h4 u1 rest,
  forallb plainb pre = true -> hex4 h1 h2 h3 h4 = Some u1 -> is_high u1 = true ->
  low_escape_follows rest = false ->
  transform (x5b :: x22 :: pre ++ x5c :: x75 :: h1 :: h2 :: h3 :: h4 :: rest) = None.
Proof.
  intros pre h1 h2 h3 h4 u1 rest Hp Hh Hs Hr.
  eapply lone_surrogate_rejected; try eassumption; [now apply is_high_surrogate|now rewrite Hr, andb_false_r].
Qed.

(* a low surrogate escape that does not complete a pair is rejected whatever follows *)
Corollary lone_low_surrogate_rejected : forall pre h1 h2 h3 h4 u1 rest,
  forallb plainb pre = true -> hex4 h1 h2 h3 h4 = Some u1 -> is_low u1 = true ->
  transform (x5b :: x22 :: pre ++ x5c :: x75 :: h1 :: h2 :: h3 :: h4 :: rest) = None.
Proof.
  intros pre h1 h2 h3 h4 u1 rest Hp Hh Hs. destruct (is_low_surrogate _ Hs) as [S1 S2].
  eapply lone_surrogate_rejected; try eassumption. now rewrite S2.
Qed.

Example lone_surrogates_rejected :
  map transform [bs "[""\udc00\ud800""]"; bs "[""\ud800A""]"; bs "[""\ud800\ud800""]"; bs "{""\udfff\u0000"":1}";
                 bs "[""a\ud800\udbffb""]"; bs "[""\ud800\u0041""]"; bs "[""\udc00\udc00""]"; bs "[""\ud800""]";
                 bs "[""\udc00""]"; bs "[""\ud800x""]"; bs "[""\ud800\n""]"; bs "[""\ud800\ue000""]"]
  = repeat None 12.
Proof. vm_compute. reflexivity. Qed.

Example surrogate_pairs_accepted :
  map transform [bs "[""\ud83d\ude00""]"; bs "[""\uD800\uDC00""]"; bs "[""\udbff\udfff""]"]
  = [Some ([x5b; x22; xf0; x9f; x98; x80; x22; x5d]); Some ([x5b; x22; xf0; x90; x80; x80; x22; x5d]);
     Some ([x5b; x22; xf4; x8f; xbf; xbf; x22; x5d])].
Proof. vm_compute. reflexivity. Qed.

(* The duplicate test is on sort keys, so distinct names made of invalid UTF-8 collide (outside the property's
   precondition "well-formed UTF-8", recorded as an observation) *)
Example invalid_utf8_names_collide :
  transform ([x7b; x22; xff; x22; x3a; x31; x2c; x22; xfe; x22; x3a; x32; x7d]) = None.
Proof. vm_compute. reflexivity. Qed.

(* number tokens outside the RFC 8259 grammar that the code accepts (strconv.ParseFloat syntax) *)
Example non_json_numbers_accepted :
  map transform [bs "[+1]"; bs "[01]"; bs "[1.]"; bs "[.5]"; bs "[0X1P+4]"; bs "[0x1p4]"; bs "[1_0]"]
  = [Some (bs "[1]"); Some (bs "[1]"); Some (bs "[1]"); Some (bs "[0.5]"); Some (bs "[16]"); Some (bs "[16]"); Some (bs "[10]")].
Proof. vm_compute. reflexivity. Qed.

(* examples for the remaining classes (general statements: JcsDepth.failing_element_rejected, prefix_free) *)
Example structure_rejected :
  map transform [bs "[1,2"; bs "{""a"":1"; bs "["; bs "{"; bs "[] x"; bs "{} {}"; bs "[]]"; bs "{""a"":1,""a"":2}";
                 bs "{""a"":1,""a"":2}"; bs "1"; bs """a"""; bs "[1,]"; bs "[1E400]"]
  = repeat None 13.
Proof. vm_compute. reflexivity. Qed.

(** * 9. Output shape and minimal escaping *)

(* output shape: the output is the serialization of a value in normal form: member names strictly increasing
   in UTF-16 code unit order in every object, no negative zero; by definition of [print_canonical] it contains
   no white space outside strings, the escapes of [escape_byte], and numbers in the form of [number_to_json]. *)
Fixpoint normal_form (j : json) : Prop :=
  match j with
  | JNum b => nnorm b = b
  | JArr l => (fix go (l : list json) : Prop := match l with [] => True | x :: r => normal_form x /\ go r end) l
  | JObj m => StronglySorted klt m /\
              (fix go (m : list (bytes * json)) : Prop :=
                 match m with [] => True | (k, v) :: r => normal_form v /\ go r end) m
  | _ => True
  end.

Lemma normal_form_cnorm : forall v, wf v -> normal_form (cnorm v).
Proof.
  induction v as [| | | |l IH|m IH] using json_ind'; intro Hw; try exact I.
  - cbn [cnorm normal_form]. apply nnorm_idem.
  - cbn [cnorm]. apply wf_arr in Hw. induction l as [|x r IHr]; [exact I|].
    inversion IH; subst. inversion Hw; subst. cbn [map normal_form]. split; [auto|]. now apply IHr.
  - rewrite cnorm_obj. apply wf_obj in Hw. destruct Hw as [Hnd Hall]. cbn [normal_form]. split.
    + apply sort_g_sorted. now rewrite keys_map_snd.
    + assert (H : Forall (fun kv => normal_form (snd kv)) (sort_g (map_snd cnorm m))).
      { apply Forall_sort_g, Forall_map. eapply Forall_impl; [|exact (Forall_mp _ _ _ IH Hall)]. now intros [k y]. }
      induction H as [|[k y] r Hy Hr IHr]; [exact I|]. split; [exact Hy|exact IHr].
Qed.

Theorem transform_output_shape :
  forall b c, transform b = Some c ->
  exists v, parse_value c = Some v /\ normal_form v /\ c = print_canonical v.
Proof.
  intros b c H. unfold transform in H. destruct (parse_value b) as [v|] eqn:E; [|discriminate].
  inversion H; subst. apply parse_value_wf in E. destruct E as [Hw Hs].
  exists (cnorm v). split; [apply rt_top; assumption|].
  split; [now apply normal_form_cnorm|]. symmetry. now apply print_cnorm.
Qed.

(* minimal escaping: a byte is escaped only when it has to be (control characters, quote, backslash), with the
   two-character escape when one exists and a six-character \u00.. escape otherwise *)
Lemma escape_byte_plain : forall c, plainb c = true -> escape_byte c = [c].
Proof. intros c H. destruct c; try discriminate H; reflexivity. Qed.

Lemma escape_byte_short : forall c, In c [x5c; x22; x08; x0c; x0a; x0d; x09] ->
  exists e, escape_byte c = [x5c; e].
Proof.
  intros c H. cbn [In] in H.
  repeat (destruct H as [<-|H]; [eexists; reflexivity|]). contradiction.
Qed.

Lemma escape_byte_hex : forall c, (bN c <? 0x20) = true ->
  (exists e, escape_byte c = [x5c; e]) \/ (exists h1 h2, escape_byte c = [x5c; x75; x30; x30; h1; h2]).
Proof.
  intros c H. destruct c; try discriminate H;
    first [left; eexists; reflexivity|right; eexists _, _; reflexivity].
Qed.

(* the hypotheses of the theorems above hold on a concrete document *)
Definition ex_doc : bytes :=
  bs "{ ""b"" : [1.0, -0, 1e21, 1E-7, ""\u00e9\ud83d\ude00""], ""\ud83d\ude00"" : {}, ""\ufb33"" : null, ""a"" : ""\/"" }".
Definition ex_canon : bytes :=
  bs "{""a"":""/"",""b"":[1,0,1e+21,1e-7,""" ++ [xc3; xa9; xf0; x9f; x98; x80] ++ bs """],""" ++
  [xf0; x9f; x98; x80] ++ bs """:{},""" ++ [xef; xac; xb3] ++ bs """:null}".

Example theorems_apply :
  transform ex_doc = Some ex_canon /\ transform ex_canon = Some ex_canon /\
  parse_value ex_canon = option_map cnorm (parse_value ex_doc).
Proof.
  assert (H1 : transform ex_doc = Some ex_canon) by (vm_compute; reflexivity).
  split; [exact H1|]. split; [exact (transform_fixed_point _ _ H1)|].
  unfold transform in H1. destruct (parse_value ex_doc) as [v|] eqn:E; [|discriminate]. injection H1 as <-.
  destruct (parse_value_wf _ _ E) as [Hw Hs]. exact (rt_top v Hw Hs).
Qed.

(** * 10. The fuel of [parse_value] suffices: a result None is never caused by running out of fuel *)

(* any larger amount of fuel gives the same result as the fuel used by [parse_value] *)
Theorem fuel_suffices : forall b m r k,
  (length r <= length b)%nat -> parse (parse_fuel b + k) m r = parse (parse_fuel b) m r.
Proof.
  intros b m r k Hr. destruct (parse (parse_fuel b) m r) as [x|] eqn:E.
  - apply (parse_refuel _ _ _ _ _ E). left. lia.
  - destruct (parse (parse_fuel b + k) m r) as [x|] eqn:E'; [|reflexivity].
    rewrite <- E. symmetry. apply (parse_refuel _ _ _ _ _ E'). right. unfold need, parse_fuel. destruct m; lia.
Qed.

(** * 11. Trailing content: whatever is appended to an accepted document is only looked at by the final
      white-space check *)

(* Transform is the element parser, restricted to texts that begin with a bracket or a brace *)
Lemma parse_value_elem : forall b,
  parse_value b =
  match scan b with
  | Some (c, _) =>
    if (bN c =? 0x5b) || (bN c =? 0x7b) then
      match parse (S (parse_fuel b)) MElem b with
      | Some (v, rest) => if all_ws rest then Some v else None
      | None => None
      end
    else None
  | None => None
  end.
Proof.
  intro b. unfold parse_value. rewrite parse_elem_eq. destruct (scan b) as [[c r]|]; [|reflexivity].
  destruct (bN c =? 0x5b) eqn:E; [apply N.eqb_eq in E; now rewrite E|]. now destruct (bN c =? 0x7b).
Qed.

Lemma parse_value_app : forall b v g,
  parse_value b = Some v -> parse_value (b ++ g) = if all_ws g then Some v else None.
Proof.
  intros b v g H. rewrite parse_value_elem in *.
  destruct (scan b) as [[c r]|] eqn:Es; [|discriminate]. rewrite (proj2 (scan_ok _ _ _ g Es)).
  destruct ((bN c =? 0x5b) || (bN c =? 0x7b)); [|discriminate].
  destruct (parse (S (parse_fuel b)) MElem b) as [[v0 rest]|] eqn:E; [|discriminate].
  rewrite (parse_frame _ (S (parse_fuel (b ++ g))) _ _ _ _ g E) by (left; unfold parse_fuel; rewrite app_length; lia).
  unfold all_ws in *. rewrite forallb_app. destruct (forallb _ rest); [injection H as ->; reflexivity|discriminate].
Qed.

(* trailing content: an accepted document followed by anything that is not pure white space is rejected *)
Theorem trailing_content_rejected : forall b v g,
  parse_value b = Some v -> all_ws g = false -> transform (b ++ g) = None.
Proof. intros b v g H Hg. unfold transform. now rewrite (parse_value_app _ _ g H), Hg. Qed.

Corollary trailing_byte_rejected : forall b v c,
  parse_value b = Some v -> is_ws (bN c) = false -> transform (b ++ [c]) = None.
Proof.
  intros b v c H Hc. eapply trailing_content_rejected; [exact H|]. unfold all_ws. cbn [forallb]. now rewrite Hc.
Qed.

(* the other direction: trailing white space is ignored *)
Theorem trailing_ws_ignored : forall b v g,
  parse_value b = Some v -> all_ws g = true -> parse_value (b ++ g) = Some v.
Proof. intros b v g H Hg. now rewrite (parse_value_app _ _ g H), Hg. Qed.
