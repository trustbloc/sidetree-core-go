(* The shortest-digit search of [Num.shortest_search] (C07, numbers): decimal exponent, rounding interval in the
   scaled domain, soundness / totality / minimality of the search.  For one double (section Search) the arguments
   that [shortest_search] passes to [Num.search] have names ([sE] ... [sbabs]); [cand_ok] says that a decimal lies
   in the rounding interval, [sdist] measures how far a candidate is from the exact value. *)
From Coq Require Import List ZArith Bool Lia Sorted.
From SV Require Import Json.Num Json.NumRound.
Import ListNotations.
Local Open Scope Z_scope.

(* 10^k for an integer k of either sign is the fraction p10n k / p10d k *)
Definition p10n (k : Z) : Z := if 0 <=? k then 10 ^ k else 1.
Definition p10d (k : Z) : Z := if 0 <=? k then 1 else 10 ^ (- k).

Lemma p10n_pos : forall k, 0 < p10n k.
Proof. exact (pnum_pos 10 eq_refl). Qed.
Lemma p10d_pos : forall k, 0 < p10d k.
Proof. exact (pden_pos 10 eq_refl). Qed.
Lemma p10_add : forall a b, p10n (a + b) * p10d a * p10d b = p10n a * p10n b * p10d (a + b).
Proof. exact (pnum_pden_add 10 eq_refl). Qed.
Lemma p10n_nonneg : forall k, 0 <= k -> p10n k = 10 ^ k.
Proof. exact (pnum_nonneg (Z.pow 10)). Qed.
Lemma p10d_nonneg : forall k, 0 <= k -> p10d k = 1.
Proof. exact (pden_nonneg (Z.pow 10)). Qed.

Lemma dec_num_p10 : forall c p, dec_num c p = c * p10n p.
Proof. exact (mul_pnum (Z.pow 10)). Qed.
Lemma dec_den_p10 : forall p, dec_den p = p10d p.
Proof. reflexivity. Qed.

Lemma ge_pow10_eq : forall xn xd n, ge_pow10 xn xd n = (xd * p10n n <=? xn * p10d n).
Proof. intros xn xd n. exact (leb_pnum_pden (Z.pow 10) xd xn n). Qed.

(* FINITE SWEEP over the binary exponent l (not over mantissas): the estimate est = l*30103/100000 of
   floor(l*log10 2) satisfies 10^(est-1) <= 2^(l-1) and 2^(l+1) <= 10^(est+2) for -1100 <= l <= 1100. *)
Definition est10 (l : Z) : Z := (l * 30103) / 100000.
Definition sweep_ok (l : Z) : bool :=
  let est := est10 l in
  (p2n (l + 1) * p10d (est + 2) <=? p10n (est + 2) * p2d (l + 1)) &&
  (p10n (est - 1) * p2d (l - 1) <=? p2n (l - 1) * p10d (est - 1)).

(* [sweep_ok] recomputes four powers of up to 1100 bits for every exponent.  The sweep is therefore evaluated on
   [sweep_with], the same test with the two power functions as parameters, instantiated with a shift for 2^k and a
   look-up in a table built by repeated multiplication for 10^k. *)
Definition sweep_with (pow2 pow10 : Z -> Z) (l : Z) : bool :=
  let est := est10 l in
  (pnum pow2 (l + 1) * pden pow10 (est + 2) <=? pnum pow10 (est + 2) * pden pow2 (l + 1)) &&
  (pnum pow10 (est - 1) * pden pow2 (l - 1) <=? pnum pow2 (l - 1) * pden pow10 (est - 1)).

Lemma pnum_pden_ext : forall f g B k, (forall j, 0 <= j <= B -> f j = g j) -> Z.abs k <= B ->
  pnum f k = pnum g k /\ pden f k = pden g k.
Proof. intros f g B k H Hk. unfold pnum, pden. destruct (Z.leb_spec 0 k); rewrite H by lia; auto. Qed.

Lemma sweep_with_ext : forall f2 g2 f10 g10 l,
  (forall k, 0 <= k <= Z.abs l + 1 -> f2 k = g2 k) ->
  (forall k, 0 <= k <= Z.abs (est10 l) + 2 -> f10 k = g10 k) ->
  sweep_with f2 f10 l = sweep_with g2 g10 l.
Proof.
  intros f2 g2 f10 g10 l H2 H10. unfold sweep_with. cbv zeta.
  destruct (pnum_pden_ext _ _ _ (l + 1) H2) as [-> ->]; [lia|].
  destruct (pnum_pden_ext _ _ _ (l - 1) H2) as [-> ->]; [lia|].
  destruct (pnum_pden_ext _ _ _ (est10 l + 2) H10) as [-> ->]; [lia|].
  destruct (pnum_pden_ext _ _ _ (est10 l - 1) H10) as [-> ->]; [lia|]. reflexivity.
Qed.

Fixpoint powers (b x : Z) (n : nat) : list Z :=
  match n with O => [] | S n => x :: powers b (b * x) n end.

Lemma nth_powers : forall b n x k, (k < n)%nat -> nth k (powers b x n) 0 = x * b ^ Z.of_nat k.
Proof.
  intros b. induction n as [|n IH]; intros x k Hk; [lia|]. destruct k as [|k]; cbn [powers nth].
  - rewrite Z.pow_0_r. lia.
  - rewrite IH by lia. rewrite Nat2Z.inj_succ, Z.pow_succ_r by lia. ring.
Qed.

Definition tab (t : list Z) (k : Z) : Z := nth (Z.to_nat k) t 0.

Lemma tab_powers : forall b n k, 0 <= k < Z.of_nat n -> tab (powers b 1 n) k = b ^ k.
Proof. intros b n k Hk. unfold tab. rewrite nth_powers, Z2Nat.id by lia. ring. Qed.

(* the exponents are walked on Z: [f l && f (l + 1) && ...], [n] of them *)
Fixpoint sweep_from (f : Z -> bool) (l : Z) (n : nat) : bool :=
  match n with O => true | S n => f l && sweep_from f (l + 1) n end.

Lemma sweep_from_sound : forall f n l, sweep_from f l n = true -> forall i, l <= i < l + Z.of_nat n -> f i = true.
Proof.
  intros f. induction n as [|n IH]; intros l H i Hi; [lia|]. cbn [sweep_from] in H. apply andb_true_iff in H.
  destruct H as [H0 H1]. destruct (Z.eq_dec i l) as [->|Hne]; [exact H0|]. apply (IH (l + 1) H1). lia.
Qed.

(* the table is let-bound, so that an evaluator that does not share equal subterms builds it once *)
Lemma sweep_all : (let t10 := powers 10 1 335 in sweep_from (sweep_with (Z.shiftl 1) (tab t10)) (-1100) 2201) = true.
Proof. vm_compute. reflexivity. Qed.

Lemma sweep_ok_range : forall l, -1100 <= l <= 1100 -> sweep_ok l = true.
Proof.
  intros l H. change (sweep_ok l) with (sweep_with (Z.pow 2) (Z.pow 10) l).
  assert (He : -332 <= est10 l <= 332) by (unfold est10; split; [apply Z.div_le_lower_bound|apply Z.div_le_upper_bound]; lia).
  rewrite <- (sweep_with_ext (Z.shiftl 1) _ (tab (powers 10 1 335)));
    [|intros; apply Z.shiftl_1_l|intros; apply tab_powers; lia].
  pose proof sweep_all as A. cbv zeta in A. apply (sweep_from_sound _ _ _ A). lia.
Qed.

Lemma dec_exp_spec : forall xn xd, 0 < xn -> 0 < xd ->
  -1100 <= Z.log2 xn - Z.log2 xd <= 1100 ->
  let n0 := dec_exp xn xd in
  ge_pow10 xn xd (n0 - 1) = true /\ ge_pow10 xn xd n0 = false /\
  est10 (Z.log2 xn - Z.log2 xd) <= n0 <= est10 (Z.log2 xn - Z.log2 xd) + 2.
Proof.
  intros xn xd Hn Hd Hl. cbv zeta. unfold dec_exp. cbv zeta.
  pose proof (log2_diff_bounds xn xd Hn Hd) as [D U]. cbv zeta in D, U.
  set (l := Z.log2 xn - Z.log2 xd) in *. fold (est10 l). set (est := est10 l).
  pose proof (sweep_ok_range l Hl) as S. unfold sweep_ok in S. cbv zeta in S. fold est in S.
  apply andb_true_iff in S. destruct S as [S1 S2]. apply Z.leb_le in S1, S2.
  (* x < 10^(est+2) and 10^(est-1) <= x *)
  assert (G2 : ge_pow10 xn xd (est + 2) = false).
  { rewrite ge_pow10_eq. apply Z.leb_gt. rewrite (Z.mul_comm xd) in U |- *.
    exact (frac_lt_le_trans _ _ _ _ _ _ Hd (p2d_pos _) (p10d_pos _) U S1). }
  assert (G0 : ge_pow10 xn xd (est - 1) = true).
  { rewrite ge_pow10_eq. apply Z.leb_le, Z.nlt_ge. intro C. rewrite (Z.mul_comm xd) in C.
    pose proof (frac_lt_le_trans _ _ _ _ _ _ Hd (p10d_pos _) (p2d_pos _) C S2). lia. }
  change 4%nat with (S (S (S (S O)))). cbn [adj_up].
  destruct (ge_pow10 xn xd est) eqn:A0.
  - replace (est + 1 + 1) with (est + 2) by lia.
    destruct (ge_pow10 xn xd (est + 1)) eqn:A1.
    + rewrite G2. cbn [adj_down]. replace (est + 2 - 1) with (est + 1) by lia. rewrite A1.
      split; [replace (est + 2 - 1) with (est + 1) by lia; exact A1|]. split; [exact G2|lia].
    + cbn [adj_down]. replace (est + 1 - 1) with est by lia. rewrite A0.
      split; [replace (est + 1 - 1) with est by lia; exact A0|]. split; [exact A1|lia].
  - cbn [adj_down]. rewrite G0. split; [exact G0|]. split; [exact A0|lia].
Qed.

(* interval test as a boolean on cross-multiplied integers *)
Definition rint_b (incl : bool) (lo mid hi : Z) : bool :=
  match mid ?= lo with
  | Lt => false
  | Eq => incl
  | Gt => match mid ?= hi with Lt => true | Eq => incl | Gt => false end
  end.

Lemma in_interval_rint : forall incl A LO HI cP, in_interval incl A LO HI cP = rint_b incl LO (cP * A) HI.
Proof. reflexivity. Qed.

Lemma rint_b_spec : forall incl lo mid hi, lo < hi ->
  (rint_b incl lo mid hi = true <-> (lo <= mid <= hi /\ (incl = false -> lo < mid < hi))).
Proof.
  intros incl lo mid hi H. unfold rint_b.
  destruct (Z.compare_spec mid lo) as [C1|C1|C1]; [| |destruct (Z.compare_spec mid hi) as [C2|C2|C2]].
  - split; [intro Hi; split; [lia|intro Hf; congruence]|intros [_ Hi]; destruct incl; [reflexivity|specialize (Hi eq_refl); lia]].
  - split; [discriminate|intros [Hi _]; lia].
  - split; [intro Hi; split; [lia|intro Hf; congruence]|intros [_ Hi]; destruct incl; [reflexivity|specialize (Hi eq_refl); lia]].
  - split; [intros _; split; [lia|intros _; lia]|reflexivity].
  - split; [discriminate|intros [Hi _]; lia].
Qed.

(* a point that is rejected although it is below the upper (above the lower) end lies at or beyond the other end *)
Lemma rint_b_false_lo : forall incl lo mid hi, rint_b incl lo mid hi = false -> mid < hi ->
  mid <= lo /\ (mid = lo -> incl = false).
Proof.
  intros incl lo mid hi H Hlt. unfold rint_b in H.
  destruct (Z.compare_spec mid lo) as [C|C|C]; [split; [lia|intros _; exact H]|split; [lia|intro; lia]|exfalso].
  destruct (Z.compare_spec mid hi); [lia|discriminate|lia].
Qed.

Lemma rint_b_false_hi : forall incl lo mid hi, rint_b incl lo mid hi = false -> lo < mid ->
  hi <= mid /\ (mid = hi -> incl = false).
Proof.
  intros incl lo mid hi H Hlt. unfold rint_b in H. destruct (Z.compare_spec mid lo) as [C|C|C]; [lia|lia|].
  destruct (Z.compare_spec mid hi) as [C2|C2|C2]; [split; [lia|intros _; exact H]|discriminate|split; [lia|intro; lia]].
Qed.

Lemma rint_b_ext : forall incl lo mid hi lo' mid' hi',
  (mid ?= lo) = (mid' ?= lo') -> (mid ?= hi) = (mid' ?= hi') -> rint_b incl lo mid hi = rint_b incl lo' mid' hi'.
Proof. intros incl lo mid hi lo' mid' hi' H1 H2. unfold rint_b. now rewrite H1, H2. Qed.

Lemma in_rint_b : forall m expf num den, 0 < m -> 0 < den ->
  (in_rint m expf num den <->
   rint_b (Z.even m) (lowM m expf * p2n (dbl_E expf) * den) (4 * num * p2d (dbl_E expf)) (highM m * p2n (dbl_E expf) * den) = true).
Proof.
  intros m expf num den Hm Hd. unfold in_rint. cbv zeta.
  pose proof (p2n_pos (dbl_E expf)) as HX. pose proof (lowM_bounds m expf) as [L1 L2].
  rewrite rint_b_spec; [reflexivity|]. unfold highM.
  apply Z.mul_lt_mono_pos_r; [exact Hd|]. apply Z.mul_lt_mono_pos_r; [exact HX|]. lia.
Qed.

Lemma roundtrips_iff : forall m expf c p, 0 < c -> dbl_ok m expf ->
  (roundtrips (dbl_bits m expf) c p = true <-> in_rint m expf (c * p10n p) (p10d p)).
Proof.
  intros m expf c p Hc Hok. unfold roundtrips. rewrite dec_num_p10, dec_den_p10.
  pose proof (p10n_pos p) as Hp. pose proof (p10d_pos p) as Hq.
  assert (Hn : 0 < c * p10n p) by nia.
  rewrite <- (round_rat_iff m expf _ _ Hn Hq Hok).
  destruct (round_rat (c * p10n p) (p10d p)) as [b|].
  - split; [intro H; apply Z.eqb_eq in H; now subst|intro H; inversion H; apply Z.eqb_refl].
  - split; discriminate.
Qed.

Lemma dbl_ok_pos : forall m expf, dbl_ok m expf -> 0 < m < 2 * two52.
Proof. intros m expf H. unfold dbl_ok, two52 in *. lia. Qed.

(* the search tries the head of the list on its own and, when that gives nothing, goes on with the tail *)
Lemma search_cons_single : forall k ks babs incl A LO HI n0 L R yd,
  search (k :: ks) babs incl A LO HI n0 L R yd =
  match search [k] babs incl A LO HI n0 L R yd with
  | Some r => Some r
  | None => search ks babs incl A LO HI n0 L R yd
  end.
Proof.
  intros. cbn [search]. cbv zeta.
  destruct (if in_interval incl A LO HI (L / 10 ^ (17 - k) * 10 ^ (17 - k)) then _ else false);
    destruct (if (L mod 10 ^ (17 - k) =? 0) && (R =? 0) then false else _); try reflexivity.
  destruct (_ ?= _); reflexivity.
Qed.

(** * The search for one double *)
Section Search.
  Variables m expf : Z.
  Hypothesis Hok : dbl_ok m expf.

  Definition sE : Z := dbl_E expf.
  Definition sxn : Z := m * p2n sE.
  Definition sxd : Z := p2d sE.
  Definition sn0 : Z := dec_exp sxn sxd.
  Definition ssc : Z := 17 - sn0.
  Definition syn : Z := sxn * p10n ssc.
  Definition syd : Z := sxd * p10d ssc.
  Definition sA : Z := 4 * m * syd.
  Definition sLO : Z := syn * lowM m expf.
  Definition sHI : Z := syn * highM m.
  Definition sL : Z := syn / syd.
  Definition sR : Z := syn mod syd.
  Definition sbabs : Z := dbl_bits m expf.

  Lemma shortest_search_eq :
    shortest_search sbabs m sE expf =
    match search ks17 sbabs (Z.even m) sA sLO sHI sn0 sL sR syd with
    | None => None
    | Some (c, k) => Some (sn0, c, k)
    end.
  Proof.
    unfold shortest_search, sA, sLO, sHI, sL, sR, syn, syd, ssc, sn0.
    rewrite (mul_pnum (Z.pow 2) m sE : _ = sxn). change (if 0 <=? sE then 1 else 2 ^ (- sE)) with sxd.
    cbv zeta. rewrite (mul_pnum (Z.pow 10)), (mul_pden (Z.pow 10)). reflexivity.
  Qed.

  Lemma sxn_pos : 0 < sxn. Proof. unfold sxn. pose proof (proj1 (dbl_ok_pos m expf Hok)). pose proof (p2n_pos sE). nia. Qed.
  Lemma sxd_pos : 0 < sxd. Proof. apply p2d_pos. Qed.
  Lemma syn_pos : 0 < syn. Proof. unfold syn. pose proof sxn_pos. pose proof (p10n_pos ssc). nia. Qed.
  Lemma syd_pos : 0 < syd. Proof. unfold syd. pose proof sxd_pos. pose proof (p10d_pos ssc). nia. Qed.
  Lemma sA_pos : 0 < sA. Proof. unfold sA. pose proof (proj1 (dbl_ok_pos m expf Hok)). pose proof syd_pos. nia. Qed.

  Lemma sl_range : -1074 <= Z.log2 sxn - Z.log2 sxd <= 1023.
  Proof.
    pose proof (dbl_ok_pos m expf Hok) as [Hm H2].
    assert (HE : -1074 <= sE <= 971) by (unfold sE, dbl_E; unfold dbl_ok in Hok; lia).
    assert (Hl : Z.log2 m < 53) by (apply Z.log2_lt_pow2; [exact Hm|]; unfold two52 in H2; change (2 ^ 53) with 9007199254740992; lia).
    pose proof (Z.log2_nonneg m) as H0. unfold sxn, sxd, p2n, p2d.
    destruct (Z.leb_spec 0 sE) as [H|H].
    - rewrite Z.log2_mul_pow2 by lia. change (Z.log2 1) with 0. lia.
    - rewrite Z.mul_1_r. rewrite Z.log2_pow2 by lia. lia.
  Qed.

  Lemma sn0_spec :
    sxd * p10n (sn0 - 1) <= sxn * p10d (sn0 - 1) /\ sxn * p10d sn0 < sxd * p10n sn0 /\ -324 <= sn0 <= 309.
  Proof.
    pose proof sl_range as Hl.
    pose proof (dec_exp_spec sxn sxd sxn_pos sxd_pos ltac:(lia)) as [H1 [H2 H3]]. cbv zeta in *. fold sn0 in H1, H2, H3.
    rewrite ge_pow10_eq in H1, H2. apply Z.leb_le in H1. apply Z.leb_gt in H2.
    split; [exact H1|]. split; [exact H2|].
    set (l := Z.log2 sxn - Z.log2 sxd) in *. unfold est10 in H3.
    assert (B1 : -324 <= l * 30103 / 100000) by (apply Z.div_le_lower_bound; lia).
    assert (B2 : l * 30103 / 100000 <= 307).
    { assert (l * 30103 / 100000 < 308); [|lia]. apply Z.div_lt_upper_bound; lia. }
    lia.
  Qed.

  (* y = x * 10^(17-n0) lies in [10^16, 10^17) *)
  Lemma sy_range : 10 ^ 16 * syd <= syn /\ syn < 10 ^ 17 * syd.
  Proof.
    pose proof sn0_spec as [H1 [H2 _]]. unfold syn, syd, ssc. split.
    - replace (17 - sn0) with (16 - (sn0 - 1)) by lia. apply (pnum_scaled_le 10 eq_refl sxn sxd (sn0 - 1) 16); [lia|exact H1].
    - apply (pnum_scaled_lt 10 eq_refl sxn sxd sn0 17); [lia|exact H2].
  Qed.

  Lemma sLR : syn = syd * sL + sR /\ 0 <= sR < syd.
  Proof.
    pose proof syd_pos as H. split; [apply Z.div_mod; lia|apply Z.mod_pos_bound; exact H].
  Qed.

  Lemma sL_range : 10 ^ 16 <= sL < 10 ^ 17.
  Proof.
    pose proof sy_range as [H1 H2]. pose proof syd_pos as Hd. unfold sL. split.
    - apply Z.div_le_lower_bound; [exact Hd|lia].
    - apply Z.div_lt_upper_bound; [exact Hd|lia].
  Qed.

  (* a candidate c * 10^p is acceptable iff it lies in the rounding interval *)
  Definition cand_ok (c p : Z) : Prop := in_rint m expf (c * p10n p) (p10d p).

  (* the same test in the scaled domain: w = c * 10^(p + 17 - n0) against [LO/A, HI/A] *)
  Lemma cand_bridge : forall c p,
    (cand_ok c p <->
     rint_b (Z.even m) (sLO * p10d (p + ssc)) (c * p10n (p + ssc) * sA) (sHI * p10d (p + ssc)) = true).
  Proof.
    intros c p. unfold cand_ok. rewrite in_rint_b; [|apply (dbl_ok_pos m expf Hok)|apply p10d_pos].
    fold sE. set (X := p2n sE). set (Y := p2d sE). set (q := p + ssc).
    assert (EQ : forall K,
      (4 * (c * p10n p) * Y ?= K * X * p10d p) = (c * p10n q * sA ?= syn * K * p10d q)).
    { intro K. pose proof (p10_add p ssc) as P. fold q in P.
      pose proof (proj1 (dbl_ok_pos m expf Hok)) as Hm. pose proof (p10n_pos ssc) as Ps. pose proof (p10d_pos q) as Pq. pose proof (p10d_pos p) as Pp.
      assert (HF : 0 < m * p10n ssc * p10d q) by nia.
      apply (scale_cmp _ _ _ _ (p10d p) (m * p10n ssc * p10d q) Pp HF).
      - unfold sA, syd, sxd. fold Y.
        replace (4 * (c * p10n p) * Y * (m * p10n ssc * p10d q)) with (4 * c * Y * m * (p10n p * p10n ssc * p10d q)) by ring.
        rewrite <- P. ring.
      - unfold syn, sxn. fold X. ring. }
    split; intro H.
    - rewrite <- H. apply rint_b_ext; unfold sLO, sHI; symmetry; apply EQ.
    - rewrite <- H. apply rint_b_ext; unfold sLO, sHI; apply EQ.
  Qed.

  (* step k of the search *)
  Definition sP (k : Z) : Z := 10 ^ (17 - k).
  Definition slo (k : Z) : Z := sL / sP k.
  Definition sr (k : Z) : Z := sL mod sP k.
  Definition sexact (k : Z) : bool := (sr k =? 0) && (sR =? 0).
  Definition sok (c k : Z) : bool :=
    in_interval (Z.even m) sA sLO sHI (c * sP k) && roundtrips sbabs c (sn0 - k).
  Definition shi_ok (k : Z) : bool := if sexact k then false else sok (slo k + 1) k.

  Lemma cand_bridge_k : forall c k, k <= 17 ->
    (cand_ok c (sn0 - k) <-> rint_b (Z.even m) sLO (c * sP k * sA) sHI = true).
  Proof.
    intros c k Hk. pose proof (cand_bridge c (sn0 - k)) as B. replace (sn0 - k + ssc) with (17 - k) in B by (unfold ssc; lia).
    rewrite (p10n_nonneg (17 - k)), (p10d_nonneg (17 - k)), !Z.mul_1_r in B by lia. exact B.
  Qed.

  Lemma sok_iff : forall c k, 0 < c -> k <= 17 -> (sok c k = true <-> cand_ok c (sn0 - k)).
  Proof.
    intros c k Hc Hk. unfold sok, sbabs. rewrite in_interval_rint, andb_true_iff, (roundtrips_iff m expf c _ Hc Hok), <- cand_bridge_k by assumption.
    unfold cand_ok. tauto.
  Qed.

  Lemma sP_pos : forall k, k <= 17 -> 0 < sP k.
  Proof. intros k H. unfold sP. apply Z.pow_pos_nonneg; lia. Qed.

  Lemma slo_range : forall k, 1 <= k <= 17 -> 10 ^ (k - 1) <= slo k < 10 ^ k.
  Proof.
    intros k Hk. pose proof sL_range as [H1 H2]. pose proof (sP_pos k ltac:(lia)) as HP. unfold slo.
    assert (E1 : 10 ^ 16 = 10 ^ (k - 1) * sP k) by (unfold sP; rewrite <- Z.pow_add_r by lia; f_equal; lia).
    assert (E2 : 10 ^ 17 = 10 ^ k * sP k) by (unfold sP; rewrite <- Z.pow_add_r by lia; f_equal; lia).
    split.
    - apply Z.div_le_lower_bound; [exact HP|]. lia.
    - apply Z.div_lt_upper_bound; [exact HP|]. lia.
  Qed.

  Lemma slo_pos : forall k, 1 <= k <= 17 -> 0 < slo k.
  Proof. intros k Hk. pose proof (slo_range k Hk) as [H _]. assert (0 < 10 ^ (k - 1)) by (apply Z.pow_pos_nonneg; lia). lia. Qed.

  (* one step of the search: the candidate accepted at k digits, if any; it is [search] on the list [[k]], written
     with the names of this section *)
  Definition step_result (k : Z) : option (Z * Z) :=
    if sok (slo k) k then
      if shi_ok k then
        match 2 * (sr k * syd + sR) ?= sP k * syd with
        | Lt => Some (slo k, k)
        | Gt => Some (slo k + 1, k)
        | Eq => Some (if Z.even (slo k) then slo k else slo k + 1, k)
        end
      else Some (slo k, k)
    else if shi_ok k then Some (slo k + 1, k)
    else None.

  Lemma search_cons : forall k ks,
    search (k :: ks) sbabs (Z.even m) sA sLO sHI sn0 sL sR syd =
    match step_result k with Some r => Some r | None => search ks sbabs (Z.even m) sA sLO sHI sn0 sL sR syd end.
  Proof. intros k ks. exact (search_cons_single k ks sbabs (Z.even m) sA sLO sHI sn0 sL sR syd). Qed.

  Lemma step_result_some : forall k c k', step_result k = Some (c, k') ->
    k' = k /\ (c = slo k \/ c = slo k + 1) /\ sok c k = true.
  Proof.
    intros k c k' H. unfold step_result in H.
    assert (Hhi : shi_ok k = true -> sok (slo k + 1) k = true) by (unfold shi_ok; destruct (sexact k); [discriminate|auto]).
    destruct (sok (slo k) k) eqn:E1; destruct (shi_ok k) eqn:E2;
      [destruct (2 * (sr k * syd + sR) ?= sP k * syd); [destruct (Z.even (slo k))| |]| | |discriminate];
      injection H as <- <-; auto.
  Qed.

  Lemma step_result_none : forall k, step_result k = None -> sok (slo k) k = false /\ shi_ok k = false.
  Proof.
    intros k H. unfold step_result in H. destruct (sok (slo k) k); destruct (shi_ok k); try discriminate; [|auto].
    destruct (2 * (sr k * syd + sR) ?= sP k * syd); discriminate.
  Qed.

  (* soundness: what the search returns was accepted *)
  Lemma search_sound : forall ks c k, (forall j, In j ks -> 1 <= j <= 17) ->
    search ks sbabs (Z.even m) sA sLO sHI sn0 sL sR syd = Some (c, k) ->
    In k ks /\ (c = slo k \/ c = slo k + 1) /\ sok c k = true.
  Proof.
    induction ks as [|a ks IH]; intros c k Hks H; [discriminate|]. rewrite search_cons in H.
    destruct (step_result a) as [[c' k']|] eqn:E.
    - injection H as -> ->. destruct (step_result_some _ _ _ E) as [-> Hc]. split; [now left|exact Hc].
    - destruct (IH c k) as [I1 I2]; [intros j Hj; apply Hks; now right|exact H|]. split; [now right|exact I2].
  Qed.

  (* the search stops at the first k at which a candidate is accepted *)
  Lemma search_total : forall ks k, In k ks -> (sok (slo k) k = true \/ shi_ok k = true) ->
    search ks sbabs (Z.even m) sA sLO sHI sn0 sL sR syd <> None.
  Proof.
    induction ks as [|a ks IH]; intros k Hin Hk; [contradiction|]. rewrite search_cons.
    destruct (step_result a) eqn:E; [discriminate|]. apply step_result_none in E.
    destruct Hin as [->|Hin]; [destruct Hk, E; congruence|]. now apply (IH k).
  Qed.

  Lemma search_first : forall ks c k, Sorted.StronglySorted Z.lt ks ->
    search ks sbabs (Z.even m) sA sLO sHI sn0 sL sR syd = Some (c, k) ->
    forall j, In j ks -> j < k -> sok (slo j) j = false /\ shi_ok j = false.
  Proof.
    induction ks as [|a ks IH]; intros c k Hs H j Hj Hlt; [contradiction|].
    inversion Hs as [|? ? Hs' Hall]; subst. rewrite Forall_forall in Hall. rewrite search_cons in H.
    destruct (step_result a) as [[c' k']|] eqn:E.
    - exfalso. injection H as -> ->. destruct (step_result_some _ _ _ E) as [-> _].
      destruct Hj as [->|Hj]; [lia|]. specialize (Hall _ Hj). lia.
    - apply step_result_none in E. destruct Hj as [->|Hj]; [exact E|]. eapply IH; eassumption.
  Qed.

  Lemma sLO_lt_HI : sLO < sHI.
  Proof.
    unfold sLO, sHI, highM. pose proof syn_pos. pose proof (lowM_bounds m expf) as [L1 L2].
    apply Z.mul_lt_mono_pos_l; lia.
  Qed.

  (* acceptance at step k is exactly the interval test (the parse-back never disagrees with the pre-filter) *)
  Lemma sok_eq_rint : forall c k, 0 < c -> k <= 17 ->
    sok c k = rint_b (Z.even m) sLO (c * sP k * sA) sHI.
  Proof.
    intros c k Hc Hk. apply Bool.eq_iff_eq_true. rewrite sok_iff, cand_bridge_k by assumption. reflexivity.
  Qed.

  (* 17 digits always suffice: 2^53 < 10^16, so one of floor(y), floor(y)+1 lies strictly inside the interval *)
  Lemma step17 : sok (slo 17) 17 = true \/ shi_ok 17 = true.
  Proof.
    pose proof sLR as [HD [HR0 HR1]]. pose proof sL_range as [HL1 HL2]. pose proof sy_range as [Hy1 _].
    pose proof syn_pos as Hyn. pose proof syd_pos as Hyd. pose proof (dbl_ok_pos m expf Hok) as [Hm0 Hm1].
    pose proof (lowM_bounds m expf) as [Lb1 Lb2]. pose proof sLO_lt_HI as Hlh.
    assert (HP : sP 17 = 1) by reflexivity.
    assert (Hlo : slo 17 = sL) by (unfold slo; rewrite HP; apply Z.div_1_r).
    assert (Hr : sr 17 = 0) by (unfold sr; rewrite HP; apply Z.mod_1_r).
    assert (HLpos : 0 < sL) by (change (10 ^ 16) with 10000000000000000 in HL1; lia).
    rewrite Hlo. unfold shi_ok, sexact. rewrite Hr, Hlo. change (0 =? 0) with true. cbn [andb].
    rewrite !sok_eq_rint by lia. rewrite HP, !Z.mul_1_r.
    change (10 ^ 16) with 10000000000000000 in *. unfold two52 in *.
    assert (EA : sL * sA = 4 * m * (syn - sR)).
    { unfold sA. replace (syn - sR) with (syd * sL) by lia. ring. }
    assert (EA1 : (sL + 1) * sA = 4 * m * (syn - sR + syd)).
    { unfold sA. replace (syn - sR + syd) with (syd * sL + syd) by lia. ring. }
    assert (N1 : 0 <= m * sR) by (apply Z.mul_nonneg_nonneg; lia).
    assert (N2 : 0 <= m * (syd - sR)) by (apply Z.mul_nonneg_nonneg; lia).
    assert (N3 : syn * lowM m expf <= syn * (4 * m - 1)) by (apply Z.mul_le_mono_nonneg_l; lia).
    assert (N4 : syn * 1 <= syn * (4 * m - lowM m expf)) by (apply Z.mul_le_mono_nonneg_l; lia).
    destruct (Z.lt_ge_cases (4 * m * sR) (syn * (4 * m - lowM m expf))) as [C|C].
    - left. apply rint_b_spec; [exact Hlh|]. rewrite EA. unfold sLO, sHI, highM.
      assert (S1 : syn * lowM m expf < 4 * m * (syn - sR)) by lia.
      assert (S2 : 4 * m * (syn - sR) < syn * (4 * m + 2)) by lia.
      split; [lia|intros _; lia].
    - right.
      destruct (Z.eqb_spec sR 0) as [Z0|NZ]; [rewrite Z0 in *; lia|].
      apply rint_b_spec; [exact Hlh|]. rewrite EA1. unfold sLO, sHI, highM.
      assert (S1 : syn * lowM m expf < 4 * m * (syn - sR + syd)) by lia.
      assert (S2 : 4 * m * (syn - sR + syd) < syn * (4 * m + 2)).
      { apply Z.nle_gt. intro Bad.
        assert (B2 : 2 * syn <= 4 * (m * syd) - 4 * (m * sR)) by lia.
        assert (B4 : 0 < (10000000000000000 - m) * syd) by (apply Z.mul_pos_pos; lia).
        unfold lowM, two52 in C. destruct ((m =? 4503599627370496) && (1 <? expf)) eqn:Eb.
        - apply andb_true_iff in Eb. destruct Eb as [Eb _]. apply Z.eqb_eq in Eb.
          assert (B5 : m * syd = 4503599627370496 * syd) by (rewrite Eb; reflexivity). lia.
        - lia. }
      split; [lia|intros _; lia].
  Qed.

  Lemma ks17_range : forall j, In j ks17 <-> 1 <= j <= 17.
  Proof. intro j. unfold ks17. cbn [In]. lia. Qed.

  Lemma ks17_sorted : StronglySorted Z.lt ks17.
  Proof. unfold ks17. repeat (constructor; [|repeat (constructor; [lia|]); constructor]). constructor. Qed.

  Theorem shortest_search_some :
    exists c k, shortest_search sbabs m sE expf = Some (sn0, c, k) /\ 1 <= k <= 17 /\
                (c = slo k \/ c = slo k + 1) /\ cand_ok c (sn0 - k) /\ 0 < c <= 10 ^ k.
  Proof.
    rewrite shortest_search_eq.
    destruct (search ks17 sbabs (Z.even m) sA sLO sHI sn0 sL sR syd) as [[c k]|] eqn:E.
    - exists c, k. apply search_sound in E; [|intros j Hj; now apply ks17_range].
      destruct E as [Hin [Hc Hs]]. apply ks17_range in Hin.
      pose proof (slo_range k Hin) as [R1 R2]. pose proof (slo_pos k Hin) as R0.
      assert (Hcp : 0 < c <= 10 ^ k) by (destruct Hc; subst; lia).
      split; [reflexivity|]. split; [exact Hin|]. split; [exact Hc|]. split; [|exact Hcp].
      apply sok_iff in Hs; [exact Hs|lia|lia].
    - exfalso. revert E. apply (search_total ks17 17); [apply ks17_range; lia|apply step17].
  Qed.

  Lemma sL_decomp : forall k, k <= 17 -> sL = sP k * slo k + sr k /\ 0 <= sr k < sP k.
  Proof.
    intros k Hk. pose proof (sP_pos k Hk) as HP. unfold slo, sr.
    split; [apply Z.div_mod; lia|apply Z.mod_pos_bound; exact HP].
  Qed.

  (* the grid point below y: never above the interval; the grid point above y: never below it *)
  Lemma grid_lo_below_HI : forall k, 1 <= k <= 17 -> slo k * sP k * sA < sHI.
  Proof.
    intros k Hk. pose proof (sL_decomp k ltac:(lia)) as [HD [Hr0 Hr1]]. pose proof sLR as [HY [HR0 HR1]].
    pose proof syn_pos as Hyn. pose proof syd_pos as Hyd. pose proof (proj1 (dbl_ok_pos m expf Hok)) as Hm.
    unfold sA, sHI, highM.
    assert (G1 : slo k * sP k * syd <= syn).
    { assert (0 <= sr k * syd) by (apply Z.mul_nonneg_nonneg; lia). nia. }
    assert (G2 : m * (slo k * sP k * syd) <= m * syn) by (apply Z.mul_le_mono_nonneg_l; lia).
    lia.
  Qed.

  Lemma grid_hi_above_LO : forall k, 1 <= k <= 17 -> sLO < (slo k + 1) * sP k * sA.
  Proof.
    intros k Hk. pose proof (sL_decomp k ltac:(lia)) as [HD [Hr0 Hr1]]. pose proof sLR as [HY [HR0 HR1]].
    pose proof syn_pos as Hyn. pose proof syd_pos as Hyd. pose proof (proj1 (dbl_ok_pos m expf Hok)) as Hm.
    pose proof (lowM_bounds m expf) as [Lb1 Lb2].
    unfold sA, sLO.
    assert (G1 : syn < (slo k + 1) * sP k * syd).
    { assert (sL + 1 <= (slo k + 1) * sP k) by lia.
      assert ((sL + 1) * syd <= (slo k + 1) * sP k * syd) by (apply Z.mul_le_mono_nonneg_r; lia). lia. }
    assert (G2 : m * syn < m * ((slo k + 1) * sP k * syd)) by (apply Z.mul_lt_mono_pos_l; lia).
    assert (G3 : syn * lowM m expf <= syn * (4 * m - 1)) by (apply Z.mul_le_mono_nonneg_l; lia).
    lia.
  Qed.

  (* minimality: when step j fails, no decimal with j significant digits lies in the rounding interval *)
  Lemma no_shorter : forall j, 1 <= j <= 17 -> sok (slo j) j = false -> shi_ok j = false ->
    forall c2 p2, 10 ^ (j - 1) <= c2 < 10 ^ j -> ~ cand_ok c2 p2.
  Proof.
    intros j Hj Hlo Hhi c2 p2 Hc2 Hc.
    pose proof (sL_decomp j ltac:(lia)) as [HD [Hr0 Hr1]]. pose proof sLR as [HY [HR0 HR1]].
    pose proof syn_pos as Hyn. pose proof syd_pos as Hyd. pose proof (proj1 (dbl_ok_pos m expf Hok)) as Hm. pose proof sA_pos as HA.
    pose proof (lowM_bounds m expf) as [Lb1 Lb2]. pose proof sLO_lt_HI as Hlh.
    pose proof (sP_pos j ltac:(lia)) as HP. pose proof (slo_pos j Hj) as Hlop. pose proof (slo_range j Hj) as [Hlr1 Hlr2].
    set (P := sP j) in *. set (lo := slo j) in *. set (r := sr j) in *.
    rewrite sok_eq_rint in Hlo by lia.
    destruct (rint_b_false_lo _ _ _ _ Hlo (grid_lo_below_HI j Hj)) as [Al1 Al2]. fold lo P in Al1, Al2.
    (* the step is not exact *)
    assert (Hex : sexact j = false).
    { destruct (sexact j) eqn:Ex; [exfalso|reflexivity]. unfold sexact in Ex. apply andb_true_iff in Ex.
      destruct Ex as [E1 E2]. apply Z.eqb_eq in E1, E2. fold r in E1.
      assert (EY : lo * P * syd = syn) by (rewrite HY, HD, E1, E2; ring).
      unfold sA, sLO in Al1.
      assert (G3 : syn * lowM m expf <= syn * (4 * m - 1)) by (apply Z.mul_le_mono_nonneg_l; lia).
      replace (lo * P * (4 * m * syd)) with (4 * m * (lo * P * syd)) in Al1 by ring. rewrite EY in Al1. nia. }
    unfold shi_ok in Hhi. rewrite Hex, sok_eq_rint in Hhi by lia.
    destruct (rint_b_false_hi _ _ _ _ Hhi (grid_hi_above_LO j Hj)) as [Be1 Be2]. fold lo P in Be1, Be2.
    (* the candidate in the scaled domain *)
    apply cand_bridge in Hc. set (q := p2 + ssc) in *.
    pose proof (p10n_pos q) as Pn. pose proof (p10d_pos q) as Pd.
    set (wn := c2 * p10n q) in *. set (wd := p10d q) in *.
    apply rint_b_spec in Hc; [|apply Z.mul_lt_mono_pos_r; assumption].
    destruct Hc as [[W1 W2] Wt].
    assert (V1 : lo * P * wd < wn).
    { apply Z.nle_gt. intro Bad.
      assert (X1 : wn * sA <= lo * P * wd * sA) by (apply Z.mul_le_mono_nonneg_r; lia).
      assert (X2 : lo * P * sA * wd <= sLO * wd) by (apply Z.mul_le_mono_nonneg_r; lia).
      assert (X3 : lo * P * sA * wd = sLO * wd) by lia.
      apply Z.mul_cancel_r in X3; [|lia]. specialize (Wt (Al2 X3)). lia. }
    assert (V2 : wn < (lo + 1) * P * wd).
    { apply Z.nle_gt. intro Bad.
      assert (X1 : (lo + 1) * P * wd * sA <= wn * sA) by (apply Z.mul_le_mono_nonneg_r; lia).
      assert (X2 : sHI * wd <= (lo + 1) * P * sA * wd) by (apply Z.mul_le_mono_nonneg_r; lia).
      assert (X3 : (lo + 1) * P * sA * wd = sHI * wd) by lia.
      apply Z.mul_cancel_r in X3; [|lia]. specialize (Wt (Be2 X3)). lia. }
    destruct (Z.le_gt_cases (17 - j) q) as [Hq|Hq].
    - (* the candidate is a multiple of the grid step *)
      assert (Ewd : wd = 1) by (unfold wd; apply p10d_nonneg; lia).
      assert (Ewn : wn = c2 * 10 ^ (q - (17 - j)) * P).
      { unfold wn, P, sP. rewrite p10n_nonneg by lia. rewrite <- Z.mul_assoc, <- Z.pow_add_r by lia. do 2 f_equal. lia. }
      rewrite Ewd, Ewn, !Z.mul_1_r in *.
      apply Z.mul_lt_mono_pos_r in V1; [|exact HP]. apply Z.mul_lt_mono_pos_r in V2; [|exact HP]. lia.
    - (* the candidate is below 10^16 <= lo * P *)
      assert (E16 : 10 ^ 16 = 10 ^ (j - 1) * P) by (unfold P, sP; rewrite <- Z.pow_add_r by lia; f_equal; lia).
      assert (G1 : 10 ^ 16 <= lo * P) by (rewrite E16; apply Z.mul_le_mono_nonneg_r; lia).
      assert (G2 : wn < 10 ^ 16 * wd).
      { unfold wn, wd, p10n, p10d. destruct (Z.leb_spec 0 q) as [Q0|Q0].
        - rewrite Z.mul_1_r.
          assert (T1 : c2 * 10 ^ q < 10 ^ j * 10 ^ q) by (apply Z.mul_lt_mono_pos_r; [apply Z.pow_pos_nonneg; lia|lia]).
          rewrite <- Z.pow_add_r in T1 by lia.
          assert (T2 : 10 ^ (j + q) <= 10 ^ 16) by (apply Z.pow_le_mono_r; lia). lia.
        - rewrite Z.mul_1_r.
          assert (T1 : 10 ^ j <= 10 ^ 17) by (apply Z.pow_le_mono_r; lia).
          assert (T2 : 10 ^ 1 <= 10 ^ (- q)) by (apply Z.pow_le_mono_r; lia).
          change (10 ^ 1) with 10 in T2. change (10 ^ 17) with (10 ^ 16 * 10) in T1.
          assert (T3 : 10 ^ 16 * 10 <= 10 ^ 16 * 10 ^ (- q)) by (apply Z.mul_le_mono_nonneg_l; [apply Z.pow_nonneg|]; lia).
          lia. }
      assert (G3 : 10 ^ 16 * wd <= lo * P * wd) by (apply Z.mul_le_mono_nonneg_r; lia).
      lia.
  Qed.

  (* what the search returns is at the smallest number of digits at which any decimal round-trips *)
  Theorem search_minimal : forall n c k,
    shortest_search sbabs m sE expf = Some (n, c, k) ->
    forall j c2 p2, 1 <= j < k -> 10 ^ (j - 1) <= c2 < 10 ^ j -> roundtrips sbabs c2 p2 = false.
  Proof.
    intros n c k H j c2 p2 Hj Hc2. rewrite shortest_search_eq in H.
    destruct (search ks17 sbabs (Z.even m) sA sLO sHI sn0 sL sR syd) as [[c' k']|] eqn:E; [|discriminate].
    inversion H; subst n c' k'. clear H.
    pose proof (search_sound _ _ _ (fun j Hj => proj1 (ks17_range j) Hj) E) as [Hin _]. apply ks17_range in Hin.
    pose proof (search_first _ _ _ ks17_sorted E j (proj2 (ks17_range j) ltac:(lia)) ltac:(lia)) as [F1 F2].
    assert (Hpos : 0 < c2).
    { assert (0 < 10 ^ (j - 1)) by (apply Z.pow_pos_nonneg; lia). lia. }
    destruct (roundtrips sbabs c2 p2) eqn:R; [exfalso|reflexivity].
    apply (roundtrips_iff m expf) in R; [|exact Hpos|exact Hok].
    exact (no_shorter j ltac:(lia) F1 F2 c2 p2 Hc2 R).
  Qed.

  Lemma search_step : forall ks c k,
    search ks sbabs (Z.even m) sA sLO sHI sn0 sL sR syd = Some (c, k) -> step_result k = Some (c, k).
  Proof.
    induction ks as [|a ks IH]; intros c k H; [discriminate|]. rewrite search_cons in H.
    destruct (step_result a) as [[c' k']|] eqn:E; [|now apply IH].
    inversion H; subst c' k'. destruct (step_result_some _ _ _ E) as [-> _]. exact E.
  Qed.

  (* distance of the candidate c (at step k) to the exact value, in units of 1/yd of the scaled domain *)
  Definition sdist (c k : Z) : Z := Z.abs (c * sP k * syd - syn).

  (* ES6 7.1.12.1 step 5 / strconv: among the decimals c2 * 10^(n0-k) that read back as the double, the one
     that is chosen is the closest to the exact value; when two are equally close the even one is chosen *)
  Theorem search_closest : forall n c k,
    shortest_search sbabs m sE expf = Some (n, c, k) ->
    forall c2, 0 < c2 -> roundtrips sbabs c2 (sn0 - k) = true ->
    sdist c k <= sdist c2 k /\ (sdist c k = sdist c2 k -> c2 = c \/ Z.even c = true).
  Proof.
    intros n c k H c2 Hc2 Hr. rewrite shortest_search_eq in H.
    destruct (search ks17 sbabs (Z.even m) sA sLO sHI sn0 sL sR syd) as [[c' k']|] eqn:E; [|discriminate].
    inversion H; subst n c' k'. clear H.
    pose proof (search_sound _ _ _ (fun j Hj => proj1 (ks17_range j) Hj) E) as [Hin _]. apply ks17_range in Hin.
    apply search_step in E.
    apply (roundtrips_iff m expf) in Hr; [|exact Hc2|exact Hok]. apply sok_iff in Hr; [|exact Hc2|lia].
    pose proof (sL_decomp k ltac:(lia)) as [HD [Hr0 Hr1]]. pose proof sLR as [HY [HR0 HR1]].
    pose proof syd_pos as Hyd. pose proof (sP_pos k ltac:(lia)) as HP.
    set (P := sP k) in *. set (lo := slo k) in *. set (r := sr k) in *.
    set (D := P * syd). set (dl := r * syd + sR).
    assert (HDp : 0 < D) by (unfold D; apply Z.mul_pos_pos; lia).
    assert (Hdl : 0 <= dl < D).
    { unfold dl, D. assert (0 <= r * syd) by (apply Z.mul_nonneg_nonneg; lia).
      assert (r * syd <= (P - 1) * syd) by (apply Z.mul_le_mono_nonneg_r; lia). lia. }
    assert (Hdist : forall x, sdist x k = Z.abs ((x - lo) * D - dl)).
    { intro x. unfold sdist. fold P. f_equal. unfold D, dl. rewrite HY, HD. ring. }
    rewrite !Hdist.
    assert (Hexact : sexact k = true <-> dl = 0).
    { unfold sexact. fold r. rewrite andb_true_iff, !Z.eqb_eq. unfold dl. split; [intros [-> ->]; ring|intro Hx].
      assert (0 <= r * syd) by (apply Z.mul_nonneg_nonneg; lia). assert (r * syd = 0) by lia. split; nia. }
    assert (Hhi : shi_ok k = true -> dl <> 0).
    { unfold shi_ok. destruct (sexact k) eqn:Ex; [discriminate|]. intros _ Z0. apply Hexact in Z0. discriminate. }
    (* position of c2 relative to lo *)
    remember (c2 - lo) as t2 eqn:Ht2.
    assert (TD : (t2 = 0 /\ t2 * D = 0) \/ (t2 = 1 /\ t2 * D = D) \/ (t2 <= -1 /\ t2 * D <= - D) \/ (2 <= t2 /\ 2 * D <= t2 * D)).
    { assert (T2 : t2 = 0 \/ t2 = 1 \/ t2 <= -1 \/ 2 <= t2) by lia.
      destruct T2 as [T|[T|[T|T]]]; [left|right; left|right; right; left|right; right; right]; (split; [exact T|nia]). }
    assert (Hc2lo : t2 = 0 -> sok lo k = true) by (intro Z0; assert (Q : c2 = lo) by lia; rewrite <- Q; exact Hr).
    assert (Hc2hi : t2 = 1 -> sok (lo + 1) k = true) by (intro Z0; assert (Q : c2 = lo + 1) by lia; rewrite <- Q; exact Hr).
    (* the decision taken at step k *)
    unfold step_result in E. fold lo P r in E. fold dl in E. fold D in E.
    destruct (sok lo k) eqn:S1; destruct (shi_ok k) eqn:S2.
    - (* both candidates are accepted *)
      pose proof (Hhi eq_refl) as Hdl0. destruct (Z.compare_spec (2 * dl) D) as [C|C|C].
      + destruct (Z.even lo) eqn:Ev; inversion E; subst c.
        * rewrite Z.sub_diag. split; [lia|]. intros _. right. exact Ev.
        * rewrite Z.add_simpl_l. split; [lia|]. intros _. right. rewrite Z.add_1_r, Z.even_succ, <- Z.negb_even, Ev. reflexivity.
      + inversion E; subst c. rewrite Z.sub_diag. split; [lia|intro Heq; left; lia].
      + inversion E; subst c. rewrite Z.add_simpl_l. split; [lia|intro Heq; left; lia].
    - (* only the lower candidate *)
      inversion E; subst c. rewrite Z.sub_diag.
      assert (N1 : t2 = 1 -> dl = 0).
      { intro Z1. specialize (Hc2hi Z1). unfold shi_ok in S2. destruct (sexact k) eqn:Ex; [now apply Hexact|]. unfold lo in Hc2hi. rewrite Hc2hi in S2. discriminate. }
      split; [lia|intro Heq; left; lia].
    - (* only the upper candidate *)
      inversion E; subst c. rewrite Z.add_simpl_l.
      pose proof (Hhi eq_refl) as Hdl0.
      assert (N0 : t2 <> 0) by (intro Z0; specialize (Hc2lo Z0); congruence).
      split; [lia|intro Heq; left; lia].
    - discriminate.
  Qed.
End Search.
