(* The number model of the JSON canonicalizer (C07): the alphabet of the printed texts, inversion of [number_to_json],
   the round trip through [parse_number], the fields of a bit pattern, and that [parse_number] yields 64-bit patterns. *)
From Coq Require Import String List NArith ZArith Bool Lia.
From Coq.Strings Require Import Byte.
From SV Require Import Base.Bytes Json.Utf Json.Num.
Import ListNotations.
Local Open Scope Z_scope.

(* the alphabet of ES6 number texts *)
Definition numchar (c : byte) : Prop :=
  (48 <= bN c <= 57)%N \/ c = x2e \/ c = x65 \/ c = x2b \/ c = x2d.

Definition digitc (c : byte) : Prop := (48 <= bN c <= 57)%N.

Lemma digitc_numchar : forall c, digitc c -> numchar c.
Proof. intros c H. now left. Qed.

Lemma bZ_zbyte_digit : forall d, 0 <= d < 10 -> bZ (zbyte (48 + d)) = 48 + d.
Proof.
  intros d H.
  assert (E : d = 0 \/ d = 1 \/ d = 2 \/ d = 3 \/ d = 4 \/ d = 5 \/ d = 6 \/ d = 7 \/ d = 8 \/ d = 9) by lia.
  destruct E as [E|[E|[E|[E|[E|[E|[E|[E|[E|E]]]]]]]]]; subst d; reflexivity.
Qed.

Lemma zbyte_digit : forall z, digitc (zbyte (48 + z mod 10)).
Proof.
  intro z. pose proof (Z.mod_pos_bound z 10 eq_refl) as H. pose proof (bZ_zbyte_digit _ H) as E.
  unfold digitc. unfold bZ in E. fold (bN (zbyte (48 + z mod 10))) in E. lia.
Qed.

Lemma z_digits_S : forall f z acc,
  z_digits (S f) z acc =
  if z <? 10 then zbyte (48 + z mod 10) :: acc else z_digits f (z / 10) (zbyte (48 + z mod 10) :: acc).
Proof. reflexivity. Qed.

Lemma z_digits_chars : forall fuel z acc, Forall digitc acc -> Forall digitc (z_digits fuel z acc).
Proof.
  induction fuel as [|f IH]; intros z acc H; [exact H|]. rewrite z_digits_S.
  assert (H' : Forall digitc (zbyte (48 + z mod 10) :: acc)) by (constructor; [apply zbyte_digit|exact H]).
  destruct (z <? 10); [exact H'|]. now apply IH.
Qed.

Lemma z_digits_nonempty : forall fuel z acc, acc <> [] -> z_digits fuel z acc <> [].
Proof.
  induction fuel as [|f IH]; intros z acc H; [exact H|]. rewrite z_digits_S.
  destruct (z <? 10); [discriminate|]. apply IH. discriminate.
Qed.

Lemma dec_string_chars : forall z, Forall digitc (dec_string z).
Proof. intro z. unfold dec_string. apply z_digits_chars. constructor. Qed.

Lemma dec_string_nonempty : forall z, dec_string z <> [].
Proof.
  intro z. unfold dec_string. change 25%nat with (S 24). rewrite z_digits_S.
  destruct (z <? 10); [discriminate|]. apply z_digits_nonempty. discriminate.
Qed.

Lemma finish_eq : forall babs n0 c k,
  finish babs n0 c k =
  if roundtrips babs (strip_zeros 20 c)
       (n0 + (Z.of_nat (length (dec_string c)) - k) - Z.of_nat (length (dec_string (strip_zeros 20 c))))
  then Some (dec_string (strip_zeros 20 c), n0 + (Z.of_nat (length (dec_string c)) - k)) else None.
Proof. reflexivity. Qed.

(* what [shortest] returns: a digit string that was checked to parse back to the same double *)
Lemma finish_spec : forall babs n0 c k digs n,
  finish babs n0 c k = Some (digs, n) ->
  exists c', digs = dec_string c' /\ roundtrips babs c' (n - Z.of_nat (length digs)) = true.
Proof.
  intros babs n0 c k digs n. rewrite finish_eq.
  generalize (strip_zeros 20 c), (n0 + (Z.of_nat (length (dec_string c)) - k)). intros c' n1 H.
  destruct (roundtrips babs c' _) eqn:E in H; [|discriminate].
  injection H as <- <-. exists c'. split; [reflexivity|exact E].
Qed.

Lemma shortest_spec : forall babs m e expf digs n,
  shortest babs m e expf = Some (digs, n) ->
  exists c, digs = dec_string c /\ roundtrips babs c (n - Z.of_nat (length digs)) = true.
Proof.
  intros babs m e expf digs n. unfold shortest.
  generalize (shortest_search babs m e expf). intros [[[n0 c] k]|] H; [|discriminate].
  eapply finish_spec. exact H.
Qed.

Lemma zeros_chars : forall n, Forall digitc (zeros n).
Proof.
  intro n. unfold zeros. apply Forall_forall. intros c Hc. apply repeat_spec in Hc. subst.
  vm_compute. split; discriminate.
Qed.

Lemma layout_f_chars : forall digs n, Forall digitc digs -> digs <> [] ->
  Forall numchar (layout_f digs n) /\ layout_f digs n <> [].
Proof.
  intros digs n Hd Hne. unfold layout_f.
  assert (Hn : Forall numchar digs) by (eapply Forall_impl; [apply digitc_numchar|exact Hd]).
  assert (Hz : forall k, Forall numchar (zeros k)) by (intro k; eapply Forall_impl; [apply digitc_numchar|apply zeros_chars]).
  destruct (Z.of_nat (length digs) <=? n).
  - split; [apply Forall_app; split; [exact Hn|apply Hz]|]. destruct digs; [contradiction|discriminate].
  - destruct (0 <? n).
    + split.
      * rewrite <- (firstn_skipn (Z.to_nat n) digs) in Hn. apply Forall_app in Hn. destruct Hn as [H1 H2].
        apply Forall_app. split; [exact H1|]. apply Forall_app. split; [|exact H2].
        constructor; [right; left; reflexivity|constructor].
      * intro E. apply app_eq_nil in E. destruct E as [_ E]. discriminate.
    + split; [|discriminate]. cbn [app]. constructor; [left; vm_compute; split; discriminate|].
      constructor; [right; left; reflexivity|]. apply Forall_app. split; [apply Hz|exact Hn].
Qed.

Lemma layout_e_chars : forall digs n, Forall digitc digs ->
  Forall numchar (layout_e digs n) /\ layout_e digs n <> [].
Proof.
  intros digs n Hd. unfold layout_e.
  assert (Hn : Forall numchar digs) by (eapply Forall_impl; [apply digitc_numchar|exact Hd]).
  split.
  - apply Forall_app. split.
    + destruct digs as [|d [|d' r]]; [constructor|exact Hn|].
      inversion Hn; subst. constructor; [assumption|]. constructor; [right; left; reflexivity|assumption].
    + apply Forall_app. split; [constructor; [right; right; left; reflexivity|constructor]|].
      apply Forall_app. split.
      * destruct (0 <=? n - 1); (constructor; [|constructor]); [right; right; right; left|right; right; right; right]; reflexivity.
      * eapply Forall_impl; [apply digitc_numchar|apply dec_string_chars].
  - intro E. apply app_eq_nil in E. destruct E as [_ E]. discriminate.
Qed.

(* inversion of number_to_json: zero, or sign ++ layout of checked digits, read back as the same 64 bits *)
Lemma number_to_json_inv : forall b s,
  number_to_json b = Some s ->
  let z := Z.of_N b in
  (((z / two52) mod 2048 =? 0) && (z mod two52 =? 0) = true /\ s = [x30]) \/
  (((z / two52) mod 2048 =? 0) && (z mod two52 =? 0) = false /\
   exists c n p,
     s = (if (z / two63) mod 2 =? 1 then [x2d] else []) ++
         (if (z mod two63 <? bits_1e21) && (bits_1em6 <=? z mod two63)
          then layout_f (dec_string c) n else layout_e (dec_string c) n) /\
     parse_number s = Some p /\ Z.of_N p = z mod two64).
Proof.
  intros b s H z. unfold number_to_json in H. fold z in H.
  destruct ((z / two52) mod 2048 =? 2047); [discriminate|].
  destruct (((z / two52) mod 2048 =? 0) && (z mod two52 =? 0)).
  { left. inversion H. now split. }
  right. split; [reflexivity|].
  match type of H with
  | match ?sh with Some _ => _ | None => _ end = _ => destruct sh as [[digs n]|] eqn:Es; [|discriminate]
  end.
  apply shortest_spec in Es. destruct Es as [c [-> _]]. cbv zeta in H.
  match type of H with
  | match parse_number ?t with Some _ => _ | None => _ end = _ =>
    destruct (parse_number t) as [p|] eqn:Ep; [|discriminate]
  end.
  match type of H with (if ?q then _ else _) = _ => destruct q eqn:Eq; [|discriminate] end.
  inversion H; subst. apply Z.eqb_eq in Eq. exists c, n, p. split; [reflexivity|]. split; [exact Ep|exact Eq].
Qed.

(* every number text is a non-empty string over [0-9.e+-] *)
Theorem number_to_json_chars : forall b s, number_to_json b = Some s -> s <> [] /\ Forall numchar s.
Proof.
  intros b s H. apply number_to_json_inv in H. cbv zeta in H. destruct H as [[_ ->]|[_ [c [n [p [-> _]]]]]].
  { split; [discriminate|]. constructor; [left; vm_compute; split; discriminate|constructor]. }
  assert (Hl : forall fmt : bool, Forall numchar (if fmt then layout_f (dec_string c) n else layout_e (dec_string c) n)
                                  /\ (if fmt then layout_f (dec_string c) n else layout_e (dec_string c) n) <> []).
  { intros [|]; [apply layout_f_chars; [apply dec_string_chars|apply dec_string_nonempty]|apply layout_e_chars, dec_string_chars]. }
  match goal with |- context [if ?f && ?g then layout_f _ _ else _] => destruct (Hl (f && g)) as [H1 H2] end.
  split.
  - intro E. apply app_eq_nil in E. destruct E as [_ E]. contradiction.
  - apply Forall_app. split; [|exact H1].
    match goal with |- Forall _ (if ?neg then _ else _) => destruct neg end; [|constructor].
    constructor; [right; right; right; right; reflexivity|constructor].
Qed.

Lemma fields_spec : forall b, 0 <= b ->
  let expf := (b / two52) mod 2048 in
  let frac := b mod two52 in
  0 <= expf < 2048 /\ 0 <= frac < two52 /\ b mod two63 = expf * two52 + frac /\
  b mod two64 = ((b / two63) mod 2) * two63 + b mod two63 /\ 0 <= (b / two63) mod 2 < 2 /\ 0 <= b mod two63.
Proof.
  intros b Hb. cbv zeta.
  pose proof (Z.mod_pos_bound (b / two52) 2048 ltac:(lia)) as H1.
  pose proof (Z.mod_pos_bound b two52 ltac:(unfold two52; lia)) as H2.
  pose proof (Z.mod_pos_bound (b / two63) 2 ltac:(lia)) as H3.
  pose proof (Z.mod_pos_bound b two63 ltac:(unfold two63; lia)) as H4.
  split; [exact H1|]. split; [exact H2|]. split.
  - change two63 with (two52 * 2048). rewrite Z.rem_mul_r by (unfold two52; lia). lia.
  - split; [|split; [exact H3|lia]]. change two64 with (two63 * 2). rewrite Z.rem_mul_r by (unfold two63; lia). lia.
Qed.

(* the text printed for a (64-bit) double reads back as that double; zero loses its sign.  It holds by
   construction: number_to_json only returns a text that the model of ParseFloat reads back as the same bits
   (that this self-check rejects nothing is NumShortest.number_to_json_total). *)
Theorem number_roundtrip : forall b s,
  (b < 18446744073709551616)%N -> number_to_json b = Some s ->
  parse_number s = Some (if ((b =? 0) || (b =? 0x8000000000000000))%N then 0%N else b).
Proof.
  intros b s Hb H. apply number_to_json_inv in H. cbv zeta in H.
  assert (Hz : 0 <= Z.of_N b < two64) by (unfold two64; lia).
  destruct H as [[Hf ->]|[Hf [c [n [p [_ [Hp Hq]]]]]]].
  - apply andb_true_iff in Hf. destruct Hf as [H1 H2]. apply Z.eqb_eq in H1, H2.
    assert (Hk : Z.of_N b = 0 \/ Z.of_N b = two63).
    { pose proof (fields_spec (Z.of_N b) ltac:(lia)) as [_ [_ [F3 [F4 [F5 _]]]]]. cbv zeta in F3, F4.
      rewrite H1, H2 in F3. rewrite Z.mod_small in F4 by exact Hz. unfold two63 in *. lia. }
    destruct Hk as [Hk|Hk].
    + assert (b = 0%N) by lia. subst. reflexivity.
    + assert (b = 0x8000000000000000%N) by (unfold two63 in Hk; lia). subst. reflexivity.
  - rewrite Z.mod_small in Hq by exact Hz. apply N2Z.inj in Hq. subst p. rewrite Hp. f_equal.
    destruct ((b =? 0) || (b =? 0x8000000000000000))%N eqn:E; [|reflexivity].
    apply orb_true_iff in E. destruct E as [E|E]; apply N.eqb_eq in E; subst; vm_compute in Hf; discriminate.
Qed.

(* layout: which of the two ES6 forms is used is decided by comparing with the doubles 1e21 and 1e-6 *)
Lemma number_to_json_layout : forall b s,
  number_to_json b = Some s ->
  let z := Z.of_N b in
  ((z / two52) mod 2048 =? 0) && (z mod two52 =? 0) = false ->
  exists digs n,
    s = (if (z / two63) mod 2 =? 1 then [x2d] else []) ++
        (if (z mod two63 <? bits_1e21) && (bits_1em6 <=? z mod two63) then layout_f digs n else layout_e digs n).
Proof.
  intros b s H z Hz. apply number_to_json_inv in H. cbv zeta in H. fold z in H.
  destruct H as [[Hf _]|[_ [c [n [p [-> _]]]]]]; [rewrite Hf in Hz; discriminate|].
  now exists (dec_string c), n.
Qed.

Example switch_1e21 :
  map number_to_json [0x444B1AE4D6E2EF50; 0x444B1AE4D6E2EF4F; 0x444B1AE4D6E2EF51]%N
  = [Some (bytes_of_string "1e+21"); Some (bytes_of_string "999999999999999900000");
     Some (bytes_of_string "1.0000000000000001e+21")].
Proof. cbn [map]. rewrite num_ex2. vm_compute. reflexivity. Qed.

Example switch_1em6 :
  map number_to_json [0x3EB0C6F7A0B5ED8D; 0x3EB0C6F7A0B5ED8C; 0x3E7AD7F29ABCAF48]%N
  = [Some (bytes_of_string "0.000001"); Some (bytes_of_string "9.999999999999997e-7");
     Some (bytes_of_string "1e-7")].
Proof. vm_compute. reflexivity. Qed.

Example special_numbers :
  map number_to_json [0; 0x8000000000000000; 1; 0x7FEFFFFFFFFFFFFF; 0x7FF0000000000000; 0x7FF8000000000001;
                      0xFFF0000000000000; 0x4340000000000000; 0x3FD3333333333334; 0xC0934A0000000000]%N
  = [Some (bytes_of_string "0"); Some (bytes_of_string "0"); Some (bytes_of_string "5e-324");
     Some (bytes_of_string "1.7976931348623157e+308"); None; None; None;
     Some (bytes_of_string "9007199254740992"); Some (bytes_of_string "0.30000000000000004");
     Some (bytes_of_string "-1234.5")].
Proof. cbn [map]. rewrite num_ex1, num_ex3. vm_compute. reflexivity. Qed.

Example parse_rounding :
  map (fun s => parse_number (bytes_of_string s))
      ["9007199254740993"; "9007199254740995"; "1E400"; "-1e-400"; "2.4703282292062327e-324"; "2.4703282292062328e-324";
       "1.7976931348623158e308"; "1.797693134862315808e308"]%string
  = [Some 0x4340000000000000; Some 0x4340000000000002; None; Some 0x8000000000000000; Some 0; Some 1;
     Some 0x7FEFFFFFFFFFFFFF; None]%N.
Proof. vm_compute. reflexivity. Qed.

Lemma round_rat_bound : forall n d b, round_rat n d = Some b -> b < inf_bits.
Proof.
  intros n d b H. unfold round_rat in H. cbv zeta in H.
  match type of H with (if ?c then _ else _) = _ => destruct c eqn:E; [|discriminate] end.
  injection H as <-. apply Z.ltb_lt, E.
Qed.

Lemma signed_bound : forall neg x, x < inf_bits -> (signed neg x < 18446744073709551616)%N.
Proof. intros neg x H. unfold signed, inf_bits, two63 in *. destruct neg; lia. Qed.

Theorem parse_number_bound : forall tok b, parse_number tok = Some b -> (b < 18446744073709551616)%N.
Proof.
  (* every result is [signed neg x] with x = 0 or x a result of [round_rat], hence x < inf_bits *)
  intros tok b H. unfold parse_number in H. cbv zeta in H.
  destruct (map bZ tok) as [|c r]; [discriminate|].
  destruct (if c =? 43 then _ else _) as [neg s1]. destruct (match s1 with [] => _ | _ :: _ => _ end) as [hex s2].
  destruct (read_mant hex s2 mant0) as [st s3].
  match type of H with (if ?q then _ else _) = _ => destruct q; [discriminate|] end.
  match type of H with match ?q with Some _ => _ | None => _ end = _ => destruct q as [[[e us2] s4]|]; [|discriminate] end.
  destruct s4; [|discriminate].
  match type of H with (if ?q then _ else _) = _ => destruct q; [discriminate|] end.
  match type of H with (if ?q then _ else _) = _ => destruct q end.
  { inversion H. apply signed_bound. reflexivity. }
  match type of H with (if ?q then _ else _) = _ => destruct q end.
  - match type of H with (if ?q then _ else _) = _ => destruct q; [discriminate|] end.
    match type of H with (if ?q then _ else _) = _ => destruct q end.
    { inversion H. apply signed_bound. reflexivity. }
    match type of H with match ?q with Some _ => _ | None => _ end = _ => destruct q as [x|] eqn:E; [|discriminate] end.
    inversion H. apply signed_bound.
    match type of E with (if ?q then _ else _) = _ => destruct q end; eapply round_rat_bound; exact E.
  - match type of H with (if ?q then _ else _) = _ => destruct q; [discriminate|] end.
    match type of H with (if ?q then _ else _) = _ => destruct q end.
    { inversion H. apply signed_bound. reflexivity. }
    match type of H with match ?q with Some _ => _ | None => _ end = _ => destruct q as [x|] eqn:E; [|discriminate] end.
    inversion H. apply signed_bound. eapply round_rat_bound; exact E.
Qed.
