(* Model of jsoncanonicalizer.Transform (C07).  Definitions and examples.
   The Go code is a single-pass recursive-descent re-serializer with a sticky "first error" flag; every path on
   which the flag is set ends with a non-nil error, so the model is in the option monad (None = error) over the
   remaining input.  [parse_value] mirrors the scanner and produces the value (objects keep SOURCE order);
   [print_canonical] mirrors the emission side (decorateString, NumberToJSON, sorted insertion of members by
   UTF-16 sort key, "," / ":" separators).  [transform] is their composition; it is validated differentially
   against canonicalizer.MarshalCanonical.
   Quirks of the code that are modelled as they are:
   - only bytes read through nextChar are checked to be ASCII; bytes inside strings are copied verbatim, no
     UTF-8 validation (invalid sequences only matter for the sort key, where each bad byte is U+FFFD);
   - a \uXXXX escape with a surrogate value must be followed by another \uXXXX escape and the two must form a
     (high, low) pair: utf16.DecodeRune yielding U+FFFD is an error (commit 1d72439; before that repair a bad
     pair was silently accepted as U+FFFD);
   - the duplicate test compares sort keys (UTF-16 of the decoded runes), not the raw names;
   - number tokens are whatever strconv.ParseFloat accepts. *)
From Coq Require Import String List NArith ZArith Bool.
From Coq.Strings Require Import Byte.
From SV Require Import Base.Bytes Json.Ast Json.Utf Json.Num.
Import ListNotations.
Local Open Scope N_scope.

(* ---------- character classes ---------- *)
Definition is_ws (c : N) : bool := (c =? 0x20) || (c =? 0x0a) || (c =? 0x0d) || (c =? 0x09).

(* scan(): skip white space, return the next byte (must be ASCII) and the rest; None at EOF / non-ASCII *)
Fixpoint scan (s : bytes) : option (byte * bytes) :=
  match s with
  | [] => None
  | c :: r => if is_ws (bN c) then scan r else if 0x7f <? bN c then None else Some (c, r)
  end.

(* testNextNonWhiteSpaceChar(): the errors raised while peeking are sticky as well *)
Definition peek (s : bytes) : option N := option_map (fun p => bN (fst p)) (scan s).

(* scanFor(expected) *)
Definition scan_for (x : N) (s : bytes) : option bytes :=
  match scan s with
  | Some (c, r) => if bN c =? x then Some r else None
  | None => None
  end.

(* ---------- strings ---------- *)
Definition hexdig (c : N) : option N :=
  if (48 <=? c) && (c <=? 57) then Some (c - 48)
  else if (97 <=? c) && (c <=? 102) then Some (c - 87)
  else if (65 <=? c) && (c <=? 70) then Some (c - 55)
  else None.

(* getUEscape: strconv.ParseUint(4 bytes, 16, 64) *)
Definition hex4 (a b c d : byte) : option N :=
  match hexdig (bN a), hexdig (bN b), hexdig (bN c), hexdig (bN d) with
  | Some x, Some y, Some z, Some w => Some (x * 4096 + y * 256 + z * 16 + w)
  | _, _, _, _ => None
  end.

(* the JSON standard escapes: asciiEscapes -> binaryEscapes *)
Definition unescape (c : N) : option byte :=
  if c =? 0x5c then Some x5c        (* backslash *)
  else if c =? 0x22 then Some x22   (* quote *)
  else if c =? 0x62 then Some x08   (* \b *)
  else if c =? 0x66 then Some x0c   (* \f *)
  else if c =? 0x6e then Some x0a   (* \n *)
  else if c =? 0x72 then Some x0d   (* \r *)
  else if c =? 0x74 then Some x09   (* \t *)
  else None.

(* parseQuotedString, after the opening quote; acc is the reversed raw string *)
Fixpoint parse_string (s : bytes) (acc : bytes) : option (bytes * bytes) :=
  match s with
  | [] => None                                                (* Unexpected EOF reached *)
  | c :: r =>
    if bN c =? 0x22 then Some (rev acc, r)
    else if bN c <? 0x20 then None                            (* Unterminated string literal *)
    else if bN c =? 0x5c then
      match r with
      | [] => None
      | e :: r1 =>
        if bN e =? 0x75 then                                  (* \u *)
          match r1 with
          | h1 :: h2 :: h3 :: h4 :: r2 =>
            match hex4 h1 h2 h3 h4 with
            | None => None
            | Some u1 =>
              if is_surrogate u1 then
                match r2 with
                | b :: u :: k1 :: k2 :: k3 :: k4 :: r3 =>
                  if (bN b =? 0x5c) && (bN u =? 0x75) then
                    match hex4 k1 k2 k3 k4 with
                    | None => None
                    | Some u2 =>
                      if utf16_decode_pair u1 u2 =? rune_error then None     (* Invalid surrogate pair *)
                      else parse_string r3 (rev_append (utf8_encode (utf16_decode_pair u1 u2)) acc)
                    end
                  else None                                   (* Missing surrogate *)
                | _ => None
                end
              else parse_string r2 (rev_append (utf8_encode u1) acc)
            end
          | _ => None
          end
        else if bN e =? 0x2f then parse_string r1 (x2f :: acc)
        else match unescape (bN e) with
             | Some x => parse_string r1 (x :: acc)
             | None => None                                   (* Unexpected escape *)
             end
      end
    else parse_string r (c :: acc)
  end.

(* ---------- simple types ---------- *)
Definition is_term (c : N) : bool := (c =? 0x2c) || (c =? 0x5d) || (c =? 0x7d).

(* the token loop of parseSimpleType, started at the first byte of the token *)
Fixpoint token_loop (s : bytes) (acc : bytes) : option (bytes * bytes) :=
  match scan s with
  | None => None
  | Some (c, _) =>
    if is_term (bN c) then Some (rev acc, s)
    else match s with
         | [] => None
         | d :: r =>
           if 0x7f <? bN d then None
           else if is_ws (bN d) then Some (rev acc, r)
           else token_loop r (d :: acc)
         end
  end.

Definition lit_true : bytes := bs "true".
Definition lit_false : bytes := bs "false".
Definition lit_null : bytes := bs "null".

Definition simple_value (tok : bytes) : option json :=
  match tok with
  | [] => None                                                (* Missing argument *)
  | _ =>
    if bytes_eqb tok lit_true then Some (JBool true)
    else if bytes_eqb tok lit_false then Some (JBool false)
    else if bytes_eqb tok lit_null then Some JNull
    else match parse_number tok with
         | Some b => match number_to_json b with Some _ => Some (JNum b) | None => None end
         | None => None
         end
  end.

(* ---------- duplicate test on sort keys ---------- *)
Fixpoint key_mem (k : list N) (m : list (bytes * json)) : bool :=
  match m with
  | [] => false
  | (k', _) :: r => key_eqb k (utf16_key k') || key_mem k r
  end.

(* ---------- elements, arrays, objects ---------- *)
(* One worker for parseElement / the loop of parseArray / the loop of parseObject; every call uses one unit of
   fuel.  [next] is the Go variable of the same name, [acc] the reversed list of what has been parsed. *)
Inductive mode :=
| MElem
| MArr (next : bool) (acc : list json)
| MObj (next : bool) (acc : list (bytes * json)).

Fixpoint parse (fuel : nat) (m : mode) (s : bytes) : option (json * bytes) :=
  match fuel with
  | O => None
  | S f =>
    match m with
    | MElem =>
      match scan s with
      | None => None
      | Some (c, r) =>
        if bN c =? 0x7b then parse f (MObj false []) r
        else if bN c =? 0x22 then
          match parse_string r [] with
          | Some (str, r') => Some (JStr str, r')
          | None => None
          end
        else if bN c =? 0x5b then parse f (MArr false []) r
        else
          match token_loop (c :: r) [] with      (* index--: the token starts at the byte just scanned *)
          | None => None
          | Some (tok, r') =>
            match simple_value tok with
            | Some v => Some (v, r')
            | None => None
            end
          end
      end
    | MArr next acc =>
      match scan s with
      | None => None
      | Some (c, r) =>
        if bN c =? 0x5d then Some (JArr (rev acc), r)
        else
          match (if next then scan_for 0x2c s else Some s) with
          | None => None
          | Some s1 =>
            match parse f MElem s1 with
            | None => None
            | Some (v, s2) => parse f (MArr true (v :: acc)) s2
            end
          end
      end
    | MObj next acc =>
      match scan s with
      | None => None
      | Some (c, r) =>
        if bN c =? 0x7d then Some (JObj (rev acc), r)
        else
          match (if next then scan_for 0x2c s else Some s) with
          | None => None
          | Some s1 =>
            match scan_for 0x22 s1 with
            | None => None
            | Some s2 =>
              match parse_string s2 [] with
              | None => None
              | Some (k, s3) =>
                match scan_for 0x3a s3 with
                | None => None
                | Some s4 =>
                  match parse f MElem s4 with
                  | None => None
                  | Some (v, s5) =>
                    if key_mem (utf16_key k) acc then None        (* Duplicate key *)
                    else parse f (MObj true ((k, v) :: acc)) s5
                  end
                end
              end
            end
          end
      end
    end
  end.

Definition all_ws (s : bytes) : bool := forallb (fun c => is_ws (bN c)) s.

Definition parse_fuel (b : bytes) : nat := 2 * length b + 4.

(* Transform proper: array or object at the top, then only white space *)
Definition parse_value (b : bytes) : option json :=
  match scan b with
  | None => None
  | Some (c, r) =>
    match (if bN c =? 0x5b then parse (parse_fuel b) (MArr false []) r
           else if bN c =? 0x7b then parse (parse_fuel b) (MObj false []) r
           else None) with
    | None => None
    | Some (v, rest) => if all_ws rest then Some v else None      (* Improperly terminated JSON object *)
    end
  end.

(* ---------- emission ---------- *)
Definition hexlow (n : N) : byte := byte_of_N (if n <? 10 then 48 + n else 87 + n).

(* decorateString, one byte *)
Definition escape_byte (c : byte) : bytes :=
  let n := bN c in
  if n =? 0x5c then [x5c; x5c]
  else if n =? 0x22 then [x5c; x22]
  else if n =? 0x08 then [x5c; x62]
  else if n =? 0x0c then [x5c; x66]
  else if n =? 0x0a then [x5c; x6e]
  else if n =? 0x0d then [x5c; x72]
  else if n =? 0x09 then [x5c; x74]
  else if n <? 0x20 then [x5c; x75; x30; x30; hexlow (n / 16); hexlow (n mod 16)]
  else [c].

Definition decorate (s : bytes) : bytes := x22 :: flat_map escape_byte s ++ [x22].

(* the sorting loop of parseObject: walk from the front, insert before the first member whose key is larger
   (lexicographicallyPrecedes); members are (name, serialized value) *)
Fixpoint insert_kv (k : bytes) (v : bytes) (l : list (bytes * bytes)) : list (bytes * bytes) :=
  match l with
  | [] => [(k, v)]
  | (k', v') :: r =>
    if key_ltb (utf16_key k) (utf16_key k') then (k, v) :: l else (k', v') :: insert_kv k v r
  end.

Definition sort_members (m : list (bytes * bytes)) : list (bytes * bytes) :=
  fold_left (fun acc kv => insert_kv (fst kv) (snd kv) acc) m [].

Fixpoint join_comma (l : list bytes) : bytes :=
  match l with
  | [] => []
  | [x] => x
  | x :: r => x ++ x2c :: join_comma r
  end.

Definition print_member (kv : bytes * bytes) : bytes := decorate (fst kv) ++ x3a :: snd kv.

Fixpoint print_canonical (j : json) : bytes :=
  match j with
  | JNull => lit_null
  | JBool true => lit_true
  | JBool false => lit_false
  | JNum b => match number_to_json b with Some s => s | None => lit_null end
  | JStr s => decorate s
  | JArr l => x5b :: join_comma (map print_canonical l) ++ [x5d]
  | JObj m =>
    x7b :: join_comma (map print_member
                           (sort_members (map (fun kv => let '(k, v) := kv in (k, print_canonical v)) m)))
        ++ [x7d]
  end.

Definition transform (input : bytes) : option bytes := option_map print_canonical (parse_value input).

Example transform_ex1 :
  transform (bs "{ ""b"" : [1.0, true, null, ""€\/""], ""a"":-0 }")
  = Some (bs "{""a"":0,""b"":[1,true,null,""" ++ [xe2; x82; xac] ++ bs "/""]}").
Proof. vm_compute. reflexivity. Qed.
Example transform_dup : transform (bs "{""a"":1,""a"":2}") = None.
Proof. vm_compute. reflexivity. Qed.
Example transform_scalar : transform (bs "1") = None.
Proof. vm_compute. reflexivity. Qed.
