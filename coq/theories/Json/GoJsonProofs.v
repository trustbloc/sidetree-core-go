(* Theorems about the model of Go's JSON decoders (Json/GoJson.v).
   1. lengths: every lexer / parser function returns a strict suffix (in length) of its input
   2. fuel: more fuel never changes a result; [go_fuel] is enough for every input (totality of [go_parse] in the
      sense that None always means "rejected", never "out of fuel")
   3. strings: the text decorateString produces for a valid UTF-8 string is read back as that string (no U+FFFD)
   4. round trip: the JCS text of a value is decoded to that value (numbers: side condition [num_ok], which
      NumShortest.finite_num_ok proves for every finite double)
   5. the side conditions of 4 as a computable check
   6. [go_parse]: any larger amount of fuel, leading white space *)
From Coq Require Import String List NArith Bool Lia Permutation Sorted.
From Coq.Strings Require Import Byte.
From SV Require Import Base.Bytes Base.BytesFacts Json.Ast Json.Utf Json.Num Json.Jcs Json.JcsProofs Json.GoJson Json.NumLex.
Import ListNotations.
Local Open Scope N_scope.

(** * 1. Lengths *)

Lemma rev'_rev : forall {A} (l : list A), rev' l = rev l.
Proof. intros A l. unfold rev'. now rewrite <- rev_alt. Qed.

Lemma skip_ws_len : forall s, (length (skip_ws s) <= length s)%nat.
Proof.
  induction s as [|c r IH]; [cbn; lia|]. cbn [skip_ws]. destruct (is_space c); cbn [length] in *; lia.
Qed.

Lemma skip_ws_cons_len : forall s c r, skip_ws s = c :: r -> (length r < length s)%nat.
Proof. intros s c r H. pose proof (skip_ws_len s) as L. rewrite H in L. cbn [length] in L. lia. Qed.

Lemma lex_string_len : forall s acc k r, lex_string s acc = Some (k, r) -> (length r < length s)%nat.
Proof.
  assert (G : forall n s acc k r, (length s <= n)%nat -> lex_string s acc = Some (k, r) -> (length r < length s)%nat).
  { induction n as [|n IH]; intros s acc k r Hn H.
    - destruct s; [discriminate | cbn in Hn; lia].
    - destruct s as [|c s0]; [discriminate|]. cbn [lex_string] in H. cbn [length] in Hn.
      (* every branch of one step stops after the closing quote or calls [lex_string] on a proper suffix of [s]:
         the tests of the step are taken apart one by one until the hypothesis is of one of these two forms *)
      repeat match type of H with
             | Some _ = Some _ => inversion H; subst; cbn [length]; lia
             | lex_string ?x ?a = Some _ =>
               let L := fresh "L" in
               assert (L : (length r < length x)%nat) by (apply (IH x a k r); [subst; cbn [length] in *; lia | exact H]);
               subst; cbn [length] in *; lia
             | (match ?x with _ => _ end) = Some _ => destruct x eqn:?; try discriminate; subst
             end. }
  intros s acc k r H. exact (G _ s acc k r (le_n _) H).
Qed.

(* The number lexer returns a suffix of its input, and a complete token is not changed by what follows it, as long as
   that cannot continue the token (the three terminators of a value inside a container cannot). *)
Definition not_numchar (t : byte) : Prop :=
  is_digit_b t = false /\ (bN t =? 0x2e) = false /\ ((bN t =? 0x65) || (bN t =? 0x45)) = false.

Lemma term_not_numchar : forall t, is_term (bN t) = true -> not_numchar t.
Proof.
  intros t H. apply is_term_cases in H. destruct H as [->|[->| ->]]; repeat split; reflexivity.
Qed.

Lemma take_digits_ok : forall s acc acc' s', take_digits s acc = (acc', s') ->
  (length s' <= length s)%nat /\
  forall t r, is_digit_b t = false -> take_digits (s ++ t :: r) acc = (acc', s' ++ t :: r).
Proof.
  induction s as [|c s0 IH]; intros acc acc' s' H; cbn [take_digits app] in *.
  - inversion H; subst. split; [lia|]. intros t r Ht. now rewrite Ht.
  - destruct (is_digit_b c).
    + destruct (IH _ _ _ H) as [L F]. split; [cbn [length]; lia|exact F].
    + inversion H; subst. split; [lia|reflexivity].
Qed.

Lemma lex_exp_ok : forall acc s tok s', lex_exp acc s = Some (tok, s') ->
  (length s' <= length s)%nat /\
  forall t r, not_numchar t -> lex_exp acc (s ++ t :: r) = Some (tok, s' ++ t :: r).
Proof.
  intros acc s tok s' H. unfold lex_exp in *. destruct s as [|e s0]; cbn [app].
  - inversion H; subst. split; [lia|]. intros t r [_ [_ He]]. now rewrite He.
  - destruct ((bN e =? 0x65) || (bN e =? 0x45)); [|inversion H; subst; split; [lia|reflexivity]].
    destruct s0 as [|sg r']; [discriminate|]. cbn [app].
    destruct ((bN sg =? 0x2b) || (bN sg =? 0x2d)).
    + destruct r' as [|d r2]; [discriminate|]. cbn [app]. destruct (is_digit_b d); [|discriminate].
      destruct (take_digits r2 (d :: sg :: e :: acc)) as [acc2 s2] eqn:E. destruct (take_digits_ok _ _ _ _ E) as [L F].
      inversion H; subst. split; [cbn [length]; lia|]. intros t r [Hd _]. now rewrite (F t r Hd).
    + destruct (is_digit_b sg); [|discriminate].
      destruct (take_digits r' (sg :: e :: acc)) as [acc2 s2] eqn:E. destruct (take_digits_ok _ _ _ _ E) as [L F].
      inversion H; subst. split; [cbn [length]; lia|]. intros t r [Hd _]. now rewrite (F t r Hd).
Qed.

Lemma lex_frac_ok : forall acc s tok s', lex_frac acc s = Some (tok, s') ->
  (length s' <= length s)%nat /\
  forall t r, not_numchar t -> lex_frac acc (s ++ t :: r) = Some (tok, s' ++ t :: r).
Proof.
  intros acc s tok s' H. unfold lex_frac in *. destruct s as [|p s0]; cbn [app].
  - destruct (lex_exp_ok _ _ _ _ H) as [L F]. split; [exact L|]. intros t r Hn. rewrite (proj1 (proj2 Hn)). exact (F t r Hn).
  - destruct (bN p =? 0x2e); [|exact (lex_exp_ok _ _ _ _ H)].
    destruct s0 as [|d r']; [discriminate|]. cbn [app]. destruct (is_digit_b d); [|discriminate].
    destruct (take_digits r' (d :: p :: acc)) as [acc' s1] eqn:E. destruct (take_digits_ok _ _ _ _ E) as [L1 F1].
    destruct (lex_exp_ok _ _ _ _ H) as [L F]. split; [cbn [length]; lia|].
    intros t r Hn. rewrite (F1 t r (proj1 Hn)). exact (F t r Hn).
Qed.

Lemma lex_number_ok : forall s tok s', lex_number s = Some (tok, s') ->
  (length s' < length s)%nat /\
  forall t r, not_numchar t -> lex_number (s ++ t :: r) = Some (tok, s' ++ t :: r).
Proof.
  intros s tok s' H. unfold lex_number in *. destruct s as [|c s0]; [discriminate|]. cbn [app].
  destruct (bN c =? 0x2d).
  - destruct s0 as [|c1 s1]; [discriminate|]. cbn [app]. destruct (bN c1 =? 0x30).
    + destruct (lex_frac_ok _ _ _ _ H) as [L F]. split; [cbn [length]; lia|exact F].
    + destruct (is_digit_b c1); [|discriminate]. destruct (take_digits s1 [c1; c]) as [acc1 s2] eqn:E.
      destruct (take_digits_ok _ _ _ _ E) as [L1 F1]. destruct (lex_frac_ok _ _ _ _ H) as [L F].
      split; [cbn [length]; lia|]. intros t r Hn. rewrite (F1 t r (proj1 Hn)). exact (F t r Hn).
  - destruct (bN c =? 0x30).
    + destruct (lex_frac_ok _ _ _ _ H) as [L F]. split; [cbn [length]; lia|exact F].
    + destruct (is_digit_b c); [|discriminate]. destruct (take_digits s0 [c]) as [acc1 s2] eqn:E.
      destruct (take_digits_ok _ _ _ _ E) as [L1 F1]. destruct (lex_frac_ok _ _ _ _ H) as [L F].
      split; [cbn [length]; lia|]. intros t r Hn. rewrite (F1 t r (proj1 Hn)). exact (F t r Hn).
Qed.

Lemma pvalue_eq : forall f lim d s,
  pvalue (S f) lim d s =
  match skip_ws s with
  | [] => None
  | c :: r =>
    let n := bN c in
    if n =? 0x7b then (if depth_ok lim (d + 1) then pmembers f lim (d + 1) true [] r else None)
    else if n =? 0x5b then (if depth_ok lim (d + 1) then pelems f lim (d + 1) true [] r else None)
    else if n =? 0x22 then
      match lex_string r [] with
      | Some (str, r') => Some (GStr str, r')
      | None => None
      end
    else if n =? 0x74 then
      match r with
      | a :: b :: e :: r' => if (bN a =? 0x72) && (bN b =? 0x75) && (bN e =? 0x65) then Some (GBool true, r') else None
      | _ => None
      end
    else if n =? 0x66 then
      match r with
      | a :: b :: e :: g :: r' =>
        if (bN a =? 0x61) && (bN b =? 0x6c) && (bN e =? 0x73) && (bN g =? 0x65) then Some (GBool false, r') else None
      | _ => None
      end
    else if n =? 0x6e then
      match r with
      | a :: b :: e :: r' => if (bN a =? 0x75) && (bN b =? 0x6c) && (bN e =? 0x6c) then Some (GNull, r') else None
      | _ => None
      end
    else
      match lex_number (c :: r) with
      | Some (tok, r') => Some (GNum tok, r')
      | None => None
      end
  end.
Proof. reflexivity. Qed.

Lemma pelems_eq : forall f lim d first acc s,
  pelems (S f) lim d first acc s =
  match skip_ws s with
  | [] => None
  | c :: r =>
    if first && (bN c =? 0x5d) then Some (GArr [], r)
    else
      match pvalue f lim d (c :: r) with
      | None => None
      | Some (v, s1) =>
        match skip_ws s1 with
        | c1 :: r1 =>
          if bN c1 =? 0x2c then pelems f lim d false (v :: acc) r1
          else if bN c1 =? 0x5d then Some (GArr (rev' (v :: acc)), r1)
          else None
        | [] => None
        end
      end
  end.
Proof. reflexivity. Qed.

Lemma pmembers_eq : forall f lim d first acc s,
  pmembers (S f) lim d first acc s =
  match skip_ws s with
  | [] => None
  | c :: r =>
    if first && (bN c =? 0x7d) then Some (GObj [], r)
    else if bN c =? 0x22 then
      match lex_string r [] with
      | None => None
      | Some (k, s1) =>
        match skip_ws s1 with
        | c1 :: r1 =>
          if bN c1 =? 0x3a then
            match pvalue f lim d r1 with
            | None => None
            | Some (v, s2) =>
              match skip_ws s2 with
              | c2 :: r2 =>
                if bN c2 =? 0x2c then pmembers f lim d false ((k, v) :: acc) r2
                else if bN c2 =? 0x7d then Some (GObj (rev' ((k, v) :: acc)), r2)
                else None
              | [] => None
              end
            end
          else None
        | [] => None
        end
      end
    else None
  end.
Proof. reflexivity. Qed.

(* a successful run of any of the three parsers returns a strictly shorter rest, and every run with at least as much
   fuel, or with [2 * length s + 2] units (one less for a value), gives the same result *)
Lemma parse_ok_all : forall f,
  (forall lim d s v r, pvalue f lim d s = Some (v, r) -> forall f', (f <= f' \/ 2 * length s + 1 <= f')%nat ->
     (length r < length s)%nat /\ pvalue f' lim d s = Some (v, r)) /\
  (forall lim d first acc s v r, pelems f lim d first acc s = Some (v, r) ->
     forall f', (f <= f' \/ 2 * length s + 2 <= f')%nat ->
     (length r < length s)%nat /\ pelems f' lim d first acc s = Some (v, r)) /\
  (forall lim d first acc s v r, pmembers f lim d first acc s = Some (v, r) ->
     forall f', (f <= f' \/ 2 * length s + 2 <= f')%nat ->
     (length r < length s)%nat /\ pmembers f' lim d first acc s = Some (v, r)).
Proof.
  induction f as [|f [IHv [IHe IHm]]]; [split; [|split]; intros; discriminate|].
  split; [|split].
  - intros lim d s v r H [|f'] Hf; [lia|]. rewrite pvalue_eq in H |- *.
    destruct (skip_ws s) as [|c r0] eqn:Es; [discriminate|]. apply skip_ws_cons_len in Es. cbn zeta in *.
    destruct (bN c =? 0x7b).
    { destruct (depth_ok lim (d + 1)); [|discriminate]. destruct (IHm _ _ _ _ _ _ _ H f') as [L M]; [lia|]. split; [lia|exact M]. }
    destruct (bN c =? 0x5b).
    { destruct (depth_ok lim (d + 1)); [|discriminate]. destruct (IHe _ _ _ _ _ _ _ H f') as [L M]; [lia|]. split; [lia|exact M]. }
    (* the scalar cases do not use the fuel *)
    split; [|exact H].
    destruct (bN c =? 0x22).
    { destruct (lex_string r0 []) as [[str r']|] eqn:El; [|discriminate]. inversion H; subst.
      apply lex_string_len in El. lia. }
    destruct (bN c =? 0x74).
    { destruct r0 as [|a [|b [|e r']]]; try discriminate.
      destruct ((bN a =? 0x72) && (bN b =? 0x75) && (bN e =? 0x65)); [|discriminate]. inversion H; subst. cbn [length] in Es. lia. }
    destruct (bN c =? 0x66).
    { destruct r0 as [|a [|b [|e [|g r']]]]; try discriminate.
      destruct ((bN a =? 0x61) && (bN b =? 0x6c) && (bN e =? 0x73) && (bN g =? 0x65)); [|discriminate].
      inversion H; subst. cbn [length] in Es. lia. }
    destruct (bN c =? 0x6e).
    { destruct r0 as [|a [|b [|e r']]]; try discriminate.
      destruct ((bN a =? 0x75) && (bN b =? 0x6c) && (bN e =? 0x6c)); [|discriminate]. inversion H; subst. cbn [length] in Es. lia. }
    destruct (lex_number (c :: r0)) as [[tok r']|] eqn:El; [|discriminate]. inversion H; subst.
    apply lex_number_ok in El. cbn [length] in El. lia.
  - intros lim d first acc s v r H [|f'] Hf; [lia|]. rewrite pelems_eq in H |- *.
    destruct (skip_ws s) as [|c r0] eqn:Es; [discriminate|]. apply skip_ws_cons_len in Es.
    destruct (first && (bN c =? 0x5d)); [split; [inversion H; subst; lia|exact H]|].
    destruct (pvalue f lim d (c :: r0)) as [[v0 s1]|] eqn:Ev; [|discriminate].
    destruct (IHv _ _ _ _ _ Ev f') as [Lv Mv]; [cbn [length]; lia|]. rewrite Mv. cbn [length] in Lv.
    destruct (skip_ws s1) as [|c1 r1] eqn:Es1; [discriminate|]. apply skip_ws_cons_len in Es1.
    destruct (bN c1 =? 0x2c); [destruct (IHe _ _ _ _ _ _ _ H f') as [L M]; [lia|]; split; [lia|exact M]|].
    split; [|exact H]. destruct (bN c1 =? 0x5d); [|discriminate]. inversion H; subst. lia.
  - intros lim d first acc s v r H [|f'] Hf; [lia|]. rewrite pmembers_eq in H |- *.
    destruct (skip_ws s) as [|c r0] eqn:Es; [discriminate|]. apply skip_ws_cons_len in Es.
    destruct (first && (bN c =? 0x7d)); [split; [inversion H; subst; lia|exact H]|].
    destruct (bN c =? 0x22); [|discriminate].
    destruct (lex_string r0 []) as [[k s1]|] eqn:El; [|discriminate]. apply lex_string_len in El.
    destruct (skip_ws s1) as [|c1 r1] eqn:Es1; [discriminate|]. apply skip_ws_cons_len in Es1.
    destruct (bN c1 =? 0x3a); [|discriminate].
    destruct (pvalue f lim d r1) as [[v0 s2]|] eqn:Ev; [|discriminate].
    destruct (IHv _ _ _ _ _ Ev f') as [Lv Mv]; [lia|]. rewrite Mv.
    destruct (skip_ws s2) as [|c2 r2] eqn:Es2; [discriminate|]. apply skip_ws_cons_len in Es2.
    destruct (bN c2 =? 0x2c); [destruct (IHm _ _ _ _ _ _ _ H f') as [L M]; [lia|]; split; [lia|exact M]|].
    split; [|exact H]. destruct (bN c2 =? 0x7d); [|discriminate]. inversion H; subst. lia.
Qed.

Lemma pvalue_len : forall f lim d s v r, pvalue f lim d s = Some (v, r) -> (length r < length s)%nat.
Proof. intros f lim d s v r H. apply (proj1 (parse_ok_all f) _ _ _ _ _ H f). now left. Qed.

(** * 2. Fuel *)

Lemma pvalue_refuel : forall f f' lim d s x,
  pvalue f lim d s = Some x -> (f <= f' \/ 2 * length s + 1 <= f')%nat -> pvalue f' lim d s = Some x.
Proof. intros f f' lim d s [v r] H Hf. apply (proj1 (parse_ok_all f) _ _ _ _ _ H f' Hf). Qed.

(* fuel sufficiency: any amount of fuel above [go_fuel b] gives the result [go_parse] computes; so a None of
   [go_parse] is a rejection by the grammar (or the depth limit), never an exhausted counter *)
Theorem go_fuel_suffices : forall b lim d s k,
  (length s <= length b)%nat -> pvalue (go_fuel b + k) lim d s = pvalue (go_fuel b) lim d s.
Proof.
  intros b lim d s k Hs. destruct (pvalue (go_fuel b) lim d s) as [x|] eqn:E.
  - apply (pvalue_refuel _ _ _ _ _ _ E). left. lia.
  - destruct (pvalue (go_fuel b + k) lim d s) as [x|] eqn:E'; [|reflexivity].
    rewrite <- E. symmetry. apply (pvalue_refuel _ _ _ _ _ _ E'). right. unfold go_fuel. lia.
Qed.

(* more fuel never turns an answer into another one *)
Theorem pvalue_mono : forall f lim d s x k, pvalue f lim d s = Some x -> pvalue (f + k) lim d s = Some x.
Proof. intros f lim d s x k H. apply (pvalue_refuel _ _ _ _ _ _ H). left. lia. Qed.

(** * 3. Strings: valid UTF-8 is read back unchanged *)

(* well-formed UTF-8 (the table of utf8.DecodeRune, as in Utf.decode_runes) *)
Fixpoint utf8_validb (s : bytes) : bool :=
  match s with
  | [] => true
  | c0 :: r0 =>
    let b0 := bN c0 in
    if b0 <? 0x80 then utf8_validb r0
    else if (b0 <? 0xC2) || (0xF4 <? b0) then false
    else if b0 <? 0xE0 then
      match r0 with
      | c1 :: r1 => is_cont (bN c1) && utf8_validb r1
      | [] => false
      end
    else if b0 <? 0xF0 then
      match r0 with
      | c1 :: c2 :: r2 => second_ok b0 (bN c1) && is_cont (bN c2) && utf8_validb r2
      | _ => false
      end
    else
      match r0 with
      | c1 :: c2 :: c3 :: r3 => second_ok b0 (bN c1) && is_cont (bN c2) && is_cont (bN c3) && utf8_validb r3
      | _ => false
      end
  end.

(* one ASCII byte of decorateString is read back as that byte (128 cases by computation) *)
Lemma lex_string_step_ascii : forall c rest acc,
  (bN c <? 0x80) = true -> lex_string (escape_byte c ++ rest) acc = lex_string rest (c :: acc).
Proof. intros c rest acc H. destruct c; try discriminate H; reflexivity. Qed.

Lemma escape_byte_high : forall c, (bN c <? 0x80) = false -> escape_byte c = [c].
Proof. intros c H. destruct c; try discriminate H; reflexivity. Qed.

Lemma bN_lt_256 : forall c, bN c < 256.
Proof. intro c. destruct c; reflexivity. Qed.

(* the head tests of lex_string on a byte >= 0x80 *)
Lemma lex_string_high : forall c r acc, (bN c <? 0x80) = false ->
  lex_string (c :: r) acc =
  let n := bN c in
  if (n <? 0xC2) || (0xF4 <? n) then lex_string r (push_fffd acc)
  else if n <? 0xE0 then
    match r with
    | c1 :: r1 => if is_cont (bN c1) then lex_string r1 (c1 :: c :: acc) else lex_string r (push_fffd acc)
    | [] => None
    end
  else if n <? 0xF0 then
    match r with
    | c1 :: c2 :: r2 =>
      if second_ok n (bN c1) && is_cont (bN c2) then lex_string r2 (c2 :: c1 :: c :: acc)
      else lex_string r (push_fffd acc)
    | _ => lex_string r (push_fffd acc)
    end
  else
    match r with
    | c1 :: c2 :: c3 :: r3 =>
      if second_ok n (bN c1) && is_cont (bN c2) && is_cont (bN c3) then lex_string r3 (c3 :: c2 :: c1 :: c :: acc)
      else lex_string r (push_fffd acc)
    | _ => lex_string r (push_fffd acc)
    end.
Proof.
  intros c r acc H. apply N.ltb_ge in H. cbn [lex_string].
  assert (E1 : (bN c =? 0x22) = false) by (apply N.eqb_neq; lia).
  assert (E2 : (bN c <? 0x20) = false) by (apply N.ltb_ge; lia).
  assert (E3 : (bN c =? 0x5c) = false) by (apply N.eqb_neq; lia).
  assert (E4 : (bN c <? 0x80) = false) by (apply N.ltb_ge; lia).
  rewrite E1, E2, E3, E4. reflexivity.
Qed.

(* continuation and second bytes are not ASCII, so decorateString leaves them alone *)
Lemma is_cont_high : forall n, is_cont n = true -> (n <? 0x80) = false.
Proof. intros n H. unfold is_cont in H. apply andb_true_iff in H. destruct H as [H _]. apply N.leb_le in H. apply N.ltb_ge. lia. Qed.

Lemma second_ok_high : forall b0 n, second_ok b0 n = true -> (n <? 0x80) = false.
Proof.
  intros b0 n H. unfold second_ok in H.
  repeat match type of H with (if ?b then _ else _) = true => destruct b end; try (now apply is_cont_high);
    apply andb_true_iff in H; destruct H as [H _]; apply N.leb_le in H; apply N.ltb_ge; lia.
Qed.

(* decorateString of a valid UTF-8 string, closing quote, anything: the string and the rest *)
Theorem lex_string_decorate : forall s rest acc, utf8_validb s = true ->
  lex_string (flat_map escape_byte s ++ x22 :: rest) acc = Some (rev acc ++ s, rest).
Proof.
  intro s. assert (Hn : (length s <= length s)%nat) by lia. revert Hn. generalize (length s) at 2 as n. intro n. revert s.
  induction n as [|n IH]; intros s Hn rest acc Hv; (destruct s as [|c0 r0];
    [cbn [flat_map app lex_string]; change (bN x22 =? 0x22) with true; cbn match; now rewrite rev'_rev, app_nil_r|]);
    cbn [length] in Hn; [lia|].
  cbn [utf8_validb] in Hv. cbn zeta in Hv. cbn [flat_map]. rewrite <- app_assoc.
  destruct (bN c0 <? 0x80) eqn:E0.
  { rewrite lex_string_step_ascii by exact E0. rewrite IH by (try assumption; lia).
    cbn [rev]. now rewrite <- app_assoc. }
  rewrite (escape_byte_high _ E0). cbn [app]. rewrite lex_string_high by exact E0. cbn zeta.
  destruct ((bN c0 <? 0xC2) || (0xF4 <? bN c0)); [discriminate|].
  destruct (bN c0 <? 0xE0).
  { destruct r0 as [|c1 r1]; [discriminate|]. apply andb_true_iff in Hv. destruct Hv as [Hc1 Hv].
    cbn [flat_map]. rewrite (escape_byte_high _ (is_cont_high _ Hc1)). cbn [app]. rewrite Hc1.
    cbn [length] in Hn. rewrite IH by (try assumption; lia). cbn [rev]. now rewrite <- !app_assoc. }
  destruct (bN c0 <? 0xF0).
  { destruct r0 as [|c1 [|c2 r2]]; try discriminate. rewrite !andb_true_iff in Hv. destruct Hv as [[Hc1 Hc2] Hr].
    cbn [flat_map]. rewrite (escape_byte_high _ (second_ok_high _ _ Hc1)), (escape_byte_high _ (is_cont_high _ Hc2)).
    cbn [app]. rewrite Hc1, Hc2. cbn [andb length] in *. rewrite IH by (try assumption; lia). cbn [rev]. now rewrite <- !app_assoc. }
  destruct r0 as [|c1 [|c2 [|c3 r3]]]; try discriminate. rewrite !andb_true_iff in Hv. destruct Hv as [[[Hc1 Hc2] Hc3] Hr].
  cbn [flat_map]. rewrite (escape_byte_high _ (second_ok_high _ _ Hc1)), (escape_byte_high _ (is_cont_high _ Hc2)),
    (escape_byte_high _ (is_cont_high _ Hc3)).
  cbn [app]. rewrite Hc1, Hc2, Hc3. cbn [andb length] in *. rewrite IH by (try assumption; lia). cbn [rev]. now rewrite <- !app_assoc.
Qed.

(* the coercion on one input: an invalid byte, an encoded surrogate and a lone surrogate escape all become U+FFFD *)
Example lex_string_coerces :
  lex_string ([xff; xed; xa0; x80] ++ bs "\ud800A😀""") [] =
  Some ([xef; xbf; xbd; xef; xbf; xbd; xef; xbf; xbd; xef; xbf; xbd; xef; xbf; xbd; x41; xf0; x9f; x98; x80], []).
Proof. vm_compute. reflexivity. Qed.

(** * 4. Round trip with the JCS printer *)

Lemma is_space_bN : forall c, is_space c = true -> bN c = 0x20 \/ bN c = 0x09 \/ bN c = 0x0a \/ bN c = 0x0d.
Proof. intros c H. destruct c; try discriminate H; cbv; auto. Qed.

(* a number token starts with '-' or a digit: it is dispatched to the number lexer *)
Lemma lex_number_head : forall c s x, lex_number (c :: s) = Some x ->
  is_space c = false /\ (bN c =? 0x7b) = false /\ (bN c =? 0x5b) = false /\ (bN c =? 0x22) = false /\
  (bN c =? 0x74) = false /\ (bN c =? 0x66) = false /\ (bN c =? 0x6e) = false /\ (bN c =? 0x5d) = false /\ (bN c =? 0x7d) = false.
Proof.
  intros c s x H. unfold lex_number in H.
  assert (Hc : bN c = 0x2d \/ 0x30 <= bN c <= 0x39).
  { destruct (N.eqb_spec (bN c) 0x2d) as [E|_]; [now left|]. destruct (N.eqb_spec (bN c) 0x30) as [E|_]; [lia|].
    destruct (is_digit_b c) eqn:Ed; [|discriminate]. apply digit_b_range in Ed. unfold Num.bZ in Ed. fold (bN c) in Ed. lia. }
  clear H. split; [destruct (is_space c) eqn:E; [apply is_space_bN in E; lia|reflexivity]|].
  repeat split; apply N.eqb_neq; lia.
Qed.

(* the value as the syntax tree of its canonical text *)
Definition num_text (b : N) : bytes := match number_to_json b with Some s => s | None => [] end.

Fixpoint embed (j : json) : gj :=
  match j with
  | JNull => GNull
  | JBool b => GBool b
  | JNum b => GNum (num_text b)
  | JStr s => GStr s
  | JArr l => GArr (map embed l)
  | JObj m => GObj (map (fun kv => (fst kv, embed (snd kv))) m)
  end.

(* the number is printed as a token of the JSON grammar that reads back as the same double (proved for every finite
   64-bit pattern in NumShortest: number_to_json_grammar, finite_num_ok, wf_num_ok) *)
Definition num_ok (b : N) : Prop :=
  exists s, number_to_json b = Some s /\ lex_number s = Some (s, []) /\ parse_number s = Some (nnorm b).

(* values the round trip is stated for: strings and member names are valid UTF-8, member names have pairwise
   different sort keys, numbers as above *)
Fixpoint gwf (j : json) : Prop :=
  match j with
  | JNum b => num_ok b
  | JStr s => utf8_validb s = true
  | JArr l => (fix go (l : list json) : Prop := match l with [] => True | x :: r => gwf x /\ go r end) l
  | JObj m => NoDup (keys m) /\
              (fix go (m : list (bytes * json)) : Prop :=
                 match m with [] => True | (k, v) :: r => (utf8_validb k = true /\ gwf v) /\ go r end) m
  | _ => True
  end.

Lemma gwf_arr : forall l, gwf (JArr l) <-> Forall gwf l.
Proof.
  induction l as [|x r IH]; [split; constructor|]. rewrite Forall_cons_iff, <- IH. reflexivity.
Qed.

Lemma gwf_obj : forall m, gwf (JObj m) <-> NoDup (keys m) /\ Forall (fun kv => utf8_validb (fst kv) = true /\ gwf (snd kv)) m.
Proof.
  intro m. cbn [gwf]. apply and_iff_compat_l.
  induction m as [|[k v] r IH]; [split; constructor|]. rewrite Forall_cons_iff, <- IH. reflexivity.
Qed.

Fixpoint jdepth (j : json) : N :=
  match j with
  | JArr l => 1 + fold_right (fun x a => N.max (jdepth x) a) 0 l
  | JObj m => 1 + fold_right (fun kv a => N.max (jdepth (snd kv)) a) 0 m
  | _ => 0
  end.

Lemma jdepth_arr_in : forall l x, In x l -> jdepth x + 1 <= jdepth (JArr l).
Proof.
  intros l x H. cbn [jdepth]. induction l as [|y r IH]; [contradiction|]. cbn [fold_right].
  destruct H as [->|H]; [lia|]. specialize (IH H). lia.
Qed.

Lemma jdepth_obj_in : forall m k x, In (k, x) m -> jdepth x + 1 <= jdepth (JObj m).
Proof.
  intros m k x H. cbn [jdepth]. induction m as [|y r IH]; [contradiction|]. cbn [fold_right].
  destruct H as [->|H]; [cbn [snd]; lia|]. specialize (IH H). lia.
Qed.

Lemma jdepth_obj_perm : forall m m', Permutation m m' -> jdepth (JObj m) = jdepth (JObj m').
Proof.
  intros m m' H. cbn [jdepth]. f_equal.
  induction H as [|x l l' H IH|x y l|l l' l'' H1 IH1 H2 IH2]; cbn [fold_right]; lia.
Qed.

Definition depth_fits (lim : option N) (d : N) (v : json) : Prop :=
  match lim with None => True | Some L => d + jdepth v <= L end.

Lemma depth_fits_ok : forall lim d v, depth_fits lim d v -> 1 <= jdepth v -> depth_ok lim (d + 1) = true.
Proof. intros [L|] d v H H1; cbn in *; [apply N.leb_le; lia | reflexivity]. Qed.

Lemma depth_fits_child : forall lim d v x, depth_fits lim d v -> jdepth x + 1 <= jdepth v -> depth_fits lim (d + 1) x.
Proof. intros [L|] d v x H H1; cbn in *; [lia | exact I]. Qed.

Lemma skip_ws_head : forall c r, is_space c = false -> skip_ws (c :: r) = c :: r.
Proof. intros c r H. cbn [skip_ws]. now rewrite H. Qed.

Lemma term_not_space : forall t, is_term (bN t) = true -> is_space t = false.
Proof. intros t H. apply is_term_cases in H. destruct H as [->|[->| ->]]; reflexivity. Qed.

(* what the induction carries for one value *)
Definition rt (v : json) : Prop :=
  forall f lim d t r, (fsize v <= f)%nat -> is_term (bN t) = true -> depth_fits lim d v ->
  pvalue f lim d (print_canonical v ++ t :: r) = Some (embed (cnorm v), t :: r).

Definition ec (v : json) : gj := embed (cnorm v).

Lemma print_head_g : forall v, gwf v ->
  exists c r, print_canonical v = c :: r /\ is_space c = false /\ (bN c =? 0x5d) = false /\ (bN c =? 0x7d) = false.
Proof.
  intros v Hw. destruct v as [|[|]|b|s|l|m]; cbn [print_canonical]; try (eexists _, _; repeat split; reflexivity).
  cbn [gwf] in Hw. destruct Hw as [s [E [Hl _]]]. rewrite E. destruct s as [|c s0]; [discriminate Hl|].
  pose proof (lex_number_head _ _ _ Hl) as H. exists c, s0. repeat split; apply H.
Qed.

Lemma starts_term_join : forall (l : list bytes) close rest, is_term (bN close) = true ->
  exists t r, flat_map (fun y => x2c :: y) l ++ close :: rest = t :: r /\ is_term (bN t) = true /\
              ((t = x2c /\ exists y l', l = y :: l' /\ r = y ++ flat_map (fun y => x2c :: y) l' ++ close :: rest)
               \/ (t = close /\ l = [] /\ r = rest)).
Proof.
  intros [|y l'] close rest Hc; cbn [flat_map app].
  - exists close, rest. split; [reflexivity|]. split; [exact Hc|]. right. auto.
  - exists x2c, (y ++ flat_map (fun y0 => x2c :: y0) l' ++ close :: rest). split; [now rewrite <- app_assoc|].
    split; [reflexivity|]. left. split; [reflexivity|]. exists y, l'. auto.
Qed.

(* evaluates the comparisons of a concrete byte with a constant that the parsers make when they dispatch on it *)
Ltac evb :=
  repeat match goal with
         | |- context [N.eqb (bN ?c) ?n] =>
           let b := eval vm_compute in (N.eqb (bN c) n) in
           match b with
           | true => change (N.eqb (bN c) n) with true
           | false => change (N.eqb (bN c) n) with false
           end
         end;
  cbn match.

(* one element, then the separator or the closing bracket *)
Lemma elem_step : forall x acc f lim d first t r,
  rt x -> gwf x -> (fsize x <= f)%nat -> is_term (bN t) = true -> depth_fits lim d x ->
  pelems (S f) lim d first acc (print_canonical x ++ t :: r) =
  if bN t =? 0x2c then pelems f lim d false (ec x :: acc) r
  else if bN t =? 0x5d then Some (GArr (rev' (ec x :: acc)), r) else None.
Proof.
  intros x acc f lim d first t r Hx Hw Hf Ht Hd. rewrite pelems_eq.
  destruct (print_head_g x Hw) as [c [r0 [Hp [Hsp [H5d _]]]]]. rewrite Hp. cbn [app].
  rewrite (skip_ws_head _ _ Hsp), H5d, andb_false_r. change (c :: r0 ++ t :: r) with ((c :: r0) ++ t :: r).
  now rewrite <- Hp, (Hx f lim d t r Hf Ht Hd), (skip_ws_head _ _ (term_not_space _ Ht)).
Qed.

(* elements: [pelems] on "v1,v2,...,vn]rest" *)
Lemma elems_loop : forall l x, Forall rt (x :: l) -> Forall gwf (x :: l) -> forall acc f lim d first rest,
  (asum (x :: l) <= f)%nat -> Forall (depth_fits lim d) (x :: l) ->
  pelems f lim d first acc (join_comma (map print_canonical (x :: l)) ++ x5d :: rest)
  = Some (GArr (rev acc ++ map ec (x :: l)), rest).
Proof.
  induction l as [|y l IH]; intros x Hrt Hw acc f lim d first rest Hf Hd; rewrite asum_cons in Hf;
    (destruct f as [|f]; [lia|]);
    inversion Hrt as [|? ? Hx Hrt']; subst; inversion Hw as [|? ? Hwx Hw']; subst; inversion Hd as [|? ? Hdx Hd']; subst.
  - cbn [map join_comma]. rewrite elem_step by (try assumption; try reflexivity; lia). now rewrite rev'_rev.
  - rewrite join_comma_map_2, <- app_assoc. cbn [app]. rewrite elem_step by (try assumption; try reflexivity; lia).
    rewrite (IH y Hrt' Hw' (ec x :: acc) f lim d false rest) by (try assumption; lia).
    cbn [rev map]. now rewrite <- app_assoc.
Qed.

Definition em (kv : bytes * json) : bytes * gj := (fst kv, ec (snd kv)).

Lemma join_comma_app_term : forall (x : bytes) (l : list bytes) close rest,
  join_comma (x :: l) ++ close :: rest = x ++ flat_map (fun y => x2c :: y) l ++ close :: rest.
Proof. intros. rewrite join_comma_cons. now rewrite <- app_assoc. Qed.

(* one member, then the separator or the closing brace *)
Lemma member_step : forall k v acc f lim d first t r,
  utf8_validb k = true -> rt v -> (fsize v <= f)%nat -> is_term (bN t) = true -> depth_fits lim d v ->
  pmembers (S f) lim d first acc (pmember (k, v) ++ t :: r) =
  if bN t =? 0x2c then pmembers f lim d false ((k, ec v) :: acc) r
  else if bN t =? 0x7d then Some (GObj (rev' ((k, ec v) :: acc)), r) else None.
Proof.
  intros k v acc f lim d first t r Hk Hx Hf Ht Hd. rewrite pmembers_eq.
  unfold pmember. cbn [fst snd]. rewrite <- app_assoc, decorate_app.
  cbn [skip_ws is_space]. evb. rewrite andb_false_r, (lex_string_decorate k _ [] Hk). cbn [rev app].
  cbn [skip_ws is_space]. evb. now rewrite (Hx f lim d t r Hf Ht Hd), (skip_ws_head _ _ (term_not_space _ Ht)).
Qed.

(* members: [pmembers] on "k1:v1,...,kn:vn}rest" *)
Lemma members_loop : forall ms kv, Forall (fun p => rt (snd p)) (kv :: ms) ->
  Forall (fun p => utf8_validb (fst p) = true /\ gwf (snd p)) (kv :: ms) -> forall acc f lim d first rest,
  (osum (kv :: ms) <= f)%nat -> Forall (fun p => depth_fits lim d (snd p)) (kv :: ms) ->
  pmembers f lim d first acc (join_comma (map pmember (kv :: ms)) ++ x7d :: rest)
  = Some (GObj (rev acc ++ map em (kv :: ms)), rest).
Proof.
  induction ms as [|kv' ms IH]; intros [k v] Hrt Hw acc f lim d first rest Hf Hd; rewrite osum_cons in Hf;
    (destruct f as [|f]; [lia|]);
    inversion Hrt as [|? ? Hx Hrt']; subst; inversion Hw as [|? ? [Hk Hwx] Hw']; subst; inversion Hd as [|? ? Hdx Hd']; subst;
    cbn [fst snd] in *.
  - cbn [map join_comma]. rewrite member_step by (try assumption; try reflexivity; lia). now rewrite rev'_rev.
  - rewrite join_comma_map_2, <- app_assoc. cbn [app]. rewrite member_step by (try assumption; try reflexivity; lia).
    rewrite (IH kv' Hrt' Hw' ((k, ec v) :: acc) f lim d false rest) by (try assumption; lia).
    cbn [rev map]. now rewrite <- app_assoc.
Qed.

Lemma ec_arr : forall l, ec (JArr l) = GArr (map ec l).
Proof. intro l. unfold ec. cbn [cnorm embed]. now rewrite map_map. Qed.

(* containers, followed by anything *)
Lemma rt_arr : forall l, Forall rt l -> Forall gwf l -> forall f lim d rest,
  (fsize (JArr l) <= f)%nat -> depth_fits lim d (JArr l) ->
  pvalue f lim d (print_canonical (JArr l) ++ rest) = Some (ec (JArr l), rest).
Proof.
  intros l Hrt Hw f lim d rest Hf Hd. destruct f as [|f]; [cbn in Hf; lia|]. rewrite pvalue_eq.
  cbn [print_canonical app]. cbn [skip_ws is_space]. cbn zeta. evb.
  assert (H1 : 1 <= jdepth (JArr l)) by (cbn [jdepth]; lia).
  rewrite (depth_fits_ok _ _ _ Hd H1).
  destruct l as [|x l].
  - destruct f as [|f]; [cbn in Hf; lia|]. rewrite pelems_eq. cbn [map join_comma app skip_ws is_space]. evb. reflexivity.
  - rewrite <- app_assoc. cbn [app]. rewrite (elems_loop l x Hrt Hw [] f lim (d + 1) true rest).
    + now rewrite ec_arr.
    + cbn [fsize] in Hf. fold (asum (x :: l)) in Hf. lia.
    + rewrite Forall_forall. intros y Hy. apply (depth_fits_child _ _ _ _ Hd). now apply jdepth_arr_in.
Qed.

Lemma ec_obj : forall m, ec (JObj m) = GObj (map em (sort_g m)).
Proof.
  intro m. unfold ec. rewrite cnorm_obj, sort_g_map. cbn [embed]. f_equal. unfold map_snd. rewrite map_map.
  apply map_ext. intros [k v]. reflexivity.
Qed.

Lemma rt_obj : forall m, Forall (fun kv => rt (snd kv)) m -> gwf (JObj m) -> forall f lim d rest,
  (fsize (JObj m) <= f)%nat -> depth_fits lim d (JObj m) ->
  pvalue f lim d (print_canonical (JObj m) ++ rest) = Some (ec (JObj m), rest).
Proof.
  intros m Hrt Hw f lim d rest Hf Hd. destruct f as [|f]; [cbn in Hf; lia|]. rewrite pvalue_eq.
  rewrite print_obj, sort_g_map, map_print_member, ec_obj. cbn [app skip_ws is_space]. cbn zeta. evb.
  assert (H1 : 1 <= jdepth (JObj m)) by (cbn [jdepth]; lia).
  rewrite (depth_fits_ok _ _ _ Hd H1).
  apply gwf_obj in Hw. destruct Hw as [Hnd Hall]. pose proof (sort_g_perm m) as Hp.
  cbn [fsize] in Hf. fold (osum m) in Hf. rewrite <- (osum_perm _ _ Hp) in Hf.
  apply Forall_sort_g in Hrt, Hall.
  assert (Hd' : Forall (fun p => depth_fits lim (d + 1) (snd p)) (sort_g m)).
  { rewrite Forall_forall. intros [k x] Hx. cbn [snd]. apply (depth_fits_child _ _ _ _ Hd).
    apply (jdepth_obj_in m k). eapply Permutation_in; [exact Hp|exact Hx]. }
  destruct (sort_g m) as [|kv ms].
  - destruct f as [|f]; [cbn in Hf; lia|]. rewrite pmembers_eq. cbn [map join_comma app skip_ws is_space]. evb. reflexivity.
  - rewrite <- app_assoc. cbn [app]. rewrite (members_loop ms kv Hrt Hall [] f lim (d + 1) true rest); [reflexivity|lia|exact Hd'].
Qed.

Lemma rt_all : forall v, gwf v -> rt v.
Proof.
  induction v as [|b|b|s|l IH|m IH] using json_ind'; intros Hw f lim d t r Hf Ht Hd.
  1-4: destruct f as [|f]; [cbn in Hf; lia|]; rewrite pvalue_eq.
  - reflexivity.
  - destruct b; reflexivity.
  - cbn [gwf] in Hw. destruct Hw as [s [E [Hl Hp]]]. cbn [print_canonical]. rewrite E.
    destruct s as [|c s0]; [discriminate Hl|]. pose proof (lex_number_head _ _ _ Hl) as [H0 [H1 [H2 [H3 [H4 [H5 [H6 _]]]]]]].
    cbn [app]. rewrite (skip_ws_head _ _ H0). cbn zeta. rewrite H1, H2, H3, H4, H5, H6.
    change (c :: s0 ++ t :: r) with ((c :: s0) ++ t :: r).
    rewrite (proj2 (lex_number_ok _ _ _ Hl) t r (term_not_numchar _ Ht)). cbn [app].
    unfold ec. cbn [cnorm embed]. unfold num_text. now rewrite number_to_json_nnorm, E.
  - cbn [print_canonical]. rewrite decorate_app.
    cbn [skip_ws is_space]. cbn zeta. evb. cbn [gwf] in Hw.
    rewrite (lex_string_decorate s _ [] Hw). reflexivity.
  - apply gwf_arr in Hw. apply rt_arr; try assumption. exact (Forall_mp _ _ _ IH Hw).
  - apply rt_obj; try assumption. destruct (proj1 (gwf_obj m) Hw) as [_ Hall].
    exact (Forall_mp _ _ _ IH (Forall_impl _ (fun _ => @proj2 _ _) Hall)).
Qed.

(* the syntax tree of a canonical text decodes (into interface{}) to the canonical value *)
Lemma to_iface_GArr : forall gl jl, Forall2 (fun g j => to_iface g = Some j) gl jl -> to_iface (GArr gl) = Some (JArr jl).
Proof.
  intros gl jl H. cbn [to_iface]. induction H as [|g j gl' jl' Hg _ IH]; [reflexivity|].
  rewrite Hg. destruct (_ gl') as [jl0|]; [|discriminate]. now injection IH as ->.
Qed.

Lemma jset_fresh : forall k (j : json) acc, ~ In k (map fst acc) -> jset k j acc = acc ++ [(k, j)].
Proof.
  intros k j acc. induction acc as [|[k' v'] r IH]; intro H; cbn [jset app]; [reflexivity|].
  destruct (bytes_eqb k k') eqn:E.
  - exfalso. apply H. left. cbn [fst]. symmetry. now apply bytes_eqb_eq.
  - rewrite IH; [reflexivity|]. intro Hin. apply H. now right.
Qed.

Lemma to_iface_GObj : forall gm jm,
  Forall2 (fun g j => fst g = fst j /\ to_iface (snd g) = Some (snd j)) gm jm -> NoDup (map fst jm) ->
  to_iface (GObj gm) = Some (JObj jm).
Proof.
  intros gm jm H Hnd. cbn [to_iface]. change jm with ([] ++ jm) in Hnd |- *. revert Hnd. generalize (@nil (bytes * json)) as acc.
  induction H as [|[k g] [k' j] gm' jm' [Hk Hg] _ IH]; intros acc Hn.
  - now rewrite app_nil_r.
  - cbn [fst snd] in Hk, Hg. subst k'. rewrite Hg, jset_fresh.
    + specialize (IH (acc ++ [(k, j)])). rewrite <- app_assoc in IH. exact (IH Hn).
    + rewrite map_app in Hn. cbn [map fst] in Hn. apply NoDup_remove_2 in Hn. intro Hin. apply Hn. apply in_or_app. now left.
Qed.

(* go-jose's strict decoder: names that were not seen before are never duplicates *)
Lemma to_iface_jose_GArr : forall gl jl,
  Forall2 (fun g j => to_iface_jose g = Some j) gl jl -> to_iface_jose (GArr gl) = Some (JArr jl).
Proof.
  intros gl jl H. cbn [to_iface_jose]. induction H as [|g j gl' jl' Hg _ IH]; [reflexivity|].
  rewrite Hg. destruct (_ gl') as [jl0|]; [|discriminate]. now injection IH as ->.
Qed.

Lemma to_iface_jose_GObj : forall gm jm,
  Forall2 (fun g j => fst g = fst j /\ to_iface_jose (snd g) = Some (snd j)) gm jm -> NoDup (map fst jm) ->
  to_iface_jose (GObj gm) = Some (JObj jm).
Proof.
  intros gm jm H Hnd. cbn [to_iface_jose]. change jm with (rev [] ++ jm) in Hnd |- *. revert Hnd.
  generalize (@nil (bytes * json)) as acc.
  induction H as [|[k g] [k' j] gm' jm' [Hk Hg] _ IH]; intros acc Hn.
  - now rewrite rev'_rev, app_nil_r.
  - cbn [fst snd] in Hk, Hg. subst k'.
    assert (Hk : has_key k acc = false).
    { unfold has_key. apply not_true_is_false. intro Hx. apply existsb_exists in Hx. destruct Hx as [[k' j'] [Hin He]].
      cbn [fst] in He. apply bytes_eqb_eq in He. subst k'. rewrite map_app in Hn. apply NoDup_remove_2 in Hn. apply Hn.
      apply in_or_app. left. apply in_map_iff. exists (k, j'). split; [reflexivity|]. now apply -> in_rev. }
    rewrite Hk, Hg. specialize (IH ((k, j) :: acc)). cbn [rev] in IH. rewrite <- app_assoc in IH. exact (IH Hn).
Qed.

Lemma sorted_nodup_fst : forall (l : list (bytes * json)), StronglySorted klt l -> NoDup (map fst l).
Proof.
  induction l as [|p l IH]; intro H; [constructor|]. inversion H as [|? ? Hs Hall]; subst. cbn [map]. constructor.
  - intro Hin. apply in_map_iff in Hin. destruct Hin as [q [Hq Hin]]. rewrite Forall_forall in Hall.
    specialize (Hall q Hin). unfold klt, kof in Hall. rewrite Hq, key_ltb_irrefl in Hall. discriminate.
  - now apply IH.
Qed.

Lemma Forall2_map : forall {A B C} (R : B -> C -> Prop) (f : A -> B) (g : A -> C) l,
  Forall (fun x => R (f x) (g x)) l -> Forall2 R (map f l) (map g l).
Proof. intros A B C R f g l H. induction H; constructor; assumption. Qed.

(* Both decoders take the tree of a canonical text to the canonical value: all that is used of a decoder is what it does
   with scalars, with arrays, and with objects whose names are pairwise different. *)
Section Iface.
  Variable F : gj -> option json.
  Hypothesis F_null : F GNull = Some JNull.
  Hypothesis F_bool : forall b, F (GBool b) = Some (JBool b).
  Hypothesis F_num : forall t, F (GNum t) = option_map JNum (parse_number t).
  Hypothesis F_str : forall s, F (GStr s) = Some (JStr s).
  Hypothesis F_arr : forall gl jl, Forall2 (fun g j => F g = Some j) gl jl -> F (GArr gl) = Some (JArr jl).
  Hypothesis F_obj : forall gm jm,
    Forall2 (fun g j => fst g = fst j /\ F (snd g) = Some (snd j)) gm jm -> NoDup (map fst jm) -> F (GObj gm) = Some (JObj jm).

  Lemma iface_ec : forall v, gwf v -> F (ec v) = Some (cnorm v).
  Proof.
    induction v as [|b|b|s|l IH|m IH] using json_ind'; intro Hw; [apply F_null|apply F_bool| |apply F_str| |].
    - cbn [gwf] in Hw. destruct Hw as [s [E [_ Hp]]]. unfold ec. cbn [cnorm embed]. unfold num_text.
      now rewrite F_num, number_to_json_nnorm, E, Hp.
    - rewrite ec_arr. apply F_arr, Forall2_map, (Forall_mp _ _ _ IH), gwf_arr, Hw.
    - rewrite ec_obj, cnorm_obj, sort_g_map. apply gwf_obj in Hw. destruct Hw as [Hnd Hall]. apply F_obj.
      + apply Forall2_map, Forall_sort_g. eapply Forall_impl; [|exact (Forall_mp _ _ _ IH (Forall_impl _ (fun _ => @proj2 _ _) Hall))].
        intros [k v] H. split; [reflexivity|exact H].
      + apply sorted_nodup_fst. rewrite <- sort_g_map. apply sort_g_sorted. now rewrite keys_map_snd.
  Qed.
End Iface.

Lemma to_iface_ec : forall v, gwf v -> to_iface (ec v) = Some (cnorm v).
Proof.
  exact (iface_ec to_iface eq_refl (fun _ => eq_refl) (fun _ => eq_refl) (fun _ => eq_refl) to_iface_GArr to_iface_GObj).
Qed.

Lemma to_iface_jose_ec : forall v, gwf v -> to_iface_jose (ec v) = Some (cnorm v).
Proof.
  exact (iface_ec to_iface_jose eq_refl (fun _ => eq_refl) (fun _ => eq_refl) (fun _ => eq_refl)
           to_iface_jose_GArr to_iface_jose_GObj).
Qed.

Lemma fsize_le_g : forall v, gwf v -> (fsize v <= 2 * length (print_canonical v))%nat.
Proof. intros v _. apply fsize_le. Qed.

Definition all_space (s : bytes) : bool := forallb is_space s.

Lemma skip_ws_all_space : forall s, all_space s = true -> skip_ws s = [].
Proof.
  induction s as [|c r IH]; intro H; [reflexivity|]. cbn [all_space forallb] in H. apply andb_true_iff in H.
  destruct H as [Hc Hr]. cbn [skip_ws]. rewrite Hc. now apply IH.
Qed.

Lemma go_parse_canonical : forall v lim ws,
  gwf v -> top_shape v -> depth_fits lim 0 v -> all_space ws = true -> go_parse lim (print_canonical v ++ ws) = Some (ec v).
Proof.
  intros v lim ws Hw Hs Hd Hws. unfold go_parse. pose proof (fsize_le v) as Hf.
  assert (Hfuel : (fsize v <= go_fuel (print_canonical v ++ ws))%nat) by (unfold go_fuel; rewrite app_length; lia).
  destruct Hs as [[l ->]|[m ->]].
  - pose proof (proj1 (gwf_arr l) Hw) as Hw'. rewrite (rt_arr l (Forall_impl _ rt_all Hw') Hw'); try assumption.
    now rewrite (skip_ws_all_space _ Hws).
  - destruct (proj1 (gwf_obj m) Hw) as [_ Hall]. rewrite (rt_obj m); try assumption; [now rewrite (skip_ws_all_space _ Hws)|].
    eapply Forall_impl; [|exact Hall]. intros kv [_ H]. now apply rt_all.
Qed.

(* the JCS text of an array or object value (as the canonicalizer prints it: Jcs.print_canonical), followed
   by any white space, is accepted by both decoders and decodes into interface{} as the canonical value itself
   (members in canonical order, -0 as 0).  [lim]: Some 10000 for encoding/json, None for go-jose. *)
Theorem decode_canonical_text : forall v lim ws,
  gwf v -> top_shape v -> depth_fits lim 0 v -> all_space ws = true ->
  exists t, go_parse lim (print_canonical v ++ ws) = Some t /\ to_iface t = Some (cnorm v).
Proof.
  intros v lim ws Hw Hs Hd Hws. exists (ec v). split; [now apply go_parse_canonical|now apply to_iface_ec].
Qed.

(** * 5. The side conditions as a computable check *)

Fixpoint nodupb (l : list (list N)) : bool :=
  match l with
  | [] => true
  | x :: r => negb (existsb (key_eqb x) r) && nodupb r
  end.

Lemma nodupb_sound : forall l, nodupb l = true -> NoDup l.
Proof.
  induction l as [|x r IH]; intro H; [constructor|]. cbn [nodupb] in H. apply andb_true_iff in H. destruct H as [Hx Hr].
  constructor; [|now apply IH]. intro Hin. apply negb_true_iff in Hx.
  assert (E : existsb (key_eqb x) r = true) by (apply existsb_exists; exists x; split; [exact Hin | now apply key_eqb_eq]).
  rewrite E in Hx. discriminate.
Qed.

Definition num_okb (b : N) : bool :=
  match number_to_json b with
  | Some s =>
    match lex_number s, parse_number s with
    | Some (tok, []), Some b' => bytes_eqb tok s && (b' =? nnorm b)
    | _, _ => false
    end
  | None => false
  end.

Lemma num_okb_sound : forall b, num_okb b = true -> num_ok b.
Proof.
  intros b H. unfold num_okb in H. destruct (number_to_json b) as [s|] eqn:E; [|discriminate].
  destruct (lex_number s) as [[tok [|? ?]]|] eqn:El; try discriminate.
  destruct (parse_number s) as [b'|] eqn:Ep; [|discriminate].
  apply andb_true_iff in H. destruct H as [H1 H2]. apply bytes_eqb_eq in H1. apply N.eqb_eq in H2. subst.
  exists s. auto.
Qed.

Fixpoint gwfb (j : json) : bool :=
  match j with
  | JNum b => num_okb b
  | JStr s => utf8_validb s
  | JArr l => (fix go (l : list json) : bool := match l with [] => true | x :: r => gwfb x && go r end) l
  | JObj m => nodupb (keys m) &&
              (fix go (m : list (bytes * json)) : bool :=
                 match m with [] => true | (k, v) :: r => utf8_validb k && gwfb v && go r end) m
  | _ => true
  end.

Lemma gwfb_sound : forall v, gwfb v = true -> gwf v.
Proof.
  induction v as [|b|b|s|l IH|m IH] using json_ind'; intro H; try exact I.
  - now apply num_okb_sound.
  - exact H.
  - apply gwf_arr. induction l as [|x l IHl]; [constructor|]. inversion IH; subst. cbn [gwfb] in H.
    apply andb_true_iff in H. destruct H as [Hx Hl]. constructor; [auto|]. now apply IHl.
  - apply gwf_obj. cbn [gwfb] in H. apply andb_true_iff in H. destruct H as [Hn Hm]. split; [now apply nodupb_sound|].
    clear Hn. induction m as [|[k v] m IHm]; [constructor|]. inversion IH; subst. cbn [snd] in *.
    apply andb_true_iff in Hm. destruct Hm as [Hkv Hr]. apply andb_true_iff in Hkv. destruct Hkv as [Hk Hv].
    constructor; [cbn [fst snd]; auto|]. now apply IHm.
Qed.

Definition top_shapeb (v : json) : bool := match v with JArr _ | JObj _ => true | _ => false end.

Lemma top_shapeb_sound : forall v, top_shapeb v = true -> top_shape v.
Proof. intros [| | | |l|m] H; try discriminate; [left; now exists l | right; now exists m]. Qed.

(* [decode_canonical_text] in checkable form, for encoding/json *)
Corollary decode_canonical_text_std : forall v ws,
  gwfb v = true -> top_shapeb v = true -> (jdepth v <=? 10000) = true -> all_space ws = true ->
  exists t, std_parse (print_canonical v ++ ws) = Some t /\ to_iface t = Some (cnorm v).
Proof.
  intros v ws H1 H2 H3 H4. apply decode_canonical_text; [now apply gwfb_sound | now apply top_shapeb_sound | | exact H4].
  cbn [std_limit depth_fits]. apply N.leb_le in H3. lia.
Qed.

(* ... and for go-jose (no depth limit, duplicate names are errors) *)
Corollary decode_canonical_text_jose : forall v ws,
  gwfb v = true -> top_shapeb v = true -> all_space ws = true ->
  exists t, jose_parse (print_canonical v ++ ws) = Some t /\ to_iface_jose t = Some (cnorm v).
Proof.
  intros v ws H1 H2 H4. pose proof (gwfb_sound _ H1) as Hw. exists (ec v).
  split; [exact (go_parse_canonical v None ws Hw (top_shapeb_sound _ H2) I H4)|now apply to_iface_jose_ec].
Qed.

(* a value with an astral-plane name, escapes, numbers in both notations *)
Definition rt_example : json :=
  JObj [(bs "b", JArr [JNum 0x3FF8000000000000; JNum 0x444B1AE4D6E2EF50; JNum 0x3E7AD7F29ABCAF48; JBool true; JNull]);
        ([xf0; x9f; x98; x80], JStr ([x0a; x22] ++ bs "é"));
        (bs "a", JObj [(bs "z", JNum 0); (bs "", JStr [])])].

Example rt_example_ok : gwfb rt_example = true /\ top_shapeb rt_example = true /\ (jdepth rt_example <=? 10000) = true.
Proof. vm_compute. auto. Qed.

Example rt_example_text :
  print_canonical rt_example = bs "{""a"":{"""":"""",""z"":0},""b"":[1.5,1e+21,1e-7,true,null],""" ++ [xf0; x9f; x98; x80] ++ bs """:""\n\""é""}".
Proof. vm_compute. reflexivity. Qed.

Example rt_example_decodes :
  option_map to_iface (std_parse (print_canonical rt_example ++ bs " ")) = Some (Some (cnorm rt_example)).
Proof. vm_compute. reflexivity. Qed.

(** * 6. Corollaries on [go_parse] *)

(* [go_fuel_suffices] in the form used by callers: [go_parse] is what any larger amount of fuel computes *)
Corollary go_parse_any_fuel : forall lim b k,
  match pvalue (go_fuel b + k) lim 0 b with
  | Some (v, rest) => match skip_ws rest with [] => Some v | _ => None end
  | None => None
  end = go_parse lim b.
Proof. intros lim b k. unfold go_parse. now rewrite go_fuel_suffices by lia. Qed.

Lemma skip_ws_app_space : forall ws s, all_space ws = true -> skip_ws (ws ++ s) = skip_ws s.
Proof.
  induction ws as [|c r IH]; intros s H; [reflexivity|]. cbn [all_space forallb] in H. apply andb_true_iff in H.
  destruct H as [Hc Hr]. cbn [app skip_ws]. rewrite Hc. now apply IH.
Qed.

(* white space before the value is ignored (after it: see decode_canonical_text, stated with trailing white space) *)
Theorem leading_ws_ignored : forall lim ws b, all_space ws = true -> go_parse lim (ws ++ b) = go_parse lim b.
Proof.
  intros lim ws b H. unfold go_parse.
  assert (E : go_fuel (ws ++ b) = (go_fuel b + 2 * length ws)%nat) by (unfold go_fuel; rewrite app_length; lia).
  rewrite E. rewrite <- (go_fuel_suffices b lim 0 b (2 * length ws)) by lia.
  assert (F : exists f, (go_fuel b + 2 * length ws)%nat = S f).
  { exists (2 * length b + 3 + 2 * length ws)%nat. unfold go_fuel. lia. }
  destruct F as [f ->]. rewrite !pvalue_eq. now rewrite (skip_ws_app_space _ _ H).
Qed.

(* rejection classes of the encoding/json grammar that the canonicalizer's parser (Jcs.parse_value) accepts *)
Example std_rejects_leading_zero : std_parse (bs "[01]") = None /\ parse_value (bs "[01]") <> None.
Proof. split; [reflexivity | vm_compute; discriminate]. Qed.
Example std_rejects_plus : std_parse (bs "[+1]") = None /\ parse_value (bs "[+1]") <> None.
Proof. split; [reflexivity | vm_compute; discriminate]. Qed.
(* ... and the converse: duplicate names, lone surrogates *)
Example std_accepts_duplicates : std_parse (bs "{""a"":1,""a"":2}") <> None /\ parse_value (bs "{""a"":1,""a"":2}") = None.
Proof. split; [vm_compute; discriminate | reflexivity]. Qed.
Example std_accepts_lone_surrogate : std_parse (bs "[""\ud800""]") = Some (GArr [GStr [xef; xbf; xbd]]) /\ parse_value (bs "[""\ud800""]") = None.
Proof. split; reflexivity. Qed.
