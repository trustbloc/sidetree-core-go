(* C07, RFC 8785 canonicaliser: the rejection classes of JcsProofs section 8 lifted from "string as the first
   element of a top-level array" to ANY depth and position, and prefix-freeness of the accepted language.

   Positions are described by value contexts [vctx]: a path from the top of the document to a hole, where at every
   level the hole is either an array element that follows any number of complete elements, or a member value that
   follows any number of complete members (and its own name), with white space wherever the scanner skips it.
   "Complete element" / "complete member" are characterised with the parser itself ([item], [member]), so there is no
   second grammar that could disagree with the model.
   Main results: [failing_element_rejected], [string_value_error_rejected], [member_name_error_rejected],
   [string_error_rejected_deep] and the five classes [unterminated_string_rejected_deep], [raw_control_rejected_deep],
   [invalid_escape_rejected_deep], [bad_u_escape_rejected_deep], [lone_surrogate_rejected_deep] (each after an
   arbitrary valid string prefix, in value and in name position), [prefix_free], [proper_prefix_rejected]. *)
From Coq Require Import String List NArith Bool Lia.
From Coq.Strings Require Import Byte.
From SV Require Import Base.Bytes Json.Ast Json.Utf Json.Jcs Json.JcsProofs.
Import ListNotations.
Local Open Scope N_scope.

(** * 0. Determinism across fuel *)

Lemma parse_det : forall f1 f2 m s x y, parse f1 m s = Some x -> parse f2 m s = Some y -> x = y.
Proof.
  intros f1 f2 m s x y H1 H2.
  apply (parse_refuel _ (f1 + f2)) in H1, H2; [congruence|left; lia..].
Qed.

(** * 1. Where an element can start; leading white space *)

(* the next significant byte exists, is ASCII and does not close an array or object *)
Definition starts (s : bytes) : Prop :=
  exists h t, scan s = Some (h, t) /\ (bN h =? 0x5d) = false /\ (bN h =? 0x7d) = false.

(* an element that begins at a terminator is the empty token: "Missing argument" *)
Lemma elem_at_term : forall f s c r0, scan s = Some (c, r0) -> is_term (bN c) = true -> parse f MElem s = None.
Proof.
  intros [|f] s c r0 Es Ht; [reflexivity|]. rewrite parse_elem_eq, Es.
  destruct (is_term_cases _ Ht) as [->|[->| ->]]; reflexivity.
Qed.

Lemma elem_starts : forall f s v r, parse f MElem s = Some (v, r) -> starts s.
Proof.
  intros f s v r H. destruct f as [|f]; [discriminate|].
  pose proof H as H0. rewrite parse_elem_eq in H0.
  destruct (scan s) as [[c r0]|] eqn:Es; [|discriminate]. clear H0.
  exists c, r0. split; [exact Es|].
  destruct (is_term (bN c)) eqn:Ht.
  { rewrite (elem_at_term _ _ _ _ Es Ht) in H. discriminate. }
  exact (not_term_close _ Ht).
Qed.

Lemma scan_ws : forall ws s, all_ws ws = true -> scan (ws ++ s) = scan s.
Proof.
  induction ws as [|w ws IH]; intros s H; [reflexivity|].
  unfold all_ws in H. cbn [forallb] in H. apply andb_true_iff in H. destruct H as [H1 H2].
  cbn [app scan]. rewrite H1. apply IH. exact H2.
Qed.

Lemma parse_elem_ws : forall f ws s, all_ws ws = true -> parse f MElem (ws ++ s) = parse f MElem s.
Proof.
  intros [|f] ws s H; [reflexivity|]. rewrite !parse_elem_eq, (scan_ws _ _ H). reflexivity.
Qed.

Lemma starts_ws : forall ws s, all_ws ws = true -> starts s -> starts (ws ++ s).
Proof. intros ws s H Hs. unfold starts. now rewrite (scan_ws _ _ H). Qed.

Lemma starts_frame : forall s g, starts s -> starts (s ++ g).
Proof.
  intros s g [h [t [Hs [H1 H2]]]]. exists h, (t ++ g). split; [now apply scan_ok|now split].
Qed.

Lemma starts_quote : forall ws X, all_ws ws = true -> starts (ws ++ x22 :: X).
Proof.
  intros ws X H. exists x22, X. rewrite (scan_ws _ _ H). repeat split; reflexivity.
Qed.

(** * 2. Separators *)

Lemma scan_for_ws : forall x ws s, all_ws ws = true -> scan_for x (ws ++ s) = scan_for x s.
Proof. intros x ws s H. unfold scan_for. now rewrite (scan_ws _ _ H). Qed.

Lemma parse_obj_ws : forall f acc ws s, all_ws ws = true -> parse f (MObj false acc) (ws ++ s) = parse f (MObj false acc) s.
Proof.
  intros [|f] acc ws s H; [reflexivity|]. now rewrite !parse_obj_eq, (scan_ws _ _ H), (scan_for_ws _ _ _ H).
Qed.

(* after "," the loop of parseArray is where it was at the start, provided the next byte is not "]" *)
Lemma arr_comma : forall f acc r T, all_ws r = true -> starts T ->
  parse (S f) (MArr true acc) (r ++ x2c :: T) = parse (S f) (MArr false acc) T.
Proof.
  intros f acc r T Hr [h [t [Hs [H5d _]]]].
  rewrite !parse_arr_eq. rewrite (scan_ws _ _ Hr), Hs, H5d, (scan_for_ws _ _ _ Hr). reflexivity.
Qed.

Lemma obj_comma : forall f acc r T, all_ws r = true -> starts T ->
  parse (S f) (MObj true acc) (r ++ x2c :: T) = parse (S f) (MObj false acc) T.
Proof.
  intros f acc r T Hr [h [t [Hs [_ H7d]]]].
  rewrite !parse_obj_eq. rewrite (scan_ws _ _ Hr), Hs, H7d, (scan_for_ws _ _ _ Hr). reflexivity.
Qed.

(** * 3. Complete element and member texts, characterised by the parser *)

(* [e] is the text of one complete element, white space around it allowed.  The comma is needed because number
   and literal tokens only end at a terminator. *)
Definition item (e : bytes) : Prop :=
  exists f v r, parse f MElem (e ++ [x2c]) = Some (v, r ++ [x2c]) /\ all_ws r = true.

(* [mt] is the text of one complete member; [kt] is the name literal after its opening quote, closing quote
   included *)
Definition member (mt : bytes) : Prop :=
  exists ws1 kt k ws2 e,
    mt = ws1 ++ x22 :: kt ++ ws2 ++ x3a :: e /\ all_ws ws1 = true /\
    parse_string kt [] = Some (k, []) /\ all_ws ws2 = true /\ item e.

Definition commas (l : list bytes) : bytes := flat_map (fun e => e ++ [x2c]) l.

Lemma commas_cons : forall e l T, commas (e :: l) ++ T = e ++ x2c :: commas l ++ T.
Proof. intros e l T. unfold commas. cbn [flat_map]. rewrite <- !app_assoc. reflexivity. Qed.

Lemma item_frame : forall e, item e ->
  exists f v r, all_ws r = true /\ forall g, parse f MElem (e ++ x2c :: g) = Some (v, r ++ x2c :: g).
Proof.
  intros e [f [v [r [H Hr]]]]. exists f, v, r. split; [exact Hr|]. intro g.
  pose proof (parse_frame _ f _ _ _ _ g H (or_introl (le_n _))) as Hg. rewrite <- !app_assoc in Hg. exact Hg.
Qed.

Lemma item_starts : forall e g, item e -> starts (e ++ x2c :: g).
Proof.
  intros e g He. destruct (item_frame e He) as [f [v [r [_ H]]]]. eapply elem_starts. apply H.
Qed.

Lemma starts_commas_items : forall items T, Forall item items -> starts T -> starts (commas items ++ T).
Proof.
  intros [|e items] T Hi Hs; [exact Hs|]. inversion Hi as [|? ? He _]; subst.
  rewrite commas_cons. now apply item_starts.
Qed.

Lemma starts_commas_members : forall members T, Forall member members -> starts T -> starts (commas members ++ T).
Proof.
  intros [|mt members] T Hi Hs; [exact Hs|]. inversion Hi as [|? ? Hm _]; subst.
  destruct Hm as [ws1 [kt [k [ws2 [e [-> [H1 _]]]]]]].
  rewrite commas_cons, <- app_assoc. cbn [app]. now apply starts_quote.
Qed.

(** * 4. The two loops fail when the element in the hole fails *)

Lemma arr_items : forall items T, Forall item items -> starts T -> (forall f, parse f MElem T = None) ->
  forall f acc, parse f (MArr false acc) (commas items ++ T) = None.
Proof.
  induction items as [|e items IH]; intros T Hi Hst Hn f acc.
  - cbn [commas flat_map app]. destruct f as [|f]; [reflexivity|].
    destruct Hst as [h [t [Hs [H5d _]]]]. now rewrite (parse_arr_head _ _ _ _ _ Hs H5d), Hn.
  - inversion Hi as [|? ? He Hi']; subst.
    assert (Hg : starts (commas items ++ T)) by (apply starts_commas_items; assumption).
    rewrite commas_cons. destruct f as [|f]; [reflexivity|].
    destruct (item_frame e He) as [f0 [v [r [Hr Hf0]]]].
    destruct (elem_starts _ _ _ _ (Hf0 (commas items ++ T))) as [h [t [Hs [H5d _]]]].
    rewrite (parse_arr_head _ _ _ _ _ Hs H5d).
    destruct (parse f MElem (e ++ x2c :: commas items ++ T)) as [[v' s2]|] eqn:E; [|reflexivity].
    pose proof (parse_det _ _ _ _ _ _ E (Hf0 _)) as Hd. inversion Hd; subst.
    destruct f as [|f]; [reflexivity|]. rewrite arr_comma by assumption. now apply IH.
Qed.

(* one member up to its value: name, colon *)
Lemma member_head : forall f acc ws1 kt k ws2 X,
  all_ws ws1 = true -> parse_string kt [] = Some (k, []) -> all_ws ws2 = true ->
  parse (S f) (MObj false acc) (ws1 ++ x22 :: kt ++ ws2 ++ x3a :: X) =
  match parse f MElem X with
  | None => None
  | Some (v, s5) => if key_mem (utf16_key k) acc then None else parse f (MObj true ((k, v) :: acc)) s5
  end.
Proof.
  intros f acc ws1 kt k ws2 X H1 Hk H2.
  rewrite (parse_obj_ws _ _ _ _ H1), parse_obj_quote, (parse_string_frame _ _ _ _ (ws2 ++ x3a :: X) Hk). cbn [app].
  now rewrite (scan_for_ws _ _ _ H2).
Qed.

Lemma obj_members : forall members T, Forall member members -> starts T ->
  (forall f acc, parse f (MObj false acc) T = None) ->
  forall f acc, parse f (MObj false acc) (commas members ++ T) = None.
Proof.
  induction members as [|mt members IH]; intros T Hi Hst Hn f acc.
  - cbn [commas flat_map app]. apply Hn.
  - inversion Hi as [|? ? Hm Hi']; subst.
    assert (Hg : starts (commas members ++ T)) by (apply starts_commas_members; assumption).
    destruct Hm as [ws1 [kt [k [ws2 [e [-> [H1 [Hk [H2 He]]]]]]]]].
    rewrite commas_cons, <- app_assoc. cbn [app]. rewrite <- !app_assoc. cbn [app]. destruct f as [|f]; [reflexivity|].
    rewrite (member_head _ _ _ _ _ _ _ H1 Hk H2).
    destruct (item_frame e He) as [f0 [v [r [Hr Hf0]]]].
    destruct (parse f MElem (e ++ x2c :: commas members ++ T)) as [[v' s2]|] eqn:E; [|reflexivity].
    pose proof (parse_det _ _ _ _ _ _ E (Hf0 _)) as Hd. inversion Hd; subst.
    destruct (key_mem (utf16_key k) acc); [reflexivity|].
    destruct f as [|f]; [reflexivity|]. rewrite obj_comma by assumption. now apply IH.
Qed.

(** * 5. Value contexts *)

Inductive vctx :=
| VHole
| VWs (ws : bytes) (c : vctx)                                   (* white space before a value *)
| VArr (items : list bytes) (c : vctx)                          (* "[" items, each followed by ",", then the hole *)
| VMem (members : list bytes) (ws1 kt ws2 : bytes) (c : vctx).  (* "{" members, name, ":" then the hole *)

Fixpoint vfill (c : vctx) (T : bytes) : bytes :=
  match c with
  | VHole => T
  | VWs ws c => ws ++ vfill c T
  | VArr items c => x5b :: commas items ++ vfill c T
  | VMem members ws1 kt ws2 c => x7b :: commas members ++ ws1 ++ x22 :: kt ++ ws2 ++ x3a :: vfill c T
  end.

Fixpoint vctx_ok (c : vctx) : Prop :=
  match c with
  | VHole => True
  | VWs ws c => all_ws ws = true /\ vctx_ok c
  | VArr items c => Forall item items /\ vctx_ok c
  | VMem members ws1 kt ws2 c =>
    Forall member members /\ all_ws ws1 = true /\ (exists k, parse_string kt [] = Some (k, [])) /\
    all_ws ws2 = true /\ vctx_ok c
  end.

Lemma starts_open : forall c X, (c = x5b \/ c = x7b \/ c = x22) -> starts (c :: X).
Proof. intros c X [->|[->| ->]]; eexists _, X; repeat split; reflexivity. Qed.

Lemma ctx_fail : forall c T, vctx_ok c -> starts T -> (forall f, parse f MElem T = None) ->
  (forall f, parse f MElem (vfill c T) = None) /\ starts (vfill c T).
Proof.
  induction c as [|ws c IH|items c IH|members ws1 kt ws2 c IH]; intros T Hok Hst Hn; cbn [vfill].
  - split; assumption.
  - destruct Hok as [Hws Hc]. destruct (IH T Hc Hst Hn) as [Hn' Hs']. split.
    + intro f. rewrite parse_elem_ws by exact Hws. apply Hn'.
    + now apply starts_ws.
  - destruct Hok as [Hit Hc]. destruct (IH T Hc Hst Hn) as [Hn' Hs']. split.
    + intros [|f]; [reflexivity|]. rewrite parse_elem_arr. now apply arr_items.
    + apply starts_open. now left.
  - destruct Hok as [Hmem [H1 [[k Hk] [H2 Hc]]]]. destruct (IH T Hc Hst Hn) as [Hn' Hs']. split.
    + intros [|f]; [reflexivity|]. rewrite parse_elem_obj.
      apply obj_members; [exact Hmem|now apply starts_quote|].
      intros [|f'] acc; [reflexivity|]. rewrite (member_head _ _ _ _ _ _ _ H1 Hk H2). now rewrite Hn'.
    + apply starts_open. right. now left.
Qed.

(** * 6. From the element parser to Transform *)

Lemma elem_none_value_none : forall b, (forall f, parse f MElem b = None) -> parse_value b = None.
Proof.
  intros b H. rewrite parse_value_elem, H. destruct (scan b) as [[c r]|]; [destruct (_ || _)|]; reflexivity.
Qed.

(** * 7. Theorems *)

(* A value (or anything else) that the element parser rejects, in a position where an element may start, makes the
   whole document invalid, however deep it is nested. *)
Theorem failing_element_rejected : forall c T,
  vctx_ok c -> starts T -> (forall f, parse f MElem T = None) -> transform (vfill c T) = None.
Proof.
  intros c T Hok Hst Hn. unfold transform. rewrite elem_none_value_none; [reflexivity|].
  apply (ctx_fail c T Hok Hst Hn).
Qed.

Lemma string_elem_none : forall body, parse_string body [] = None -> forall f, parse f MElem (x22 :: body) = None.
Proof.
  intros body H [|f]; [reflexivity|]. now rewrite parse_elem_str, H.
Qed.

(* string VALUE at any depth: [body] is everything after the opening quote, up to the end of the document *)
Theorem string_value_error_rejected : forall c body,
  vctx_ok c -> parse_string body [] = None -> transform (vfill c (x22 :: body)) = None.
Proof.
  intros c body Hok H. apply failing_element_rejected; [exact Hok| |now apply string_elem_none].
  apply starts_open. right. now right.
Qed.

Lemma name_elem_none : forall members ws body,
  Forall member members -> all_ws ws = true -> parse_string body [] = None ->
  forall f, parse f MElem (x7b :: commas members ++ ws ++ x22 :: body) = None.
Proof.
  intros members ws body Hmem Hws H [|f]; [reflexivity|]. rewrite parse_elem_obj.
  apply obj_members; [exact Hmem|now apply starts_quote|].
  intros [|f'] acc; [reflexivity|]. now rewrite (parse_obj_ws _ _ _ _ Hws), parse_obj_quote, H.
Qed.

(* member NAME at any depth, after any number of complete members of the same object *)
Theorem member_name_error_rejected : forall c members ws body,
  vctx_ok c -> Forall member members -> all_ws ws = true -> parse_string body [] = None ->
  transform (vfill c (x7b :: commas members ++ ws ++ x22 :: body)) = None.
Proof.
  intros c members ws body Hok Hmem Hws H. apply failing_element_rejected; [exact Hok| |now apply name_elem_none].
  apply starts_open. right. now left.
Qed.

(** * 8. String prefixes compose *)

(* [sp] is a complete string body (what stands between the quotes of a valid literal) that decodes to [k] *)
Definition strpre (sp k : bytes) : Prop := parse_string (sp ++ [x22]) [] = Some (k, []).

Lemma strpre_app_gen : forall sp acc k, parse_string (sp ++ [x22]) acc = Some (k, []) ->
  forall rest, parse_string (sp ++ rest) acc = parse_string rest (rev k).
Proof.
  intros sp acc k H rest. destruct (parse_string_split _ _ _ _ H) as [sp0 [Heq Hsp]].
  apply app_inj_tail in Heq. destruct Heq as [-> _]. apply Hsp.
Qed.

Lemma strpre_app : forall sp k rest, strpre sp k -> parse_string (sp ++ rest) [] = parse_string rest (rev k).
Proof. intros sp k rest H. now apply strpre_app_gen. Qed.

(* plain bytes are a valid prefix (so the statements below contain the ones of JcsProofs) *)
Lemma strpre_plain : forall pre, forallb plainb pre = true -> strpre pre pre.
Proof.
  intros pre H. unfold strpre. rewrite parse_string_plain_prefix by exact H.
  cbn [parse_string]. change (bN x22 =? 0x22) with true. cbv iota. now rewrite app_nil_r, rev_involutive.
Qed.

(** * 9. The error classes of string literals, at any depth, in value and in name position, after any valid prefix *)

Inductive spos :=
| InValue                                        (* the literal is an array element or a member value *)
| InName (members : list bytes) (ws : bytes).    (* the literal is a member name, after [members] *)

(* the document: context, then (in name position: "{", the complete members, white space) the opening quote and
   [body] = everything after it *)
Definition sfill (c : vctx) (p : spos) (body : bytes) : bytes :=
  match p with
  | InValue => vfill c (x22 :: body)
  | InName members ws => vfill c (x7b :: commas members ++ ws ++ x22 :: body)
  end.

Definition spos_ok (p : spos) : Prop :=
  match p with
  | InValue => True
  | InName members ws => Forall member members /\ all_ws ws = true
  end.

Theorem string_error_rejected_deep : forall c p body,
  vctx_ok c -> spos_ok p -> parse_string body [] = None -> transform (sfill c p body) = None.
Proof.
  intros c [|members ws] body Hok Hp H; cbn [sfill].
  - now apply string_value_error_rejected.
  - destruct Hp as [Hm Hws]. now apply member_name_error_rejected.
Qed.

(* unterminated: no closing quote anywhere in the rest of the document *)
Theorem unterminated_string_rejected_deep : forall c p body,
  vctx_ok c -> spos_ok p -> ~ In x22 body -> transform (sfill c p body) = None.
Proof.
  intros c p body Hok Hp H. apply string_error_rejected_deep; try assumption.
  now apply parse_string_no_quote.
Qed.

(* raw control character *)
Theorem raw_control_rejected_deep : forall c p sp k ch r,
  vctx_ok c -> spos_ok p -> strpre sp k -> bN ch < 0x20 -> transform (sfill c p (sp ++ ch :: r)) = None.
Proof.
  intros c p sp k ch r Hok Hp Hsp Hc. apply string_error_rejected_deep; try assumption.
  rewrite (strpre_app _ _ _ Hsp). now apply control_in_string.
Qed.

(* backslash followed by a byte that is not one of the nine escape letters (escb) *)
Theorem invalid_escape_rejected_deep : forall c p sp k e r,
  vctx_ok c -> spos_ok p -> strpre sp k -> escb e = false -> transform (sfill c p (sp ++ x5c :: e :: r)) = None.
Proof.
  intros c p sp k e r Hok Hp Hsp He. apply string_error_rejected_deep; try assumption.
  rewrite (strpre_app _ _ _ Hsp). now apply invalid_escape_in_string.
Qed.

(* \u followed by four bytes that are not all hex digits *)
Theorem bad_u_escape_rejected_deep : forall c p sp k h1 h2 h3 h4 r,
  vctx_ok c -> spos_ok p -> strpre sp k -> hex4 h1 h2 h3 h4 = None ->
  transform (sfill c p (sp ++ x5c :: x75 :: h1 :: h2 :: h3 :: h4 :: r)) = None.
Proof.
  intros c p sp k h1 h2 h3 h4 r Hok Hp Hsp Hh. apply string_error_rejected_deep; try assumption.
  rewrite (strpre_app _ _ _ Hsp). now apply bad_u_escape_in_string.
Qed.

(* a surrogate escape is accepted only as a high surrogate immediately followed by a low-surrogate escape *)
Theorem lone_surrogate_rejected_deep : forall c p sp k h1 h2 h3 h4 u1 rest,
  vctx_ok c -> spos_ok p -> strpre sp k ->
  hex4 h1 h2 h3 h4 = Some u1 -> is_surrogate u1 = true -> is_high u1 && low_escape_follows rest = false ->
  transform (sfill c p (sp ++ x5c :: x75 :: h1 :: h2 :: h3 :: h4 :: rest)) = None.
Proof.
  intros c p sp k h1 h2 h3 h4 u1 rest Hok Hp Hsp Hh Hs Hr. apply string_error_rejected_deep; try assumption.
  rewrite (strpre_app _ _ _ Hsp).
  apply (surrogate_in_string h1 h2 h3 h4 u1 rest); try assumption. now rewrite pair_ok_spec.
Qed.

Corollary lone_high_surrogate_rejected_deep : forall c p sp k h1 h2 h3 h4 u1 rest,
  vctx_ok c -> spos_ok p -> strpre sp k ->
  hex4 h1 h2 h3 h4 = Some u1 -> is_high u1 = true -> low_escape_follows rest = false ->
  transform (sfill c p (sp ++ x5c :: x75 :: h1 :: h2 :: h3 :: h4 :: rest)) = None.
Proof.
  intros c p sp k h1 h2 h3 h4 u1 rest Hok Hp Hsp Hh Hs Hr.
  eapply lone_surrogate_rejected_deep; try eassumption; [now apply is_high_surrogate|now rewrite Hr, andb_false_r].
Qed.

Corollary lone_low_surrogate_rejected_deep : forall c p sp k h1 h2 h3 h4 u1 rest,
  vctx_ok c -> spos_ok p -> strpre sp k ->
  hex4 h1 h2 h3 h4 = Some u1 -> is_low u1 = true ->
  transform (sfill c p (sp ++ x5c :: x75 :: h1 :: h2 :: h3 :: h4 :: rest)) = None.
Proof.
  intros c p sp k h1 h2 h3 h4 u1 rest Hok Hp Hsp Hh Hs. destruct (is_low_surrogate _ Hs) as [S1 S2].
  eapply lone_surrogate_rejected_deep; try eassumption. now rewrite S2.
Qed.

(** * 10. Prefix-freeness *)

(* no accepted document has an accepted prefix, except for dropping trailing white space *)
Theorem prefix_free : forall b v p q,
  parse_value b = Some v -> b = p ++ q -> all_ws q = false -> transform p = None.
Proof.
  intros b v p q Hb Heq Hq. unfold transform. destruct (parse_value p) as [v'|] eqn:Ep; [|reflexivity].
  exfalso. pose proof (trailing_content_rejected p v' q Ep Hq) as Ht.
  unfold transform in Ht. rewrite <- Heq, Hb in Ht. discriminate.
Qed.

Lemma all_ws_false_in : forall q c, In c q -> is_ws (bN c) = false -> all_ws q = false.
Proof.
  intros q c Hin Hc. destruct (all_ws q) eqn:E; [|reflexivity].
  unfold all_ws in E. rewrite forallb_forall in E. rewrite (E _ Hin) in Hc. discriminate.
Qed.

(* the part that was cut off contains a byte that is not white space *)
Corollary proper_prefix_rejected : forall b v p q c,
  parse_value b = Some v -> b = p ++ q -> In c q -> is_ws (bN c) = false -> transform p = None.
Proof.
  intros b v p q c Hb Heq Hin Hc. eapply prefix_free; [exact Hb|exact Heq|]. eapply all_ws_false_in; eassumption.
Qed.

(* a document that does not end in white space: every proper prefix is rejected *)
Corollary proper_prefix_rejected_last : forall p q c v,
  parse_value (p ++ q ++ [c]) = Some v -> is_ws (bN c) = false -> transform p = None.
Proof.
  intros p q c v Hb Hc. eapply (proper_prefix_rejected _ v p (q ++ [c]) c); [exact Hb|reflexivity| |exact Hc].
  apply in_or_app. right. now left.
Qed.

(* remark: the only accepted extensions of an accepted document add white space, and the value is the same *)
Lemma accepted_extension_ws : forall p q v v',
  parse_value p = Some v -> parse_value (p ++ q) = Some v' -> all_ws q = true /\ v' = v.
Proof.
  intros p q v v' Hp Hpq. rewrite (parse_value_app _ _ q Hp) in Hpq.
  destruct (all_ws q); [now injection Hpq as <-|discriminate].
Qed.

(** * 11. Instances: the hypotheses hold on concrete documents (checked by computation) *)

Definition mk_member (ws1 kt ws2 e : bytes) : bytes := ws1 ++ x22 :: kt ++ ws2 ++ x3a :: e.

(* boolean sufficient conditions for [item] and [member], so that witnesses are found by computation *)
Definition item_b (f : nat) (e : bytes) : bool :=
  match parse f MElem (e ++ [x2c]) with
  | Some (_, r') => match rev r' with c :: rr => Byte.eqb c x2c && all_ws (rev rr) | [] => false end
  | None => false
  end.

Lemma item_b_sound : forall f e, item_b f e = true -> item e.
Proof.
  intros f e H. unfold item_b in H. destruct (parse f MElem (e ++ [x2c])) as [[v r']|] eqn:E; [|discriminate].
  destruct (rev r') as [|c rr] eqn:Er; [discriminate|]. apply andb_true_iff in H. destruct H as [H1 H2].
  apply Byte.byte_dec_bl in H1. subst c.
  exists f, v, (rev rr). split; [|exact H2]. rewrite E. f_equal. f_equal.
  rewrite <- (rev_involutive r'), Er. reflexivity.
Qed.

Lemma Forall_item_b : forall f l, forallb (item_b f) l = true -> Forall item l.
Proof.
  intros f l H. rewrite forallb_forall in H. apply Forall_forall. intros e He. apply (item_b_sound f). now apply H.
Qed.

Definition member_b (f : nat) (m : bytes * bytes * bytes * bytes) : bool :=
  let '(ws1, kt, ws2, e) := m in
  all_ws ws1 && match parse_string kt [] with Some (_, []) => true | _ => false end && all_ws ws2 && item_b f e.

Definition members_of (l : list (bytes * bytes * bytes * bytes)) : list bytes :=
  map (fun m => let '(ws1, kt, ws2, e) := m in mk_member ws1 kt ws2 e) l.

Lemma member_b_sound : forall f ws1 kt ws2 e, member_b f (ws1, kt, ws2, e) = true -> member (mk_member ws1 kt ws2 e).
Proof.
  intros f ws1 kt ws2 e H. unfold member_b in H.
  apply andb_true_iff in H. destruct H as [H H4]. apply andb_true_iff in H. destruct H as [H H3].
  apply andb_true_iff in H. destruct H as [H1 H2].
  destruct (parse_string kt []) as [[k [|x y]]|] eqn:Ek; try discriminate.
  exists ws1, kt, k, ws2, e. repeat split; try assumption. now apply (item_b_sound f).
Qed.

Lemma members_b_sound : forall f l, forallb (member_b f) l = true -> Forall member (members_of l).
Proof.
  intros f l H. rewrite forallb_forall in H. apply Forall_forall. intros mt Hin.
  unfold members_of in Hin. apply in_map_iff in Hin. destruct Hin as [[[[ws1 kt] ws2] e] [<- Hin]].
  apply (member_b_sound f). now apply H.
Qed.

(* a context of depth four: array > object > array > object, with white space, after number, string, array and
   object siblings:
      _[1, "s\n" ,[2,[],{}],{"k":null, "l":[false]},{"a":1, "b" : [true] , "c" : _[-0.5e1,{"d":<hole>   *)
Definition ex_members : list (bytes * bytes * bytes * bytes) :=
  [ ([], bs "a""", [], bs "1"); (bs " ", bs "b""", bs " ", bs " [true] ") ].

Definition ex_ctx : vctx :=
  VWs (bs " ")
   (VArr [bs "1"; bs " ""s\n"" "; bs "[2,[],{}]"; bs "{""k"":null, ""l"":[false]}"]
     (VMem (members_of ex_members) (bs " ") (bs "c""") (bs " ")
       (VWs (bs " ")
         (VArr [bs "-0.5e1"]
           (VMem [] [] (bs "d""") [] VHole))))).

Example ex_ctx_text : forall T,
  vfill ex_ctx T
  = bs " [1, ""s\n"" ,[2,[],{}],{""k"":null, ""l"":[false]},{""a"":1, ""b"" : [true] , ""c"" : [-0.5e1,{""d"":" ++ T.
Proof. intro T. reflexivity. Qed.

Lemma ex_ctx_ok : vctx_ok ex_ctx.
Proof.
  unfold ex_ctx. cbn [vctx_ok].
  split; [reflexivity|]. split; [apply (Forall_item_b 10); vm_compute; reflexivity|].
  split; [apply (members_b_sound 10); vm_compute; reflexivity|].
  split; [reflexivity|]. split; [exists (bs "c"); reflexivity|]. split; [reflexivity|].
  split; [reflexivity|]. split; [apply (Forall_item_b 10); vm_compute; reflexivity|].
  split; [constructor|]. split; [reflexivity|]. split; [exists (bs "d"); reflexivity|]. split; [reflexivity|].
  exact I.
Qed.

(* the context is satisfiable: with a good value in the hole (and the closing brackets) the document is accepted *)
Example ex_ctx_accepts :
  transform (vfill ex_ctx (bs """ok""}]}]"))
  = Some (bs "[1,""s\n"",[2,[],{}],{""k"":null,""l"":[false]},{""a"":1,""b"":[true],""c"":[-5,{""d"":""ok""}]}]").
Proof. vm_compute. reflexivity. Qed.

(* name position: after two complete members of the innermost object *)
Definition ex_pos : spos := InName (members_of [([], bs "x""", [], bs "{}"); (bs " ", bs "y""", [], bs """v""")]) (bs " ").

Lemma ex_pos_ok : spos_ok ex_pos.
Proof. split; [apply (members_b_sound 10); vm_compute; reflexivity|reflexivity]. Qed.

Example ex_pos_accepts :
  transform (sfill ex_ctx ex_pos (bs "z"":0}}]}]"))
  = Some (bs "[1,""s\n"",[2,[],{}],{""k"":null,""l"":[false]},{""a"":1,""b"":[true],""c"":[-5,{""d"":{""x"":{},""y"":""v"",""z"":0}}]}]").
Proof. vm_compute. reflexivity. Qed.

(* a valid string prefix that is not plain: escapes, a surrogate pair, raw UTF-8 *)
Definition ex_sp : bytes := bs "a\n\ud83d\ude00\/" ++ [xc3; xa9].
Definition ex_tail : bytes := bs """}]}]".

Lemma ex_sp_ok : strpre ex_sp (bs "a" ++ [x0a; xf0; x9f; x98; x80; x2f; xc3; xa9]).
Proof. vm_compute. reflexivity. Qed.

(* the theorems apply (all hypotheses hold), in value and in name position *)
Example ex_unterminated : forall p, spos_ok p -> transform (sfill ex_ctx p (bs "abc }]}]")) = None.
Proof.
  intros p Hp. apply unterminated_string_rejected_deep; [apply ex_ctx_ok|exact Hp|].
  vm_compute. intuition discriminate.
Qed.

Example ex_raw_control : forall p, spos_ok p -> transform (sfill ex_ctx p (ex_sp ++ x0a :: ex_tail)) = None.
Proof.
  intros p Hp. eapply raw_control_rejected_deep; [apply ex_ctx_ok|exact Hp|apply ex_sp_ok|reflexivity].
Qed.

Example ex_invalid_escape : forall p, spos_ok p -> transform (sfill ex_ctx p (ex_sp ++ x5c :: x61 :: ex_tail)) = None.
Proof.
  intros p Hp. eapply invalid_escape_rejected_deep; [apply ex_ctx_ok|exact Hp|apply ex_sp_ok|reflexivity].
Qed.

Example ex_bad_u : forall p, spos_ok p ->
  transform (sfill ex_ctx p (ex_sp ++ x5c :: x75 :: x30 :: x30 :: x67 :: x30 :: ex_tail)) = None.
Proof.
  intros p Hp. eapply bad_u_escape_rejected_deep; [apply ex_ctx_ok|exact Hp|apply ex_sp_ok|reflexivity].
Qed.

(* \ud800 followed by a plain "A"; \udc00 on its own *)
Example ex_lone_high : forall p, spos_ok p ->
  transform (sfill ex_ctx p (ex_sp ++ x5c :: x75 :: x64 :: x38 :: x30 :: x30 :: x41 :: ex_tail)) = None.
Proof.
  intros p Hp. eapply lone_surrogate_rejected_deep;
    [apply ex_ctx_ok|exact Hp|apply ex_sp_ok|reflexivity|reflexivity|reflexivity].
Qed.

Example ex_lone_low : forall p, spos_ok p ->
  transform (sfill ex_ctx p (ex_sp ++ x5c :: x75 :: x64 :: x63 :: x30 :: x30 :: ex_tail)) = None.
Proof.
  intros p Hp. eapply lone_low_surrogate_rejected_deep; [apply ex_ctx_ok|exact Hp|apply ex_sp_ok|reflexivity|reflexivity].
Qed.

(* and independently by running the model: the same bodies, both positions; the first entry of each list is the
   accepted control *)
Definition ex_bodies : list bytes :=
  [ ex_sp ++ x0a :: ex_tail; ex_sp ++ x5c :: x61 :: ex_tail;
    ex_sp ++ x5c :: x75 :: x30 :: x30 :: x67 :: x30 :: ex_tail;
    ex_sp ++ x5c :: x75 :: x64 :: x38 :: x30 :: x30 :: x41 :: ex_tail;
    ex_sp ++ x5c :: x75 :: x64 :: x63 :: x30 :: x30 :: ex_tail ].

Example ex_value_position_runs :
  map (fun body => match transform (sfill ex_ctx InValue body) with Some _ => true | None => false end)
      ((ex_sp ++ ex_tail) :: bs "abc }]}]" :: ex_bodies)
  = true :: repeat false 6.
Proof. vm_compute. reflexivity. Qed.

Example ex_name_position_runs :
  map (fun body => match transform (sfill ex_ctx ex_pos body) with Some _ => true | None => false end)
      ((ex_sp ++ bs """:0}}]}]") :: bs "abc :0}}]}]" :: map (fun b => b ++ bs ":0}}]}]") ex_bodies)
  = true :: repeat false 6.
Proof. vm_compute. reflexivity. Qed.

(* a failing element that is not a string: a bad literal deep inside *)
Example ex_bad_literal : transform (vfill ex_ctx (bs "nul}]}]")) = None.
Proof.
  apply failing_element_rejected; [apply ex_ctx_ok|eexists _, _; repeat split; reflexivity|].
  intros [|f]; reflexivity.
Qed.

(* the hypothesis [starts T] of [failing_element_rejected] cannot be dropped: "]" is not an element, but in the first
   position of an array it closes the array *)
Example starts_needed :
  (forall f, parse f MElem (bs "]") = None) /\ transform (vfill (VArr [] VHole) (bs "]")) = Some (bs "[]").
Proof. split; [intros [|f]; reflexivity|vm_compute; reflexivity]. Qed.

(* prefix-freeness: every proper prefix of an accepted document without trailing white space is rejected *)
Definition ex_pdoc : bytes := bs "[1,[2,{""a"":[3,""x""],""b"":{}}], null ]".

Example ex_pdoc_accepted : transform ex_pdoc = Some (bs "[1,[2,{""a"":[3,""x""],""b"":{}}],null]").
Proof. vm_compute. reflexivity. Qed.

Example ex_prefix_theorem_applies : transform (bs "[1,[2,{""a"":[3") = None.
Proof.
  apply (proper_prefix_rejected_last (bs "[1,[2,{""a"":[3") (bs ",""x""],""b"":{}}], null ") x5d
           (JArr [JNum 0x3ff0000000000000; JArr [JNum 0x4000000000000000;
              JObj [(bs "a", JArr [JNum 0x4008000000000000; JStr (bs "x")]); (bs "b", JObj [])]]; JNull]));
    vm_compute; reflexivity.
Qed.

Example ex_all_prefixes_rejected :
  forallb (fun n => match transform (firstn n ex_pdoc) with None => true | Some _ => false end)
          (seq 0 (length ex_pdoc)) = true.
Proof. vm_compute. reflexivity. Qed.

Print Assumptions parse_det.
Print Assumptions failing_element_rejected.
Print Assumptions string_value_error_rejected.
Print Assumptions member_name_error_rejected.
Print Assumptions parse_string_split.
Print Assumptions string_error_rejected_deep.
Print Assumptions unterminated_string_rejected_deep.
Print Assumptions raw_control_rejected_deep.
Print Assumptions invalid_escape_rejected_deep.
Print Assumptions bad_u_escape_rejected_deep.
Print Assumptions lone_surrogate_rejected_deep.
Print Assumptions lone_high_surrogate_rejected_deep.
Print Assumptions lone_low_surrogate_rejected_deep.
Print Assumptions prefix_free.
Print Assumptions proper_prefix_rejected.
Print Assumptions proper_prefix_rejected_last.
Print Assumptions accepted_extension_ws.
Print Assumptions ex_ctx_ok.
