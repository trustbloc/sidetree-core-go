(* Model of Go's encoding/json (go1.23) Unmarshal, and of go-jose's fork of it (github.com/square/go-jose/v3/json),
   for exactly the targets the operation parser decodes into.  Definitions and examples.

   Layers
   1. [go_parse lim b]   : scanner.go (checkValid) + the tokenisation decode.go does afterwards, as one recursive
                           descent over the RFC 8259 grammar.  Result: a syntax tree [gj] with members in SOURCE
                           order, duplicates kept, numbers as their literal token, strings already unquoted
                           (decode.go unquote: escapes decoded, invalid UTF-8 and unpaired surrogate escapes become
                           U+FFFD).  [lim] = maximal nesting depth (encoding/json: 10000; go-jose: none).
   2. [to_iface]         : decoding into interface{} (float64 numbers through strconv.ParseFloat - a range error
                           is an UnmarshalTypeError; objects become maps: a later duplicate member overwrites).
      [to_iface_jose]    : the same for go-jose: a duplicate member name (compared after unquoting) is an error.
   3. struct decoding    : member name -> field by exact name or else by case folding (fold.go foldName: ASCII
                           upper-casing plus the two non-ASCII runes that fold into ASCII, U+212A KELVIN SIGN -> K and
                           U+017F LONG S -> S); unknown members skipped WITHOUT looking at them; null = no-op
                           (pointer, slice, map, interface: set to nil); a value of the wrong kind records an
                           UnmarshalTypeError and decoding goes on; Unmarshal then returns that error.  All callers
                           here treat any error as failure and read the target only on success, so decoding is
                           modelled in the option monad (None = some error was recorded).  The one exception,
                           the schema struct {type string} whose field is read even after an error, is modelled
                           in Parser/ViewOfBytes.v with an explicit error flag.
      Decoding is INTO an existing value: a second "delta" member decodes into the struct the first one
      allocated, a second "patches" array decodes element i into the map that is already at index i, and -
      because reflect's SetLen does not clear - into the STALE map left beyond the length by an earlier, longer
      array ([dm_stale]).
   4. [jose_marshal]     : go-jose's json.Marshal of a decoded map (old encoder: names sorted bytewise,
                           floats in strconv 'g' format, <, >, & and U+2028/9 escaped).
   5. [delta_json] ...   : what encoding/json.Marshal makes of the structs, as a VALUE (omitempty, nil pointers);
                           the canonicalizer output is Jcs.print_canonical of it. *)
From Coq Require Import String List NArith ZArith Bool.
From Coq.Strings Require Import Byte.
From SV Require Import Base.Bytes Json.Ast Json.Utf Json.Num Json.Jcs.
Import ListNotations.
Local Open Scope N_scope.

(* ---------- syntax tree ---------- *)
Inductive gj :=
| GNull
| GBool (b : bool)
| GNum (tok : bytes)
| GStr (s : bytes)
| GArr (l : list gj)
| GObj (m : list (bytes * gj)).

(* ---------- lexical level ---------- *)
Definition is_space (c : byte) : bool :=
  match c with x20 | x09 | x0a | x0d => true | _ => false end.

Fixpoint skip_ws (s : bytes) : bytes :=
  match s with
  | c :: r => if is_space c then skip_ws r else s
  | [] => []
  end.

Definition is_digit_b (c : byte) : bool :=
  match c with x30 | x31 | x32 | x33 | x34 | x35 | x36 | x37 | x38 | x39 => true | _ => false end.

Definition push_fffd (acc : bytes) : bytes := xbd :: xbf :: xef :: acc.

(* stateInString .. stateInStringEscU123 and unquoteBytes in one pass, after the opening quote.
   [acc] is the reversed decoded string.  Result: decoded string and the input after the closing quote. *)
Fixpoint lex_string (s acc : bytes) : option (bytes * bytes) :=
  match s with
  | [] => None
  | c :: r =>
    let n := bN c in
    if n =? 0x22 then Some (rev' acc, r)
    else if n <? 0x20 then None                               (* control character in string literal *)
    else if n =? 0x5c then
      match r with
      | [] => None
      | e :: r1 =>
        let ne := bN e in
        if ne =? 0x75 then
          match r1 with
          | h1 :: h2 :: h3 :: h4 :: r2 =>
            match hex4 h1 h2 h3 h4 with
            | None => None
            | Some u1 =>
              if is_surrogate u1 then
                (* getu4 of what follows; a valid (high, low) pair is consumed, anything else leaves U+FFFD
                   and what follows is processed on its own *)
                match r2 with
                | b :: u :: k1 :: k2 :: k3 :: k4 :: r3 =>
                  if (bN b =? 0x5c) && (bN u =? 0x75) then
                    match hex4 k1 k2 k3 k4 with
                    | Some u2 =>
                      if utf16_decode_pair u1 u2 =? rune_error then lex_string r2 (push_fffd acc)
                      else lex_string r3 (rev_append (utf8_encode (utf16_decode_pair u1 u2)) acc)
                    | None => lex_string r2 (push_fffd acc)
                    end
                  else lex_string r2 (push_fffd acc)
                | _ => lex_string r2 (push_fffd acc)
                end
              else lex_string r2 (rev_append (utf8_encode u1) acc)
            end
          | _ => None
          end
        else if ne =? 0x22 then lex_string r1 (x22 :: acc)
        else if ne =? 0x5c then lex_string r1 (x5c :: acc)
        else if ne =? 0x2f then lex_string r1 (x2f :: acc)
        else if ne =? 0x62 then lex_string r1 (x08 :: acc)
        else if ne =? 0x66 then lex_string r1 (x0c :: acc)
        else if ne =? 0x6e then lex_string r1 (x0a :: acc)
        else if ne =? 0x72 then lex_string r1 (x0d :: acc)
        else if ne =? 0x74 then lex_string r1 (x09 :: acc)
        else None                                             (* invalid escape *)
      end
    else if n <? 0x80 then lex_string r (c :: acc)
    (* "Coerce to well-formed UTF-8": utf8.DecodeRune; an invalid byte becomes U+FFFD and consumes one byte *)
    else if (n <? 0xC2) || (0xF4 <? n) then lex_string r (push_fffd acc)
    else if n <? 0xE0 then
      match r with
      | c1 :: r1 => if is_cont (bN c1) then lex_string r1 (c1 :: c :: acc) else lex_string r (push_fffd acc)
      | [] => None
      end
    else if n <? 0xF0 then
      match r with
      | c1 :: c2 :: r2 =>
        if second_ok n (bN c1) && is_cont (bN c2) then lex_string r2 (c2 :: c1 :: c :: acc)
        else lex_string r (push_fffd acc)
      | _ => lex_string r (push_fffd acc)
      end
    else
      match r with
      | c1 :: c2 :: c3 :: r3 =>
        if second_ok n (bN c1) && is_cont (bN c2) && is_cont (bN c3) then lex_string r3 (c3 :: c2 :: c1 :: c :: acc)
        else lex_string r (push_fffd acc)
      | _ => lex_string r (push_fffd acc)
      end
  end.

Fixpoint take_digits (s acc : bytes) : bytes * bytes :=
  match s with
  | c :: r => if is_digit_b c then take_digits r (c :: acc) else (acc, s)
  | [] => (acc, [])
  end.

(* stateE / stateESign / stateE0 *)
Definition lex_exp (acc s : bytes) : option (bytes * bytes) :=
  match s with
  | e :: r =>
    if (bN e =? 0x65) || (bN e =? 0x45) then
      let '(acc1, r1) := match r with
                         | sg :: r' => if (bN sg =? 0x2b) || (bN sg =? 0x2d) then (sg :: e :: acc, r') else (e :: acc, r)
                         | [] => (e :: acc, r)
                         end in
      match r1 with
      | d :: r2 => if is_digit_b d then let '(acc2, s2) := take_digits r2 (d :: acc1) in Some (rev' acc2, s2) else None
      | [] => None
      end
    else Some (rev' acc, s)
  | [] => Some (rev' acc, [])
  end.

(* state0 / stateDot / stateDot0 *)
Definition lex_frac (acc s : bytes) : option (bytes * bytes) :=
  match s with
  | p :: r =>
    if bN p =? 0x2e then
      match r with
      | d :: r' => if is_digit_b d then let '(acc', s') := take_digits r' (d :: p :: acc) in lex_exp acc' s' else None
      | [] => None
      end
    else lex_exp acc s
  | [] => lex_exp acc s
  end.

(* stateNeg / state0 / state1: the token and what follows it *)
Definition lex_number (s : bytes) : option (bytes * bytes) :=
  let '(acc0, s0) := match s with
                     | c :: r => if bN c =? 0x2d then ([c], r) else ([], s)
                     | [] => ([], s)
                     end in
  match s0 with
  | c :: r =>
    if bN c =? 0x30 then lex_frac (c :: acc0) r
    else if is_digit_b c then let '(acc1, s1) := take_digits r (c :: acc0) in lex_frac acc1 s1
    else None
  | [] => None
  end.

(* ---------- values ---------- *)
Definition depth_ok (lim : option N) (d : N) : bool :=
  match lim with Some l => d <=? l | None => true end.

(* [pvalue]: stateBeginValue; [pelems first]: stateBeginValueOrEmpty (first) / after ',' (not first);
   [pmembers first]: stateBeginStringOrEmpty / stateBeginString.  Every call uses one unit of fuel.
   [d] = len(parseState). *)
Fixpoint pvalue (fuel : nat) (lim : option N) (d : N) (s : bytes) {struct fuel} : option (gj * bytes) :=
  match fuel with
  | O => None
  | S f =>
    match skip_ws s with
    | [] => None
    | c :: r =>
      let n := bN c in
      if n =? 0x7b then (if depth_ok lim (d + 1) then pmembers f lim (d + 1) true [] r else None)
      else if n =? 0x5b then (if depth_ok lim (d + 1) then pelems f lim (d + 1) true [] r else None)
      else if n =? 0x22 then
        match lex_string r [] with
        | Some (str, r') => Some (GStr str, r')
        | None => None
        end
      else if n =? 0x74 then
        match r with
        | a :: b :: e :: r' => if (bN a =? 0x72) && (bN b =? 0x75) && (bN e =? 0x65) then Some (GBool true, r') else None
        | _ => None
        end
      else if n =? 0x66 then
        match r with
        | a :: b :: e :: g :: r' =>
          if (bN a =? 0x61) && (bN b =? 0x6c) && (bN e =? 0x73) && (bN g =? 0x65) then Some (GBool false, r') else None
        | _ => None
        end
      else if n =? 0x6e then
        match r with
        | a :: b :: e :: r' => if (bN a =? 0x75) && (bN b =? 0x6c) && (bN e =? 0x6c) then Some (GNull, r') else None
        | _ => None
        end
      else
        match lex_number (c :: r) with
        | Some (tok, r') => Some (GNum tok, r')
        | None => None
        end
    end
  end
with pelems (fuel : nat) (lim : option N) (d : N) (first : bool) (acc : list gj) (s : bytes) {struct fuel}
  : option (gj * bytes) :=
  match fuel with
  | O => None
  | S f =>
    match skip_ws s with
    | [] => None
    | c :: r =>
      if first && (bN c =? 0x5d) then Some (GArr [], r)
      else
        match pvalue f lim d (c :: r) with
        | None => None
        | Some (v, s1) =>
          match skip_ws s1 with
          | c1 :: r1 =>
            if bN c1 =? 0x2c then pelems f lim d false (v :: acc) r1
            else if bN c1 =? 0x5d then Some (GArr (rev' (v :: acc)), r1)
            else None
          | [] => None
          end
        end
    end
  end
with pmembers (fuel : nat) (lim : option N) (d : N) (first : bool) (acc : list (bytes * gj)) (s : bytes) {struct fuel}
  : option (gj * bytes) :=
  match fuel with
  | O => None
  | S f =>
    match skip_ws s with
    | [] => None
    | c :: r =>
      if first && (bN c =? 0x7d) then Some (GObj [], r)
      else if bN c =? 0x22 then
        match lex_string r [] with
        | None => None
        | Some (k, s1) =>
          match skip_ws s1 with
          | c1 :: r1 =>
            if bN c1 =? 0x3a then
              match pvalue f lim d r1 with
              | None => None
              | Some (v, s2) =>
                match skip_ws s2 with
                | c2 :: r2 =>
                  if bN c2 =? 0x2c then pmembers f lim d false ((k, v) :: acc) r2
                  else if bN c2 =? 0x7d then Some (GObj (rev' ((k, v) :: acc)), r2)
                  else None
                | [] => None
                end
              end
            else None
          | [] => None
          end
        end
      else None
    end
  end.

Definition go_fuel (b : bytes) : nat := 2 * length b + 4.

(* checkValid: one value, white space around it, nothing else *)
Definition go_parse (lim : option N) (b : bytes) : option gj :=
  match pvalue (go_fuel b) lim 0 b with
  | Some (v, rest) => match skip_ws rest with [] => Some v | _ => None end
  | None => None
  end.

Definition std_limit : option N := Some 10000.
Definition std_parse (b : bytes) : option gj := go_parse std_limit b.   (* encoding/json *)
Definition jose_parse (b : bytes) : option gj := go_parse None b.       (* go-jose/json *)

(* ---------- interface{} ---------- *)
Fixpoint to_iface (g : gj) : option json :=
  match g with
  | GNull => Some JNull
  | GBool b => Some (JBool b)
  | GNum t => option_map JNum (parse_number t)                (* convertNumber: ParseFloat error is recorded *)
  | GStr s => Some (JStr s)
  | GArr l =>
    option_map JArr
      ((fix go (l : list gj) : option (list json) :=
          match l with
          | [] => Some []
          | x :: r => match to_iface x, go r with Some a, Some b => Some (a :: b) | _, _ => None end
          end) l)
  | GObj m =>
    option_map JObj
      ((fix go (m : list (bytes * gj)) (acc : list (bytes * json)) : option (list (bytes * json)) :=
          match m with
          | [] => Some acc
          | (k, v) :: r => match to_iface v with Some j => go r (jset k j acc) | None => None end   (* m[key] = ... *)
          end) m [])
  end.

Definition has_key {A} (k : bytes) (m : list (bytes * A)) : bool := existsb (fun kv => bytes_eqb k (fst kv)) m.

(* go-jose: "json: duplicate key" at every level *)
Fixpoint to_iface_jose (g : gj) : option json :=
  match g with
  | GNull => Some JNull
  | GBool b => Some (JBool b)
  | GNum t => option_map JNum (parse_number t)
  | GStr s => Some (JStr s)
  | GArr l =>
    option_map JArr
      ((fix go (l : list gj) : option (list json) :=
          match l with
          | [] => Some []
          | x :: r => match to_iface_jose x, go r with Some a, Some b => Some (a :: b) | _, _ => None end
          end) l)
  | GObj m =>
    option_map JObj
      ((fix go (m : list (bytes * gj)) (acc : list (bytes * json)) : option (list (bytes * json)) :=
          match m with
          | [] => Some (rev' acc)
          | (k, v) :: r =>
            if has_key k acc then None
            else match to_iface_jose v with Some j => go r ((k, j) :: acc) | None => None end
          end) m [])
  end.

(* josejson.Unmarshal(raw, &m) with m a nil map[string]interface{}:
   None = error; Some None = no error and m still nil (input "null"); Some (Some members) *)
Definition jose_unmarshal_map (raw : bytes) : option (option (list (bytes * json))) :=
  match jose_parse raw with
  | None => None
  | Some GNull => Some None
  | Some (GObj m) => match to_iface_jose (GObj m) with Some (JObj l) => Some (Some l) | _ => None end
  | Some _ => None                                             (* UnmarshalTypeError *)
  end.

(* ---------- scalars ---------- *)
Local Open Scope Z_scope.

Fixpoint digits_val (s : bytes) (acc : Z) : option Z :=
  match s with
  | [] => Some acc
  | c :: r => if is_digit_b c then digits_val r (acc * 10 + (bZ c - 48)) else None
  end.

(* strconv.ParseInt(tok, 10, 64) on a token of the JSON number grammar: digits only, in range *)
Definition parse_int64 (tok : bytes) : option Z :=
  match tok with
  | [] => None
  | c :: r =>
    if bZ c =? 45 then
      match r with
      | [] => None
      | _ => match digits_val r 0 with
             | Some v => if v <=? two63 then Some (- v) else None
             | None => None
             end
      end
    else match digits_val tok 0 with
         | Some v => if v <? two63 then Some v else None
         | None => None
         end
  end.

Definition dec_str (g : gj) (old : bytes) : option bytes :=
  match g with GStr s => Some s | GNull => Some old | _ => None end.

Definition dec_i64 (g : gj) (old : Z) : option Z :=
  match g with GNum t => parse_int64 t | GNull => Some old | _ => None end.

(* an interface{} field; None = nil interface *)
Definition dec_any (g : gj) : option (option json) :=
  match g with GNull => Some None | _ => option_map Some (to_iface g) end.

(* ---------- member names ---------- *)
Local Open Scope N_scope.

(* foldName; the result is only ever compared with upper-case ASCII names, so runes that do not fold into ASCII
   are left as they are *)
Fixpoint fold_name (k : bytes) : bytes :=
  match k with
  | [] => []
  | c :: r =>
    let n := bN c in
    if n <? 0x80 then (if (0x61 <=? n) && (n <=? 0x7a) then byte_of_N (n - 32) else c) :: fold_name r
    else if n =? 0xe2 then
      match r with
      | c1 :: c2 :: r2 => if (bN c1 =? 0x84) && (bN c2 =? 0xaa) then x4b :: fold_name r2 else c :: fold_name r
      | _ => c :: fold_name r
      end
    else if n =? 0xc5 then
      match r with
      | c1 :: r1 => if bN c1 =? 0xbf then x53 :: fold_name r1 else c :: fold_name r
      | [] => [c]
      end
    else c :: fold_name r
  end.

Definition is_field (folded : bytes) (name : String.string) : bool := bytes_eqb folded (bytes_of_string name).

(* the loop of decodeState.object over the members, the struct being threaded through *)
Fixpoint fold_members {T} (f : T -> bytes -> gj -> option T) (m : list (bytes * gj)) (st : T) : option T :=
  match m with
  | [] => Some st
  | (k, v) :: r => match f st (fold_name k) v with Some st' => fold_members f r st' | None => None end
  end.

(* a struct value: object decodes into it, null leaves it alone, anything else is a type error *)
Definition dec_struct {T} (f : T -> bytes -> gj -> option T) (g : gj) (old : T) : option T :=
  match g with
  | GObj m => fold_members f m old
  | GNull => Some old
  | _ => None
  end.

(* a *struct field: null sets nil, an object decodes into the pointee (allocated when nil) *)
Definition dec_ptr {T} (zero : T) (f : T -> bytes -> gj -> option T) (g : gj) (old : option T) : option (option T) :=
  match g with
  | GNull => Some None
  | GObj m => option_map Some (fold_members f m (match old with Some x => x | None => zero end))
  | _ => None
  end.

(* ---------- jws.JWK ---------- *)
Record jwk_m := { jk_kty : bytes; jk_crv : bytes; jk_x : bytes; jk_y : bytes; jk_nonce : bytes }.
Definition jwk_zero : jwk_m := Build_jwk_m [] [] [] [] [].

Definition jwk_member (st : jwk_m) (fk : bytes) (v : gj) : option jwk_m :=
  if is_field fk "KTY" then option_map (fun s => Build_jwk_m s (jk_crv st) (jk_x st) (jk_y st) (jk_nonce st)) (dec_str v (jk_kty st))
  else if is_field fk "CRV" then option_map (fun s => Build_jwk_m (jk_kty st) s (jk_x st) (jk_y st) (jk_nonce st)) (dec_str v (jk_crv st))
  else if is_field fk "X" then option_map (fun s => Build_jwk_m (jk_kty st) (jk_crv st) s (jk_y st) (jk_nonce st)) (dec_str v (jk_x st))
  else if is_field fk "Y" then option_map (fun s => Build_jwk_m (jk_kty st) (jk_crv st) (jk_x st) s (jk_nonce st)) (dec_str v (jk_y st))
  else if is_field fk "NONCE" then option_map (fun s => Build_jwk_m (jk_kty st) (jk_crv st) (jk_x st) (jk_y st) s) (dec_str v (jk_nonce st))
  else Some st.

(* ---------- patch.Patch = map[Key]interface{} and []patch.Patch ---------- *)
Definition patchv := option (list (bytes * json)).            (* None = nil map *)

Fixpoint patch_members (m : list (bytes * gj)) (acc : list (bytes * json)) : option (list (bytes * json)) :=
  match m with
  | [] => Some acc
  | (k, v) :: r => match to_iface v with Some j => patch_members r (jset k j acc) | None => None end
  end.

(* decoding into a map element of the slice: an object MERGES into the map that is there *)
Definition dec_patch (g : gj) (old : patchv) : option patchv :=
  match g with
  | GNull => Some None
  | GObj m => option_map Some (patch_members m (match old with Some x => x | None => [] end))
  | _ => None
  end.

(* decodeState.array: element i decodes into backing[i]; beyond the backing array the elements are fresh (nil) *)
Fixpoint dec_elems (l : list gj) (backing acc : list patchv) : option (list patchv * list patchv) :=
  match l with
  | [] => Some (rev' acc, backing)
  | g :: r =>
    let '(old, b') := match backing with o :: b' => (o, b') | [] => (None, []) end in
    match dec_patch g old with
    | Some p => dec_elems r b' (p :: acc)
    | None => None
    end
  end.

(* ---------- model.DeltaModel ---------- *)
Record delta_m := {
  dm_upd : bytes;
  dm_patches : list patchv;
  dm_stale : list patchv }.     (* backing array beyond len(Patches): maps left there by an earlier, longer array *)
Definition delta_zero : delta_m := Build_delta_m [] [] [].

Definition delta_member (st : delta_m) (fk : bytes) (v : gj) : option delta_m :=
  if is_field fk "UPDATECOMMITMENT" then
    option_map (fun s => Build_delta_m s (dm_patches st) (dm_stale st)) (dec_str v (dm_upd st))
  else if is_field fk "PATCHES" then
    match v with
    | GNull => Some (Build_delta_m (dm_upd st) [] [])                      (* nil slice *)
    | GArr [] => Some (Build_delta_m (dm_upd st) [] [])                    (* reflect.MakeSlice(t, 0, 0) *)
    | GArr l =>
      match dec_elems l (dm_patches st ++ dm_stale st) [] with
      | Some (el, stale) => Some (Build_delta_m (dm_upd st) el stale)
      | None => None
      end
    | _ => None
    end
  else Some st.

(* ---------- model.SuffixDataModel ---------- *)
Record suffix_m := { sm_delta_hash : bytes; sm_rec : bytes; sm_origin : option json; sm_type : bytes }.
Definition suffix_zero : suffix_m := Build_suffix_m [] [] None [].

Definition suffix_member (st : suffix_m) (fk : bytes) (v : gj) : option suffix_m :=
  if is_field fk "DELTAHASH" then
    option_map (fun s => Build_suffix_m s (sm_rec st) (sm_origin st) (sm_type st)) (dec_str v (sm_delta_hash st))
  else if is_field fk "RECOVERYCOMMITMENT" then
    option_map (fun s => Build_suffix_m (sm_delta_hash st) s (sm_origin st) (sm_type st)) (dec_str v (sm_rec st))
  else if is_field fk "ANCHORORIGIN" then
    option_map (fun o => Build_suffix_m (sm_delta_hash st) (sm_rec st) o (sm_type st)) (dec_any v)
  else if is_field fk "TYPE" then
    option_map (fun s => Build_suffix_m (sm_delta_hash st) (sm_rec st) (sm_origin st) s) (dec_str v (sm_type st))
  else Some st.

(* ---------- requests ---------- *)
Record create_m := { cr_type : bytes; cr_suffix : option suffix_m; cr_delta : option delta_m }.
Definition create_zero : create_m := Build_create_m [] None None.

Definition create_member (st : create_m) (fk : bytes) (v : gj) : option create_m :=
  if is_field fk "TYPE" then option_map (fun s => Build_create_m s (cr_suffix st) (cr_delta st)) (dec_str v (cr_type st))
  else if is_field fk "SUFFIXDATA" then
    option_map (fun p => Build_create_m (cr_type st) p (cr_delta st)) (dec_ptr suffix_zero suffix_member v (cr_suffix st))
  else if is_field fk "DELTA" then
    option_map (fun p => Build_create_m (cr_type st) (cr_suffix st) p) (dec_ptr delta_zero delta_member v (cr_delta st))
  else Some st.

(* UpdateRequest and RecoverRequest have the same fields and tags *)
Record update_m := { ur_type : bytes; ur_did : bytes; ur_reveal : bytes; ur_signed : bytes; ur_delta : option delta_m }.
Definition update_zero : update_m := Build_update_m [] [] [] [] None.

Definition update_member (st : update_m) (fk : bytes) (v : gj) : option update_m :=
  if is_field fk "TYPE" then
    option_map (fun s => Build_update_m s (ur_did st) (ur_reveal st) (ur_signed st) (ur_delta st)) (dec_str v (ur_type st))
  else if is_field fk "DIDSUFFIX" then
    option_map (fun s => Build_update_m (ur_type st) s (ur_reveal st) (ur_signed st) (ur_delta st)) (dec_str v (ur_did st))
  else if is_field fk "REVEALVALUE" then
    option_map (fun s => Build_update_m (ur_type st) (ur_did st) s (ur_signed st) (ur_delta st)) (dec_str v (ur_reveal st))
  else if is_field fk "SIGNEDDATA" then
    option_map (fun s => Build_update_m (ur_type st) (ur_did st) (ur_reveal st) s (ur_delta st)) (dec_str v (ur_signed st))
  else if is_field fk "DELTA" then
    option_map (fun p => Build_update_m (ur_type st) (ur_did st) (ur_reveal st) (ur_signed st) p)
               (dec_ptr delta_zero delta_member v (ur_delta st))
  else Some st.

Record deact_m := { de_type : bytes; de_did : bytes; de_reveal : bytes; de_signed : bytes }.
Definition deact_zero : deact_m := Build_deact_m [] [] [] [].

Definition deact_member (st : deact_m) (fk : bytes) (v : gj) : option deact_m :=
  if is_field fk "TYPE" then option_map (fun s => Build_deact_m s (de_did st) (de_reveal st) (de_signed st)) (dec_str v (de_type st))
  else if is_field fk "DIDSUFFIX" then option_map (fun s => Build_deact_m (de_type st) s (de_reveal st) (de_signed st)) (dec_str v (de_did st))
  else if is_field fk "REVEALVALUE" then option_map (fun s => Build_deact_m (de_type st) (de_did st) s (de_signed st)) (dec_str v (de_reveal st))
  else if is_field fk "SIGNEDDATA" then option_map (fun s => Build_deact_m (de_type st) (de_did st) (de_reveal st) s) (dec_str v (de_signed st))
  else Some st.

(* ---------- signed data models ---------- *)
Record upd_signed_m := { us_key : option jwk_m; us_delta_hash : bytes; us_from : Z; us_until : Z }.
Definition upd_signed_zero : upd_signed_m := Build_upd_signed_m None [] 0%Z 0%Z.

Definition upd_signed_member (st : upd_signed_m) (fk : bytes) (v : gj) : option upd_signed_m :=
  if is_field fk "UPDATEKEY" then
    option_map (fun p => Build_upd_signed_m p (us_delta_hash st) (us_from st) (us_until st)) (dec_ptr jwk_zero jwk_member v (us_key st))
  else if is_field fk "DELTAHASH" then
    option_map (fun s => Build_upd_signed_m (us_key st) s (us_from st) (us_until st)) (dec_str v (us_delta_hash st))
  else if is_field fk "ANCHORFROM" then
    option_map (fun z => Build_upd_signed_m (us_key st) (us_delta_hash st) z (us_until st)) (dec_i64 v (us_from st))
  else if is_field fk "ANCHORUNTIL" then
    option_map (fun z => Build_upd_signed_m (us_key st) (us_delta_hash st) (us_from st) z) (dec_i64 v (us_until st))
  else Some st.

Record rec_signed_m := {
  rs_delta_hash : bytes; rs_key : option jwk_m; rs_rec : bytes; rs_origin : option json; rs_from : Z; rs_until : Z }.
Definition rec_signed_zero : rec_signed_m := Build_rec_signed_m [] None [] None 0%Z 0%Z.

Definition rec_signed_member (st : rec_signed_m) (fk : bytes) (v : gj) : option rec_signed_m :=
  if is_field fk "DELTAHASH" then
    option_map (fun s => Build_rec_signed_m s (rs_key st) (rs_rec st) (rs_origin st) (rs_from st) (rs_until st)) (dec_str v (rs_delta_hash st))
  else if is_field fk "RECOVERYKEY" then
    option_map (fun p => Build_rec_signed_m (rs_delta_hash st) p (rs_rec st) (rs_origin st) (rs_from st) (rs_until st))
               (dec_ptr jwk_zero jwk_member v (rs_key st))
  else if is_field fk "RECOVERYCOMMITMENT" then
    option_map (fun s => Build_rec_signed_m (rs_delta_hash st) (rs_key st) s (rs_origin st) (rs_from st) (rs_until st)) (dec_str v (rs_rec st))
  else if is_field fk "ANCHORORIGIN" then
    option_map (fun o => Build_rec_signed_m (rs_delta_hash st) (rs_key st) (rs_rec st) o (rs_from st) (rs_until st)) (dec_any v)
  else if is_field fk "ANCHORFROM" then
    option_map (fun z => Build_rec_signed_m (rs_delta_hash st) (rs_key st) (rs_rec st) (rs_origin st) z (rs_until st)) (dec_i64 v (rs_from st))
  else if is_field fk "ANCHORUNTIL" then
    option_map (fun z => Build_rec_signed_m (rs_delta_hash st) (rs_key st) (rs_rec st) (rs_origin st) (rs_from st) z) (dec_i64 v (rs_until st))
  else Some st.

Record deact_signed_m := { ds_did : bytes; ds_reveal : bytes; ds_key : option jwk_m; ds_from : Z; ds_until : Z }.
Definition deact_signed_zero : deact_signed_m := Build_deact_signed_m [] [] None 0%Z 0%Z.

Definition deact_signed_member (st : deact_signed_m) (fk : bytes) (v : gj) : option deact_signed_m :=
  if is_field fk "DIDSUFFIX" then
    option_map (fun s => Build_deact_signed_m s (ds_reveal st) (ds_key st) (ds_from st) (ds_until st)) (dec_str v (ds_did st))
  else if is_field fk "REVEALVALUE" then
    option_map (fun s => Build_deact_signed_m (ds_did st) s (ds_key st) (ds_from st) (ds_until st)) (dec_str v (ds_reveal st))
  else if is_field fk "RECOVERYKEY" then
    option_map (fun p => Build_deact_signed_m (ds_did st) (ds_reveal st) p (ds_from st) (ds_until st)) (dec_ptr jwk_zero jwk_member v (ds_key st))
  else if is_field fk "ANCHORFROM" then
    option_map (fun z => Build_deact_signed_m (ds_did st) (ds_reveal st) (ds_key st) z (ds_until st)) (dec_i64 v (ds_from st))
  else if is_field fk "ANCHORUNTIL" then
    option_map (fun z => Build_deact_signed_m (ds_did st) (ds_reveal st) (ds_key st) (ds_from st) z) (dec_i64 v (ds_until st))
  else Some st.

(* json.Unmarshal(data, &zeroStruct) == nil ? on an already parsed text (the top-level target is a struct) *)
Definition unmarshal_tree {T} (f : T -> bytes -> gj -> option T) (zero : T) (g : option gj) : option T :=
  match g with
  | None => None                                               (* SyntaxError *)
  | Some t => dec_struct f t zero
  end.

Definition unmarshal {T} (f : T -> bytes -> gj -> option T) (zero : T) (b : bytes) : option T :=
  unmarshal_tree f zero (std_parse b).

(* ---------- json.Marshal of the structs, as values ---------- *)
Definition patch_json (p : patchv) : json := match p with Some m => JObj m | None => JNull end.

Definition opt_str (name : String.string) (s : bytes) : list (bytes * json) :=
  match s with [] => [] | _ => [(bs name, JStr s)] end.       (* string field with omitempty *)

Definition delta_json (d : delta_m) : json :=
  JObj (opt_str "updateCommitment" (dm_upd d)
        ++ match dm_patches d with [] => [] | l => [(bs "patches", JArr (map patch_json l))] end).

Definition suffix_json (s : suffix_m) : json :=
  JObj (opt_str "deltaHash" (sm_delta_hash s) ++ opt_str "recoveryCommitment" (sm_rec s)
        ++ match sm_origin s with Some j => [(bs "anchorOrigin", j)] | None => [] end
        ++ opt_str "type" (sm_type s)).

Definition jwk_json (k : jwk_m) : json :=
  JObj ([(bs "kty", JStr (jk_kty k)); (bs "crv", JStr (jk_crv k)); (bs "x", JStr (jk_x k)); (bs "y", JStr (jk_y k))]
        ++ opt_str "nonce" (jk_nonce k)).

(* canonicalizer.MarshalCanonical(struct) *)
Definition canonical_of (j : json) : bytes := print_canonical j.

(* ---------- go-jose json.Marshal (old encoder) ---------- *)
Local Open Scope Z_scope.

Definition exp_digits (e : Z) : bytes :=
  if e <? 10 then [x30; zbyte (48 + e)]
  else dec_string e.

(* strconv.FormatFloat(f, 'g', -1, 64) of a finite double *)
Definition fmt_g (bits : N) : bytes :=
  let b := Z.of_N bits in
  let expf := (b / two52) mod 2048 in
  let frac := b mod two52 in
  let sign := if (b / two63) mod 2 =? 1 then [x2d] else [] in
  if (expf =? 0) && (frac =? 0) then sign ++ [x30]
  else
    let babs := b mod two63 in
    let m := if expf =? 0 then frac else frac + two52 in
    let e := if expf =? 0 then -1074 else expf - 1075 in
    match shortest babs m e expf with
    | None => []
    | Some (digs, dp) =>
      let ex := dp - 1 in
      if (ex <? -4) || (6 <=? ex) then
        sign ++ match digs with
                | [] => []
                | [d] => [d]
                | d :: r => d :: x2e :: r
                end ++ [x65] ++ (if ex <? 0 then [x2d] else [x2b]) ++ exp_digits (Z.abs ex)
      else sign ++ layout_f digs dp
    end.

Local Open Scope N_scope.

Definition hexlow' (n : N) : byte := byte_of_N (if n <? 10 then 48 + n else 87 + n).

(* encodeState.string of the old encoder, on a valid UTF-8 string *)
Fixpoint jose_escape (s : bytes) : bytes :=
  match s with
  | [] => []
  | c :: r =>
    let n := bN c in
    if n <? 0x80 then
      if (0x20 <=? n) && negb (n =? 0x5c) && negb (n =? 0x22) && negb (n =? 0x3c) && negb (n =? 0x3e) && negb (n =? 0x26)
      then c :: jose_escape r
      else if (n =? 0x5c) || (n =? 0x22) then x5c :: c :: jose_escape r
      else if n =? 0x0a then x5c :: x6e :: jose_escape r
      else if n =? 0x0d then x5c :: x72 :: jose_escape r
      else if n =? 0x09 then x5c :: x74 :: jose_escape r
      else x5c :: x75 :: x30 :: x30 :: hexlow' (n / 16) :: hexlow' (n mod 16) :: jose_escape r
    else if n =? 0xe2 then
      match r with
      | c1 :: c2 :: r2 =>
        if (bN c1 =? 0x80) && ((bN c2 =? 0xa8) || (bN c2 =? 0xa9))
        then x5c :: x75 :: x32 :: x30 :: x32 :: hexlow' (bN c2 - 0xa0) :: jose_escape r2
        else c :: jose_escape r
      | _ => c :: jose_escape r
      end
    else c :: jose_escape r
  end.

Definition jose_string (s : bytes) : bytes := x22 :: jose_escape s ++ [x22].

(* sort.Sort(stringValues): bytewise *)
Fixpoint insert_bytewise {A} (k : bytes) (v : A) (l : list (bytes * A)) : list (bytes * A) :=
  match l with
  | [] => [(k, v)]
  | (k', v') :: r => if bytes_ltb k k' then (k, v) :: l else (k', v') :: insert_bytewise k v r
  end.

Definition sort_bytewise {A} (m : list (bytes * A)) : list (bytes * A) :=
  fold_left (fun acc kv => insert_bytewise (fst kv) (snd kv) acc) m [].

Fixpoint jose_marshal (j : json) : bytes :=
  match j with
  | JNull => lit_null
  | JBool true => lit_true
  | JBool false => lit_false
  | JNum b => fmt_g b
  | JStr s => jose_string s
  | JArr l => x5b :: join_comma (map jose_marshal l) ++ [x5d]
  | JObj m =>
    x7b :: join_comma (map (fun kv => jose_string (fst kv) ++ x3a :: snd kv)
                           (sort_bytewise (map (fun kv => let '(k, v) := kv in (k, jose_marshal v)) m)))
        ++ [x7d]
  end.

(* ---------- examples ---------- *)
Example go_parse_ex1 :
  std_parse (bs " {""a"": [1, -0.5e+3, true, null], ""a"": ""xé\ud800y""} ")
  = Some (GObj [(bs "a", GArr [GNum (bs "1"); GNum (bs "-0.5e+3"); GBool true; GNull]);
                (bs "a", GStr (bs "x" ++ [xc3; xa9; xef; xbf; xbd] ++ bs "y"))]).
Proof. vm_compute. reflexivity. Qed.
Example go_parse_leading_zero : std_parse (bs "[01]") = None. Proof. vm_compute. reflexivity. Qed.
Example go_parse_trailing_comma : std_parse (bs "{""a"":1,}") = None. Proof. vm_compute. reflexivity. Qed.
Example go_parse_scalar : std_parse (bs " 12 ") = Some (GNum (bs "12")). Proof. vm_compute. reflexivity. Qed.
Example go_parse_trailing : std_parse (bs "{} x") = None. Proof. vm_compute. reflexivity. Qed.
Example to_iface_dup :
  option_map (fun g => to_iface g) (std_parse (bs "{""a"":1,""b"":2,""a"":3}"))
  = Some (Some (JObj [(bs "a", JNum 0x4008000000000000); (bs "b", JNum 0x4000000000000000)])).
Proof. vm_compute. reflexivity. Qed.
Example jose_dup : jose_unmarshal_map (bs "{""a"":1,""a"":3}") = None. Proof. vm_compute. reflexivity. Qed.
Example jose_null : jose_unmarshal_map (bs "null") = Some None. Proof. vm_compute. reflexivity. Qed.
Example int64_ex : map parse_int64 [bs "-0"; bs "1.0"; bs "1e2"; bs "9223372036854775808"; bs "-9223372036854775808"; bs "42"]
  = [Some 0%Z; None; None; None; Some (-9223372036854775808)%Z; Some 42%Z].
Proof. vm_compute. reflexivity. Qed.
Example fold_ex : fold_name (bs "did" ++ [xc5; xbf] ++ bs "uffi" ++ [xe2; x84; xaa]) = bs "DIDSUFFIK".
Proof. vm_compute. reflexivity. Qed.
Example fmt_g_ex :
  map fmt_g [0x444B1AE4D6E2EF50; 0x3EE4F8B588E368F1; 0x3F1A36E2EB1C432D; 0x419D6F3454000000; 0x4132D68780000000; 0x8000000000000000; 1]
  = [bs "1e+21"; bs "1e-05"; bs "0.0001"; bs "1.23456789e+08"; bs "1.2345675e+06"; bs "-0"; bs "5e-324"].
Proof. vm_compute. reflexivity. Qed.
(* the stale element of the backing array comes back: the third "patches" array merges {"e":5} into {"b":2} *)
Example stale_merge :
  option_map (fun r => option_map delta_json (ur_delta r))
    (unmarshal update_member update_zero
       (bs "{""delta"":{""patches"":[{""a"":1},{""b"":2}]},""delta"":{""patches"":[{""c"":3}]},""delta"":{""patches"":[{""d"":4},{""e"":5}]}}"))
  = Some (Some (JObj [(bs "patches",
       JArr [JObj [(bs "a", JNum 0x3FF0000000000000); (bs "c", JNum 0x4008000000000000); (bs "d", JNum 0x4010000000000000)];
             JObj [(bs "b", JNum 0x4000000000000000); (bs "e", JNum 0x4014000000000000)]])])).
Proof. vm_compute. reflexivity. Qed.
