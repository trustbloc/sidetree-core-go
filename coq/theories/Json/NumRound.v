(* Specification of [Num.round_rat] (exact rounding of a positive rational to binary64, nearest / ties to even)
   (C07, numbers).  The statements are in terms of [flog2], [rne], and of a double given by its integer significand
   and exponent field: [dbl_ok], [dbl_E], [dbl_bits], [lowM], [highM], [in_rint], all defined here.
   2^k for an integer k of either sign is the fraction [p2n k / p2d k]. *)
From Coq Require Import ZArith Bool Lia.
From SV Require Import Json.Num.
Local Open Scope Z_scope.

(* b^k as the fraction [pnum (Z.pow b) k / pden (Z.pow b) k]; the power function is a parameter so that a table
   look-up can stand in for it (NumSearch.sweep_with) *)
Definition pnum (pw : Z -> Z) (k : Z) : Z := if 0 <=? k then pw k else 1.
Definition pden (pw : Z -> Z) (k : Z) : Z := if 0 <=? k then 1 else pw (- k).

Lemma pnum_nonneg : forall pw k, 0 <= k -> pnum pw k = pw k.
Proof. intros pw k H. unfold pnum. destruct (Z.leb_spec 0 k); [reflexivity|lia]. Qed.
Lemma pden_nonneg : forall pw k, 0 <= k -> pden pw k = 1.
Proof. intros pw k H. unfold pden. destruct (Z.leb_spec 0 k); [reflexivity|lia]. Qed.

(* the shapes in which the model scales by a power: x * b^k, x / b^k, d * b^k <= n *)
Lemma mul_pnum : forall pw x k, (if 0 <=? k then x * pw k else x) = x * pnum pw k.
Proof. intros pw x k. unfold pnum. destruct (0 <=? k); [reflexivity|now rewrite Z.mul_1_r]. Qed.
Lemma mul_pden : forall pw x k, (if 0 <=? k then x else x * pw (- k)) = x * pden pw k.
Proof. intros pw x k. unfold pden. destruct (0 <=? k); [now rewrite Z.mul_1_r|reflexivity]. Qed.
Lemma leb_pnum_pden : forall pw d n k,
  (if 0 <=? k then d * pw k <=? n else d <=? n * pw (- k)) = (d * pnum pw k <=? n * pden pw k).
Proof. intros pw d n k. unfold pnum, pden. destruct (0 <=? k); now rewrite Z.mul_1_r. Qed.

(* comparing two fractions does not depend on the common scale: a/k = a'/k' and b/k = b'/k' *)
Lemma scale_le : forall a b a' b' k k', 0 < k -> 0 < k' -> a * k' = a' * k -> b * k' = b' * k -> (a <= b <-> a' <= b').
Proof.
  intros a b a' b' k k' Hk Hk' Ha Hb.
  rewrite (Z.mul_le_mono_pos_r a b k' Hk'), Ha, Hb, <- (Z.mul_le_mono_pos_r a' b' k Hk). reflexivity.
Qed.

Lemma scale_lt : forall a b a' b' k k', 0 < k -> 0 < k' -> a * k' = a' * k -> b * k' = b' * k -> (a < b <-> a' < b').
Proof. intros a b a' b' k k' Hk Hk' Ha Hb. rewrite <- !Z.nle_gt. now rewrite (scale_le b a b' a' k k' Hk Hk' Hb Ha). Qed.

Lemma scale_cmp : forall a b a' b' k k', 0 < k -> 0 < k' -> a * k' = a' * k -> b * k' = b' * k -> (a ?= b) = (a' ?= b').
Proof.
  intros a b a' b' k k' Hk Hk' Ha Hb.
  rewrite (Zmult_compare_compat_r a b k'), (Zmult_compare_compat_r a' b' k), Ha, Hb by lia. reflexivity.
Qed.

Section Base.
  Variable b : Z.
  Hypothesis Hb : 0 < b.

  Lemma pnum_pos : forall k, 0 < pnum (Z.pow b) k.
  Proof. intro k. unfold pnum. destruct (0 <=? k) eqn:E; [apply Z.pow_pos_nonneg; lia|lia]. Qed.
  Lemma pden_pos : forall k, 0 < pden (Z.pow b) k.
  Proof. intro k. unfold pden. destruct (0 <=? k) eqn:E; [lia|apply Z.pow_pos_nonneg; lia]. Qed.

  (* b^(a+c) = b^a * b^c *)
  Lemma pnum_pden_add : forall a c,
    pnum (Z.pow b) (a + c) * pden (Z.pow b) a * pden (Z.pow b) c = pnum (Z.pow b) a * pnum (Z.pow b) c * pden (Z.pow b) (a + c).
  Proof.
    intros a c. unfold pnum, pden.
    destruct (Z.leb_spec 0 a) as [Ha|Ha]; destruct (Z.leb_spec 0 c) as [Hc|Hc];
      destruct (Z.leb_spec 0 (a + c)) as [Hac|Hac]; try lia;
      rewrite ?Z.mul_1_r, ?Z.mul_1_l; rewrite <- ?Z.pow_add_r by lia; try (f_equal; lia).
  Qed.

  (* comparison of a rational num/den with a power: den * b^k <= num  is  den * pnum k <= num * pden k;
     it can be made at any scale: b^j <= (num/den) * b^(j-k) *)
  Lemma pnum_scaled_le : forall num den k j, 0 <= j ->
    (den * pnum (Z.pow b) k <= num * pden (Z.pow b) k <->
     b ^ j * (den * pden (Z.pow b) (j - k)) <= num * pnum (Z.pow b) (j - k)).
  Proof.
    intros num den k j Hj. pose proof (pnum_pden_add (j - k) k) as P. replace (j - k + k) with j in P by lia.
    rewrite (pnum_nonneg _ j Hj), (pden_nonneg _ j Hj) in P.
    apply (scale_le _ _ _ _ (pden (Z.pow b) k) (pnum (Z.pow b) (j - k)) (pden_pos _) (pnum_pos _)); [|ring].
    replace (b ^ j * (den * pden (Z.pow b) (j - k)) * pden (Z.pow b) k)
      with (den * (b ^ j * pden (Z.pow b) (j - k) * pden (Z.pow b) k)) by ring. rewrite P. ring.
  Qed.

  Lemma pnum_scaled_lt : forall num den k j, 0 <= j ->
    (num * pden (Z.pow b) k < den * pnum (Z.pow b) k <->
     num * pnum (Z.pow b) (j - k) < b ^ j * (den * pden (Z.pow b) (j - k))).
  Proof. intros num den k j Hj. rewrite <- !Z.nle_gt. now rewrite (pnum_scaled_le num den k j Hj). Qed.
End Base.

Definition p2n (k : Z) : Z := if 0 <=? k then 2 ^ k else 1.
Definition p2d (k : Z) : Z := if 0 <=? k then 1 else 2 ^ (- k).

Lemma p2n_pos : forall k, 0 < p2n k.
Proof. exact (pnum_pos 2 eq_refl). Qed.
Lemma p2d_pos : forall k, 0 < p2d k.
Proof. exact (pden_pos 2 eq_refl). Qed.
Lemma p2_add : forall a b, p2n (a + b) * p2d a * p2d b = p2n a * p2n b * p2d (a + b).
Proof. exact (pnum_pden_add 2 eq_refl). Qed.
Lemma p2n_nonneg : forall k, 0 <= k -> p2n k = 2 ^ k.
Proof. exact (pnum_nonneg (Z.pow 2)). Qed.
Lemma p2d_nonneg : forall k, 0 <= k -> p2d k = 1.
Proof. exact (pden_nonneg (Z.pow 2)). Qed.

Lemma p2n_opp : forall k, p2n (- k) = p2d k.
Proof.
  intro k. unfold p2n, p2d. destruct (Z.leb_spec 0 (- k)) as [H|H]; destruct (Z.leb_spec 0 k) as [H'|H']; try lia;
    try reflexivity.
  assert (k = 0) by lia. subst. reflexivity.
Qed.

Lemma p2d_opp : forall k, p2d (- k) = p2n k.
Proof. intro k. rewrite <- (Z.opp_involutive k) at 2. now rewrite p2n_opp. Qed.

(* a <= b -> 2^a <= 2^b, more precisely 2^b = 2^a * 2^(b-a) *)
Lemma p2_shift : forall a j, 0 <= j -> p2n (a + j) * p2d a = p2n a * 2 ^ j * p2d (a + j).
Proof.
  intros a j Hj. pose proof (p2_add a j) as H. rewrite (p2n_nonneg j Hj), (p2d_nonneg j Hj) in H. lia.
Qed.

Lemma p2_mono : forall a b, a <= b -> p2n a * p2d b <= p2n b * p2d a.
Proof.
  intros a b H. replace b with (a + (b - a)) by lia. rewrite p2_shift by lia.
  assert (1 <= 2 ^ (b - a)) by (apply Z.lt_pred_le, Z.pow_pos_nonneg; lia).
  pose proof (p2n_pos a). pose proof (p2d_pos (a + (b - a))). nia.
Qed.

Lemma scaled_le : forall num den k j, 0 <= j ->
  (den * p2n k <= num * p2d k <-> 2 ^ j * (den * p2d (j - k)) <= num * p2n (j - k)).
Proof. exact (pnum_scaled_le 2 eq_refl). Qed.

Lemma scaled_lt : forall num den k j, 0 <= j ->
  (num * p2d k < den * p2n k <-> num * p2n (j - k) < 2 ^ j * (den * p2d (j - k))).
Proof. exact (pnum_scaled_lt 2 eq_refl). Qed.

Lemma ge_pow_shift : forall num den E j, 0 <= j ->
  (den * p2n (E + j) <= num * p2d (E + j) <-> 2 ^ j * p2n E * den <= num * p2d E).
Proof.
  intros num den E j Hj. rewrite (scaled_le num den (E + j) j Hj). replace (j - (E + j)) with (- E) by lia.
  rewrite p2n_opp, p2d_opp. split; lia.
Qed.

Lemma lt_pow_shift : forall num den E j, 0 <= j ->
  (num * p2d (E + j) < den * p2n (E + j) <-> num * p2d E < 2 ^ j * p2n E * den).
Proof. intros num den E j Hj. rewrite <- !Z.nle_gt. now rewrite (ge_pow_shift num den E j Hj). Qed.

(* a/b < c/d <= e/f *)
Lemma frac_lt_le_trans : forall a b c d e f, 0 < b -> 0 < d -> 0 < f -> a * d < c * b -> c * f <= e * d -> a * f < e * b.
Proof.
  intros a b c d e f Hb Hd Hf H1 H2. apply (Z.mul_lt_mono_pos_r d); [exact Hd|]. apply Z.lt_le_trans with (c * b * f).
  - replace (a * f * d) with (a * d * f) by ring. apply Z.mul_lt_mono_pos_r; assumption.
  - replace (c * b * f) with (c * f * b) by ring. replace (e * b * d) with (e * d * b) by ring.
    apply Z.mul_le_mono_nonneg_r; [lia|exact H2].
Qed.

(* num/den < 2^a <= 2^b *)
Lemma lt_pow_mono : forall num den a b, 0 < den -> a <= b ->
  num * p2d a < den * p2n a -> num * p2d b < den * p2n b.
Proof.
  intros num den a b Hd Hab H. rewrite (Z.mul_comm den) in *.
  exact (frac_lt_le_trans _ _ _ _ _ _ Hd (p2d_pos a) (p2d_pos b) H (p2_mono a b Hab)).
Qed.

(* 2^(l-1) < xn/xd < 2^(l+1) for l = log2 xn - log2 xd *)
Lemma log2_diff_bounds : forall xn xd, 0 < xn -> 0 < xd ->
  let l := Z.log2 xn - Z.log2 xd in
  xd * p2n (l - 1) < xn * p2d (l - 1) /\ xn * p2d (l + 1) < xd * p2n (l + 1).
Proof.
  intros num den Hn Hd. cbv zeta.
  set (a := Z.log2 num). set (b := Z.log2 den). set (l := a - b).
  pose proof (Z.log2_spec num Hn) as [Ha1 Ha2]. fold a in Ha1, Ha2.
  pose proof (Z.log2_spec den Hd) as [Hb1 Hb2]. fold b in Hb1, Hb2.
  assert (Ha0 : 0 <= a) by apply Z.log2_nonneg. assert (Hb0 : 0 <= b) by apply Z.log2_nonneg.
  split.
  - pose proof (p2_add (l - 1) (b + 1)) as H. replace (l - 1 + (b + 1)) with a in H by (unfold l; lia).
    rewrite (p2n_nonneg a), (p2d_nonneg a), (p2n_nonneg (b + 1)), (p2d_nonneg (b + 1)) in H by lia.
    pose proof (p2n_pos (l - 1)). pose proof (p2d_pos (l - 1)).
    replace (Z.succ b) with (b + 1) in Hb2 by lia. nia.
  - pose proof (p2_add (l + 1) b) as H. replace (l + 1 + b) with (a + 1) in H by (unfold l; lia).
    rewrite (p2n_nonneg (a + 1)), (p2d_nonneg (a + 1)), (p2n_nonneg b), (p2d_nonneg b) in H by lia.
    pose proof (p2n_pos (l + 1)). pose proof (p2d_pos (l + 1)).
    replace (Z.succ a) with (a + 1) in Ha2 by lia. nia.
Qed.

(* floor(log2 (num/den)) as computed by round_rat *)
Definition flog2 (num den : Z) : Z :=
  let l := Z.log2 num - Z.log2 den in
  if den * p2n l <=? num * p2d l then l else l - 1.

Lemma flog2_spec : forall num den, 0 < num -> 0 < den ->
  let e := flog2 num den in
  den * p2n e <= num * p2d e /\ num * p2d (e + 1) < den * p2n (e + 1).
Proof.
  intros num den Hn Hd. cbv zeta. unfold flog2. pose proof (log2_diff_bounds num den Hn Hd) as [D U]. cbv zeta in D, U.
  set (l := Z.log2 num - Z.log2 den) in *.
  destruct (Z.leb_spec (den * p2n l) (num * p2d l)) as [G|G].
  - split; [exact G|exact U].
  - split; [lia|]. replace (l - 1 + 1) with l by lia. exact G.
Qed.

(* uniqueness: 2^a <= v < 2^(b+1) -> a <= b *)
Lemma pow_sandwich : forall num den a b, 0 < den ->
  den * p2n a <= num * p2d a -> num * p2d (b + 1) < den * p2n (b + 1) -> a <= b.
Proof.
  intros num den a b Hd H1 H2. destruct (Z.le_gt_cases a b) as [L|L]; [exact L|exfalso].
  apply (lt_pow_mono num den (b + 1) a Hd ltac:(lia)) in H2. lia.
Qed.

(* the binade of num/den: 2^(E+j) <= num/den < 2^(E+j+1) *)
Lemma flog2_binade : forall num den E j, 0 < num -> 0 < den -> 0 <= j ->
  2 ^ j * p2n E * den <= num * p2d E -> num * p2d E < 2 ^ (j + 1) * p2n E * den -> flog2 num den = E + j.
Proof.
  intros num den E j Hn Hd Hj Lo Hi. pose proof (flog2_spec num den Hn Hd) as [F1 F2]. cbv zeta in F1, F2.
  apply Z.le_antisymm.
  - apply (pow_sandwich num den); [exact Hd|exact F1|]. replace (E + j + 1) with (E + (j + 1)) by lia.
    apply lt_pow_shift; [lia|exact Hi].
  - apply (pow_sandwich num den); [exact Hd| |exact F2]. apply ge_pow_shift; [exact Hj|exact Lo].
Qed.

(* round to nearest, ties to even, of n/d *)
Definition rne (n d : Z) : Z :=
  let q := n / d in
  let r := n mod d in
  match 2 * r ?= d with
  | Lt => q
  | Gt => q + 1
  | Eq => if Z.even q then q else q + 1
  end.

Lemma round_rat_eq : forall num den,
  round_rat num den =
  let e := flog2 num den in
  let e' := Z.max e (-1022) in
  let sh := 52 - e' in
  let bits := (e' + 1022) * two52 + rne (num * p2n sh) (den * p2d sh) in
  if bits <? inf_bits then Some bits else None.
Proof.
  intros num den. unfold round_rat, flog2, rne. cbv zeta.
  rewrite (leb_pnum_pden (Z.pow 2)), (mul_pnum (Z.pow 2)), (mul_pden (Z.pow 2)). reflexivity.
Qed.

Section Rne.
  Variables n d : Z.
  Hypothesis Hd : 0 < d.

  Lemma rne_inv : forall m, rne n d = m ->
    (2 * m - 1) * d <= 2 * n <= (2 * m + 1) * d /\ (Z.even m = false -> (2 * m - 1) * d < 2 * n < (2 * m + 1) * d).
  Proof.
    intros m H. unfold rne in H. cbv zeta in H.
    pose proof (Z.div_mod n d ltac:(lia)) as D. pose proof (Z.mod_pos_bound n d Hd) as R.
    set (q := n / d) in *. set (r := n mod d) in *.
    destruct (Z.compare_spec (2 * r) d) as [C|C|C].
    - destruct (Z.even q) eqn:Eq.
      + subst m. split; [nia|]. intro Hf. rewrite Eq in Hf. discriminate.
      + subst m. split; [nia|]. intro Hf. replace (q + 1) with (Z.succ q) in Hf by lia.
        rewrite Z.even_succ, <- Z.negb_even, Eq in Hf. discriminate.
    - subst m. split; [nia|intros _; nia].
    - subst m. split; [nia|intros _; nia].
  Qed.
  Lemma rne_ge : forall a, a * d <= n -> a <= rne n d.
  Proof.
    intros a H. destruct (rne_inv _ eq_refl) as [[_ R2] _].
    assert (A1 : (2 * a) * d < (2 * rne n d + 2) * d) by lia. apply Z.mul_lt_mono_pos_r in A1; [lia|exact Hd].
  Qed.

  Lemma rne_le : forall b, n <= b * d -> rne n d <= b.
  Proof.
    intros b H. destruct (rne_inv _ eq_refl) as [[R1 _] _].
    assert (A1 : (2 * rne n d - 1) * d < (2 * b + 1) * d) by lia. apply Z.mul_lt_mono_pos_r in A1; [lia|exact Hd].
  Qed.

  (* the converse: the interval with its tie rule determines m *)
  Lemma rne_closed : forall m, (2 * m - 1) * d <= 2 * n <= (2 * m + 1) * d ->
    (Z.even m = false -> (2 * m - 1) * d < 2 * n < (2 * m + 1) * d) -> rne n d = m.
  Proof.
    intros m [H1 H2] Ht. destruct (rne_inv _ eq_refl) as [[R1 R2] Rt]. set (q := rne n d) in *.
    assert (A1 : (2 * m - 1) * d <= (2 * q + 1) * d) by lia. assert (A2 : (2 * q - 1) * d <= (2 * m + 1) * d) by lia.
    apply Z.mul_le_mono_pos_r in A1, A2; try exact Hd.
    (* adjacent candidates share the end point 2n, and one of the two is odd *)
    assert (Ev : forall k, Z.even (k + 1) = negb (Z.even k)) by (intro k; now rewrite Z.add_1_r, Z.even_succ, <- Z.negb_even).
    assert (C : q = m \/ q = m + 1 \/ m = q + 1) by lia. destruct C as [C|[C|C]]; [exact C|exfalso|exfalso].
    - rewrite C, Ev in *. destruct (Z.even m); [specialize (Rt eq_refl)|specialize (Ht eq_refl)]; lia.
    - rewrite C, Ev in *. destruct (Z.even q); [specialize (Ht eq_refl)|specialize (Rt eq_refl)]; lia.
  Qed.
End Rne.

(* m = integer significand, expf = exponent field; value m * 2^(dbl_E expf) *)
Definition dbl_ok (m expf : Z) : Prop :=
  (expf = 0 /\ 0 < m < two52) \/ (1 <= expf <= 2046 /\ two52 <= m < 2 * two52).
Definition dbl_E (expf : Z) : Z := Z.max expf 1 - 1075.
Definition dbl_bits (m expf : Z) : Z := (Z.max expf 1 - 1) * two52 + m.
(* the rounding interval in units of 2^E / 4, as in [shortest_search] *)
Definition lowM (m expf : Z) : Z := if (m =? two52) && (1 <? expf) then 4 * m - 1 else 4 * m - 2.
Definition highM (m : Z) : Z := 4 * m + 2.

(* num/den lies in the rounding interval of the double; the end points belong to it iff m is even *)
Definition in_rint (m expf num den : Z) : Prop :=
  let E := dbl_E expf in
  (lowM m expf * p2n E * den <= 4 * num * p2d E <= highM m * p2n E * den) /\
  (Z.even m = false -> lowM m expf * p2n E * den < 4 * num * p2d E < highM m * p2n E * den).

Lemma two52_eq : two52 = 2 ^ 52. Proof. reflexivity. Qed.

Lemma lowM_bounds : forall m expf, 4 * m - 2 <= lowM m expf <= 4 * m - 1.
Proof. intros m expf. unfold lowM. destruct ((m =? two52) && (1 <? expf)); lia. Qed.

Lemma dbl_bits_lt_inf : forall m expf, dbl_ok m expf -> dbl_bits m expf < inf_bits.
Proof. intros m expf H. unfold dbl_ok, dbl_bits, inf_bits, two52 in *. lia. Qed.

(* at the bottom of a binade the interval below is half as wide *)
Lemma lowM_carry : forall m expf, m = two52 -> 1 < expf -> lowM m expf = 4 * two52 - 1.
Proof. intros m expf -> H. unfold lowM. rewrite Z.eqb_refl. destruct (Z.ltb_spec 1 expf); [reflexivity|lia]. Qed.

(* 2^(1-E) * 2^E = 2 *)
Lemma p2_one : forall E, 2 * p2d (1 - E) * p2d E = p2n (1 - E) * p2n E.
Proof.
  intro E. pose proof (p2_add (1 - E) E) as P. replace (1 - E + E) with 1 in P by lia.
  change (p2n 1) with 2 in P. change (p2d 1) with 1 in P. lia.
Qed.

(* the carry case compares num/den with multiples of 2^E / 4 at the scale 2^(1-E) of the next lower binade *)
Lemma carry_le : forall num den X Y A B k, 0 < X -> 0 < B -> 2 * B * Y = A * X ->
  (k * X * den <= 4 * num * Y <-> k * (den * B) <= 2 * (num * A)).
Proof.
  intros num den X Y A B k HX HB HAB. apply (scale_le _ _ _ _ X B HX HB); [ring|].
  replace (2 * (num * A) * X) with (2 * num * (A * X)) by ring. rewrite <- HAB. ring.
Qed.

Lemma carry_lt : forall num den X Y A B k, 0 < X -> 0 < B -> 2 * B * Y = A * X ->
  (4 * num * Y < k * X * den <-> 2 * (num * A) < k * (den * B)).
Proof.
  intros num den X Y A B k HX HB HAB. apply (scale_lt _ _ _ _ X B HX HB); [|ring].
  replace (2 * (num * A) * X) with (2 * num * (A * X)) by ring. rewrite <- HAB. ring.
Qed.

(* the common tail: with the scale 2^-E the quotient rounds to m *)
Lemma rne_scaled : forall m expf num den, 0 < den ->
  in_rint m expf num den ->
  rne (num * p2d (dbl_E expf)) (den * p2n (dbl_E expf)) = m.
Proof.
  intros m expf num den Hd [[H1 H2] Ht]. cbv zeta in *.
  set (X := p2n (dbl_E expf)) in *. set (Y := p2d (dbl_E expf)) in *.
  assert (HX : 0 < X) by apply p2n_pos.
  pose proof (lowM_bounds m expf) as [L1 L2]. unfold highM in *.
  assert (W : 0 < den * X) by nia.
  apply rne_closed; [exact W| |].
  - split; nia.
  - intro Hf. specialize (Ht Hf). split; nia.
Qed.

Theorem round_rat_in : forall m expf num den,
  0 < num -> 0 < den -> dbl_ok m expf -> in_rint m expf num den ->
  round_rat num den = Some (dbl_bits m expf).
Proof.
  intros m expf num den Hn Hd Hok Hin.
  pose proof (rne_scaled m expf num den Hd Hin) as Hr.
  destruct Hin as [[H1 H2] Ht]. cbv zeta in *.
  set (E := dbl_E expf) in *. set (X := p2n E) in *. set (Y := p2d E) in *.
  assert (HX : 0 < X) by apply p2n_pos. assert (HY : 0 < Y) by apply p2d_pos.
  pose proof (lowM_bounds m expf) as [L1 L2]. unfold highM in *.
  assert (HW : 0 < X * den) by nia.
  pose proof (flog2_spec num den Hn Hd) as [F1 F2]. cbv zeta in F1, F2.
  rewrite round_rat_eq. cbv zeta. set (e := flog2 num den) in *.
  (* it suffices to determine e' *)
  assert (Main : Z.max e (-1022) = E + 52 \/
                 (Z.max e (-1022) = E + 51 /\ m = two52 /\ 2 <= expf /\ num * Y < 2 ^ 52 * X * den)).
  { destruct (Z.le_gt_cases (2 ^ 52 * X * den) (num * Y)) as [G|G].
    - (* num/den >= 2^(E+52) *)
      left.
      assert (Hexp : 1 <= expf).
      { destruct Hok as [[-> Hm]|[He _]]; [|lia]. exfalso. unfold two52 in Hm.
        assert ((4 * m + 2) * (X * den) <= (4 * 4503599627370496 - 2) * (X * den)) by (apply Z.mul_le_mono_nonneg_r; lia).
        change (2 ^ 52) with 4503599627370496 in G. nia. }
      assert (Hm : m < 2 * two52) by (destruct Hok as [[-> _]|[_ Hm]]; lia).
      assert (Ee : e = E + 52).
      { apply flog2_binade; [exact Hn|exact Hd|lia|exact G|]. fold X Y. unfold two52 in Hm.
        assert ((4 * m + 2) * (X * den) <= (8 * 4503599627370496 - 2) * (X * den)) by (apply Z.mul_le_mono_nonneg_r; lia).
        change (2 ^ (52 + 1)) with (2 * 4503599627370496). nia. }
      unfold E, dbl_E in *. lia.
    - (* num/den < 2^(E+52) *)
      destruct (Z.le_gt_cases expf 1) as [Hs|Hs].
      + left. assert (EE : E = -1074) by (unfold E, dbl_E; lia).
        assert (E2 : e <= -1023).
        { apply (pow_sandwich num den); [exact Hd|exact F1|]. change (-1023 + 1) with (-1074 + 52). rewrite <- EE.
          apply lt_pow_shift; [lia|exact G]. }
        lia.
      + right.
        assert (Hm : two52 <= m) by (destruct Hok as [[-> _]|[_ Hm]]; lia).
        assert (Hm2 : m = two52).
        { assert (A : lowM m expf * (X * den) < (4 * 2 ^ 52) * (X * den)) by nia.
          apply Z.mul_lt_mono_pos_r in A; [|exact HW]. unfold two52 in *. change (2 ^ 52) with 4503599627370496 in A. lia. }
        split; [|split; [exact Hm2|split; [lia|exact G]]].
        pose proof (lowM_carry m expf Hm2 Hs) as Hl.
        rewrite Hl in *.
        assert (Ee : e = E + 51).
        { apply flog2_binade; [exact Hn|exact Hd|lia| |exact G]. fold X Y.
          unfold two52 in H1. change (2 ^ 51) with 2251799813685248. nia. }
        unfold E, dbl_E in *. lia. }
  destruct Main as [Me|[Me [Hm2 [Hexp G]]]].
  - rewrite Me. replace (52 - (E + 52)) with (- E) by lia. rewrite p2n_opp, p2d_opp. fold X Y. rewrite Hr.
    replace ((E + 52 + 1022) * two52 + m) with (dbl_bits m expf) by (unfold dbl_bits, E, dbl_E; lia).
    pose proof (dbl_bits_lt_inf m expf Hok) as Hb. destruct (Z.ltb_spec (dbl_bits m expf) inf_bits); [reflexivity|lia].
  - rewrite Me. replace (52 - (E + 51)) with (1 - E) by lia.
    set (A := p2n (1 - E)). set (B := p2d (1 - E)).
    assert (HA : 0 < A) by apply p2n_pos. assert (HB : 0 < B) by apply p2d_pos.
    pose proof (p2_one E : 2 * B * Y = A * X) as HAB.
    pose proof (lowM_carry m expf Hm2 ltac:(lia)) as Hl.
    rewrite Hl in *.
    assert (Hrne : rne (num * A) (den * B) = 2 * two52).
    { assert (Hd' : 0 < den * B) by nia.
      assert (Lo : (2 * (2 * two52) - 1) * (den * B) <= 2 * (num * A)).
      { apply (carry_le num den X Y A B _ HX HB HAB) in H1. lia. }
      assert (Hi : 2 * (num * A) < (2 * (2 * two52) + 1) * (den * B)).
      { assert (G4 : 4 * num * Y < 4 * two52 * X * den) by (change (2 ^ 52) with two52 in G; lia).
        apply (carry_lt num den X Y A B _ HX HB HAB) in G4. lia. }
      apply rne_closed; [exact Hd'|lia|]. intro Hf. vm_compute in Hf. discriminate. }
    rewrite Hrne.
    replace ((E + 51 + 1022) * two52 + 2 * two52) with (dbl_bits m expf) by (unfold dbl_bits, E, dbl_E; rewrite Hm2; lia).
    pose proof (dbl_bits_lt_inf m expf Hok) as Hb. destruct (Z.ltb_spec (dbl_bits m expf) inf_bits); [reflexivity|lia].
Qed.

(* used where [injection] would also reduce inside the two sides *)
Lemma Some_inj : forall {A} (a b : A), Some a = Some b -> a = b.
Proof. intros A a b H. now inversion H. Qed.

(* the converse: only the rationals of the rounding interval are rounded to the double *)
Theorem round_rat_inv : forall m expf num den,
  0 < num -> 0 < den -> dbl_ok m expf ->
  round_rat num den = Some (dbl_bits m expf) -> in_rint m expf num den.
Proof.
  intros m expf num den Hn Hd Hok H.
  pose proof (flog2_spec num den Hn Hd) as [F1 F2]. cbv zeta in F1, F2.
  rewrite round_rat_eq in H. cbv zeta in H. set (e := flog2 num den) in *.
  match type of H with (if ?c then _ else _) = _ => destruct c; [|discriminate] end.
  apply Some_inj in H.
  unfold in_rint. cbv zeta.
  set (E := dbl_E expf) in *. set (X := p2n E) in *. set (Y := p2d E) in *.
  assert (HX : 0 < X) by apply p2n_pos. assert (HY : 0 < Y) by apply p2d_pos.
  pose proof (lowM_bounds m expf) as [L1 L2]. unfold highM.
  assert (HW : 0 < X * den) by nia.
  destruct (Z.le_gt_cases (-1022) e) as [Hn1|Hs].
  - (* normal range *)
    rewrite Z.max_l in H by lia.
    set (sh := 52 - e) in *. set (A := p2n sh) in *. set (B := p2d sh) in *.
    assert (HA : 0 < A) by apply p2n_pos. assert (HB : 0 < B) by apply p2d_pos.
    assert (Hd' : 0 < den * B) by nia.
    (* 2^52 <= (num/den) * 2^sh < 2^53 *)
    assert (T1 : 2 ^ 52 * (den * B) <= num * A) by (apply (scaled_le num den e 52); [lia|exact F1]).
    assert (T2 : num * A < 2 ^ 53 * (den * B)).
    { unfold A, B. replace sh with (53 - (e + 1)) by (unfold sh; lia). apply (scaled_lt num den (e + 1) 53); [lia|exact F2]. }
    set (q' := rne (num * A) (den * B)) in *.
    pose proof (rne_inv (num * A) (den * B) Hd' q' eq_refl) as [[R1 R2] Rt].
    pose proof (rne_ge _ _ Hd' _ T1) as Q1. pose proof (rne_le _ _ Hd' _ (Z.lt_le_incl _ _ T2)) as Q2. fold q' in Q1, Q2.
    change (2 ^ 52) with two52 in Q1. change (2 ^ 53) with (2 * two52) in Q2.
    assert (Hexp : 1 <= expf /\ two52 <= m < 2 * two52).
    { destruct Hok as [[-> Hm]|[He Hm]]; [|lia]. exfalso. unfold dbl_bits in H. change (Z.max 0 1) with 1 in H.
      unfold two52 in *. lia. }
    destruct Hexp as [Hexp Hm].
    unfold dbl_bits in H. rewrite Z.max_l in H by lia.
    assert (Cases : (q' = m /\ e = E + 52) \/ (q' = 2 * two52 /\ m = two52 /\ e = E + 51)).
    { unfold E, dbl_E. rewrite Z.max_l by lia. clear - H Q1 Q2 Hm Hexp. unfold two52 in *. lia. }
    destruct Cases as [[Hq He]|[Hq [Hm2 He]]].
    + (* same binade *)
      assert (Hsh : sh = - E) by (unfold sh; lia).
      assert (HAY : A = Y) by (unfold A, Y; rewrite Hsh; apply p2n_opp).
      assert (HBX : B = X) by (unfold B, X; rewrite Hsh; apply p2d_opp).
      rewrite Hq, HAY, HBX in *.
      change (2 ^ 52) with two52 in T1. unfold lowM. destruct ((m =? two52) && (1 <? expf)) eqn:Eb.
      * apply andb_true_iff in Eb. destruct Eb as [Eb _]. apply Z.eqb_eq in Eb. rewrite Eb in *.
        split; [split; nia|]. intro Hf. vm_compute in Hf. discriminate.
      * split; [split; nia|]. intro Hf. specialize (Rt Hf). split; nia.
    + (* carry into the next binade: m = 2^52, the value lies just below it *)
      assert (Hexp2 : 2 <= expf) by (unfold E, dbl_E in He; lia).
      pose proof (lowM_carry m expf Hm2 ltac:(lia)) as Hl.
      assert (Hsh : sh = 1 - E) by (unfold sh; lia).
      assert (HAB : 2 * B * Y = A * X) by (unfold A, B; rewrite Hsh; apply p2_one).
      rewrite Hq in R1, R2. rewrite Hl, Hm2.
      assert (Lo : (4 * two52 - 1) * X * den <= 4 * num * Y).
      { apply (carry_le num den X Y A B _ HX HB HAB). lia. }
      assert (Hi : 4 * num * Y < (4 * two52 + 2) * X * den).
      { apply (carry_lt num den X Y A B _ HX HB HAB). lia. }
      split; [lia|]. intro Hf. vm_compute in Hf. discriminate.
  - (* subnormal range *)
    rewrite Z.max_r in H by lia. change (52 - -1022) with 1074 in H. change (-1022 + 1022) with 0 in H.
    change (p2d 1074) with 1 in H. rewrite Z.mul_1_r in H.
    set (q' := rne (num * p2n 1074) den) in *.
    pose proof (rne_inv (num * p2n 1074) den Hd q' eq_refl) as [[R1 R2] Rt].
    (* num/den < 2^-1022 *)
    assert (T2 : num * p2n 1074 < 2 ^ 52 * den).
    { apply (lt_pow_mono num den (e + 1) (-1022) Hd ltac:(lia)), (scaled_lt num den (-1022) 52 ltac:(lia)) in F2.
      change (52 - -1022) with 1074 in F2. change (p2d 1074) with 1 in F2. lia. }
    assert (Q1 : 0 <= q') by (apply (rne_ge _ _ Hd); apply Z.mul_nonneg_nonneg; [lia|apply Z.lt_le_incl, p2n_pos]).
    pose proof (rne_le _ _ Hd _ (Z.lt_le_incl _ _ T2)) as Q2. fold q' in Q2.
    change (2 ^ 52) with two52 in Q2.
    assert (Hexp : expf <= 1 /\ q' = m).
    { unfold dbl_bits in H. destruct Hok as [[-> Hm]|[He Hm]].
      - change (Z.max 0 1) with 1 in H. lia.
      - rewrite Z.max_l in H by lia. unfold two52 in *. lia. }
    destruct Hexp as [Hexp Hq].
    assert (EE : E = -1074) by (unfold E, dbl_E; lia).
    assert (HXe : X = 1) by (unfold X; rewrite EE; reflexivity).
    assert (HYe : Y = p2n 1074) by (unfold Y; rewrite EE; reflexivity).
    assert (Hl : lowM m expf = 4 * m - 2).
    { unfold lowM. destruct (Z.ltb_spec 1 expf); [lia|]. now rewrite andb_false_r. }
    rewrite Hl, HXe, HYe. rewrite Hq in *.
    split; [lia|]. intro Hf. specialize (Rt Hf). lia.
Qed.

Corollary round_rat_iff : forall m expf num den,
  0 < num -> 0 < den -> dbl_ok m expf ->
  (round_rat num den = Some (dbl_bits m expf) <-> in_rint m expf num den).
Proof. intros. split; [now apply round_rat_inv|now apply round_rat_in]. Qed.

Print Assumptions round_rat_iff.
