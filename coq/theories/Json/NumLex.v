(* Lexical lemmas about the ES6 number printer's layouts (C07): what [parse_number] (model of strconv.ParseFloat)
   and [lex_number] (the number lexer of encoding/json) do on the texts laid out by [layout_f] / [layout_e].
   No floating-point reasoning here: the results are stated up to [round_rat]. *)
From Coq Require Import String List NArith ZArith Bool Lia.
From Coq.Strings Require Import Byte.
From SV Require Import Base.Bytes Base.BytesFacts Json.Utf Json.Num Json.NumProofs Json.GoJson.
Import ListNotations.
Local Open Scope Z_scope.

(** * Decimal digit strings *)

Definition L (c : Z) : Z := Z.of_nat (length (dec_string c)).
Definition len (ds : bytes) : Z := Z.of_nat (length ds).

(* value of a digit string, with an accumulator (what the mantissa loop computes) *)
Definition dvala (a : Z) (ds : bytes) : Z := fold_left (fun a d => a * 10 + (bZ d - 48)) ds a.
Definition dval (ds : bytes) : Z := dvala 0 ds.

Lemma len_nil : len [] = 0.
Proof. reflexivity. Qed.

Lemma len_cons : forall d ds, len (d :: ds) = len ds + 1.
Proof. intros d ds. unfold len. cbn [length]. lia. Qed.

Lemma len_app : forall a b, len (a ++ b) = len a + len b.
Proof. intros a b. unfold len. rewrite app_length. lia. Qed.

Lemma len_nonneg : forall ds, 0 <= len ds.
Proof. intro ds. unfold len. lia. Qed.

Lemma dvala_cons : forall a d ds, dvala a (d :: ds) = dvala (a * 10 + (bZ d - 48)) ds.
Proof. reflexivity. Qed.

Lemma dvala_app : forall a x y, dvala a (x ++ y) = dvala (dvala a x) y.
Proof. intros a x y. unfold dvala. apply fold_left_app. Qed.

Lemma dvala_lin : forall ds a, dvala a ds = a * 10 ^ len ds + dval ds.
Proof.
  induction ds as [|d r IH]; intro a.
  - unfold dval, dvala. cbn [fold_left]. rewrite len_nil. cbn [Z.pow]. lia.
  - unfold dval. rewrite !dvala_cons. rewrite (IH (a * 10 + (bZ d - 48))), (IH (0 * 10 + (bZ d - 48))).
    rewrite len_cons. rewrite Z.pow_add_r by (try apply len_nonneg; lia).
    change (10 ^ 1) with 10. ring.
Qed.

Lemma dval_app : forall a b, dval (a ++ b) = dval a * 10 ^ len b + dval b.
Proof. intros a b. unfold dval at 1. rewrite dvala_app. fold (dval a). apply dvala_lin. Qed.

Lemma is_digit_b_eq : forall d, is_digit_b d = (48 <=? bZ d) && (bZ d <=? 57).
Proof. intro d. destruct d; reflexivity. Qed.

Lemma digit_b_range : forall d, is_digit_b d = true -> 48 <= bZ d <= 57.
Proof. intros d H. rewrite is_digit_b_eq in H. apply andb_true_iff in H. rewrite !Z.leb_le in H. exact H. Qed.

Lemma digitc_digit_b : forall d, digitc d -> is_digit_b d = true.
Proof.
  intros d H. unfold digitc in H. rewrite is_digit_b_eq. unfold bZ. fold (bN d).
  apply andb_true_iff. rewrite !Z.leb_le. lia.
Qed.

Lemma digit_b_x30 : forall d, bZ d = 48 -> d = x30.
Proof. intros d H. apply byte_to_N_inj. apply N2Z.inj. exact H. Qed.

Lemma bZ_x30 : bZ x30 = 48.
Proof. reflexivity. Qed.

Lemma forallb_digit_app : forall a b,
  forallb is_digit_b (a ++ b) = true <-> forallb is_digit_b a = true /\ forallb is_digit_b b = true.
Proof. intros a b. rewrite forallb_app. apply andb_true_iff. Qed.

Lemma dvala_ge_acc : forall ds a, forallb is_digit_b ds = true -> 0 <= a -> a <= dvala a ds.
Proof.
  induction ds as [|d r IH]; intros a H Ha.
  - unfold dvala. cbn [fold_left]. lia.
  - cbn [forallb] in H. apply andb_true_iff in H. destruct H as [Hd Hr].
    rewrite dvala_cons. apply digit_b_range in Hd.
    specialize (IH (a * 10 + (bZ d - 48)) Hr ltac:(lia)). lia.
Qed.

Definition dg (z : Z) : byte := zbyte (48 + z mod 10).

Lemma z_digits_app : forall f z acc, z_digits f z acc = z_digits f z [] ++ acc.
Proof.
  induction f as [|f IH]; intros z acc; [reflexivity|].
  rewrite !z_digits_S. destruct (z <? 10); [reflexivity|].
  rewrite (IH (z / 10) (zbyte (48 + z mod 10) :: acc)), (IH (z / 10) [zbyte (48 + z mod 10)]).
  rewrite <- app_assoc. reflexivity.
Qed.

Lemma zd_S : forall f z,
  z_digits (S f) z [] = if z <? 10 then [dg z] else z_digits f (z / 10) [] ++ [dg z].
Proof.
  intros f z. rewrite z_digits_S. unfold dg. destruct (z <? 10); [reflexivity|]. apply z_digits_app.
Qed.

Lemma dec_string_digits_b : forall c, forallb is_digit_b (dec_string c) = true.
Proof.
  intro c. apply forallb_forall. intros x Hx. apply digitc_digit_b.
  exact (proj1 (Forall_forall _ _) (dec_string_chars c) x Hx).
Qed.

Lemma zd_spec : forall f z, 0 < z < 10 ^ Z.of_nat f ->
  dval (z_digits f z []) = z /\
  10 ^ (len (z_digits f z []) - 1) <= z < 10 ^ len (z_digits f z []) /\
  exists d r, z_digits f z [] = d :: r /\ d <> x30.
Proof.
  induction f as [|f IH]; intros z Hz.
  - cbn in Hz. lia.
  - rewrite zd_S. rewrite Nat2Z.inj_succ, Z.pow_succ_r in Hz by lia.
    pose proof (Z.mod_pos_bound z 10 ltac:(lia)) as Hm.
    pose proof (Z.div_mod z 10 ltac:(lia)) as Hdm.
    pose proof (bZ_zbyte_digit (z mod 10) Hm) as Hv. fold (dg z) in Hv.
    destruct (z <? 10) eqn:E.
    + apply Z.ltb_lt in E. assert (Hz10 : z mod 10 = z) by (apply Z.mod_small; lia).
      split; [|split].
      * unfold dval. rewrite dvala_cons. unfold dvala. cbn [fold_left]. lia.
      * rewrite len_cons, len_nil. change (10 ^ (0 + 1 - 1)) with 1. change (10 ^ (0 + 1)) with 10. lia.
      * exists (dg z), []. split; [reflexivity|]. intro Ex. rewrite Ex in Hv. rewrite bZ_x30 in Hv. lia.
    + apply Z.ltb_ge in E.
      assert (Hq : 0 < z / 10 < 10 ^ Z.of_nat f).
      { split; [apply Z.div_str_pos; lia|apply Z.div_lt_upper_bound; lia]. }
      destruct (IH (z / 10) Hq) as [Hval [Hlen [d [r [Hd Hnz]]]]].
      set (dq := z_digits f (z / 10) []) in *.
      assert (Hl1 : 1 <= len dq) by (rewrite Hd, len_cons; pose proof (len_nonneg r); lia).
      split; [|split].
      * rewrite dval_app. rewrite Hval. rewrite len_cons, len_nil. change (10 ^ (0 + 1)) with 10.
        unfold dval. rewrite dvala_cons. unfold dvala. cbn [fold_left]. lia.
      * rewrite len_app, len_cons, len_nil.
        replace (len dq + (0 + 1) - 1) with (Z.succ (len dq - 1)) by lia.
        replace (len dq + (0 + 1)) with (Z.succ (len dq)) by lia.
        rewrite !Z.pow_succ_r by lia.
        replace (Z.succ (len dq - 1)) with (len dq) in * by lia. lia.
      * exists d, (r ++ [dg z]). split; [rewrite Hd; reflexivity|exact Hnz].
Qed.

Lemma zd_fuel : forall f z, 0 < z < 10 ^ Z.of_nat f -> z_digits (S f) z [] = z_digits f z [].
Proof.
  induction f as [|f IH]; intros z Hz.
  - cbn in Hz. lia.
  - rewrite (zd_S (S f) z), (zd_S f z). destruct (z <? 10) eqn:E; [reflexivity|]. apply Z.ltb_ge in E.
    rewrite Nat2Z.inj_succ, Z.pow_succ_r in Hz by lia.
    rewrite IH; [reflexivity|]. split; [apply Z.div_str_pos; lia|apply Z.div_lt_upper_bound; lia].
Qed.

(* 10 ^ 25: [dec_string] has fuel for 25 digits *)
Lemma dec_string_spec : forall c, 0 < c < 10 ^ 25 ->
  dval (dec_string c) = c /\ 10 ^ (L c - 1) <= c < 10 ^ (L c) /\ exists d r, dec_string c = d :: r /\ d <> x30.
Proof. intros c H. unfold L, dec_string. apply zd_spec. exact H. Qed.

Lemma dec_string_len_spec : forall c, 0 < c < 10 ^ 25 -> 10 ^ (L c - 1) <= c < 10 ^ (L c).
Proof. intros c H. apply (dec_string_spec c H). Qed.

Lemma dval_dec_string : forall c, 0 <= c < 10 ^ 25 -> dval (dec_string c) = c.
Proof.
  intros c H. destruct (Z.eq_dec c 0) as [E|E]; [subst; reflexivity|].
  apply (dec_string_spec c). lia.
Qed.

Lemma L_pos : forall c, 0 < c < 10 ^ 25 -> 1 <= L c.
Proof.
  intros c H. destruct (dec_string_spec c H) as [_ [_ [d [r [E _]]]]]. unfold L. rewrite E. cbn [length]. lia.
Qed.

Lemma dec_string_mul10 : forall c, 0 < c -> c * 10 < 10 ^ 25 -> dec_string (c * 10) = dec_string c ++ [x30].
Proof.
  intros c Hc Hb. unfold dec_string. change 25%nat with (S 24). rewrite zd_S.
  destruct (c * 10 <? 10) eqn:E; [apply Z.ltb_lt in E; lia|].
  rewrite Z.div_mul by lia. unfold dg. rewrite Z.mod_mul by lia. change (zbyte (48 + 0)) with x30.
  rewrite (zd_fuel 24 c); [reflexivity|]. change (10 ^ Z.of_nat 24) with (10 ^ 24).
  change (10 ^ 25) with (10 * 10 ^ 24) in Hb. lia.
Qed.

Lemma dec_string_mul_pow : forall (k : nat) c, 0 < c -> c * 10 ^ Z.of_nat k < 10 ^ 25 ->
  dec_string (c * 10 ^ Z.of_nat k) = dec_string c ++ repeat x30 k.
Proof.
  induction k as [|k IH]; intros c Hc Hb.
  - cbn [repeat]. rewrite app_nil_r. change (10 ^ Z.of_nat 0) with 1. rewrite Z.mul_1_r. reflexivity.
  - rewrite Nat2Z.inj_succ, Z.pow_succ_r in * by lia.
    assert (Hp : 0 < 10 ^ Z.of_nat k) by (apply Z.pow_pos_nonneg; lia).
    replace (c * (10 * 10 ^ Z.of_nat k)) with (c * 10 ^ Z.of_nat k * 10) in * by ring.
    rewrite dec_string_mul10 by nia. rewrite IH by nia.
    rewrite <- app_assoc. f_equal. change (repeat x30 (S k)) with (x30 :: repeat x30 k).
    symmetry. apply repeat_cons.
Qed.

Lemma strip_zeros_spec : forall f c, 0 < c -> exists z, 0 <= z /\ c = strip_zeros f c * 10 ^ z /\ 0 < strip_zeros f c.
Proof.
  induction f as [|f IH]; intros c Hc.
  - exists 0. cbn [strip_zeros]. change (10 ^ 0) with 1. lia.
  - cbn [strip_zeros]. destruct ((c mod 10 =? 0) && (0 <? c)) eqn:E.
    + apply andb_true_iff in E. destruct E as [E _]. apply Z.eqb_eq in E.
      pose proof (Z.div_mod c 10 ltac:(lia)) as Hdm.
      assert (Hq : 0 < c / 10) by lia.
      destruct (IH (c / 10) Hq) as [z [Hz [Heq Hpos]]].
      exists (Z.succ z). split; [lia|]. split; [|exact Hpos].
      rewrite Z.pow_succ_r by lia. rewrite Hdm at 1. rewrite E. rewrite Heq at 1. ring.
    + exists 0. change (10 ^ 0) with 1. lia.
Qed.

Lemma strip_zeros_len : forall f c, 0 < c < 10 ^ 25 ->
  exists z, 0 <= z /\ c = strip_zeros f c * 10 ^ z /\ 0 < strip_zeros f c /\ L c = L (strip_zeros f c) + z.
Proof.
  intros f c Hc. destruct (strip_zeros_spec f c ltac:(lia)) as [z [Hz [Heq Hpos]]].
  exists z. split; [exact Hz|]. split; [exact Heq|]. split; [exact Hpos|].
  set (s := strip_zeros f c) in *.
  unfold L at 1. rewrite Heq. rewrite <- (Z2Nat.id z Hz).
  rewrite dec_string_mul_pow; [|exact Hpos|rewrite Z2Nat.id by exact Hz; lia].
  rewrite app_length, repeat_length. unfold L. lia.
Qed.

Lemma digit_step : forall d, is_digit_b d = true ->
  (bZ d =? 95) = false /\ (bZ d =? 46) = false /\ is_digit (bZ d) = true.
Proof.
  intros d H. apply digit_b_range in H. unfold is_digit.
  split; [apply Z.eqb_neq; lia|]. split; [apply Z.eqb_neq; lia|].
  apply andb_true_iff. split; apply Z.leb_le; lia.
Qed.

Definition sawd (ds : bytes) (b : bool) : bool := match ds with [] => b | _ :: _ => true end.

Lemma read_mant_digits_pos : forall ds rest st, forallb is_digit_b ds = true -> 0 < m_nd st ->
  read_mant false (map bZ ds ++ rest) st =
  read_mant false rest (Build_mant (dvala (m_val st) ds) (m_nd st + len ds) (m_dp st) (m_sawdot st)
                                   (sawd ds (m_sawdigits st)) (m_us st)).
Proof.
  induction ds as [|d r IH]; intros rest st H Hnd.
  - destruct st as [v nd dp sd sg us]. cbn [map app m_val m_nd m_dp m_sawdot m_sawdigits m_us sawd].
    unfold dvala. cbn [fold_left]. rewrite len_nil, Z.add_0_r. reflexivity.
  - cbn [forallb] in H. apply andb_true_iff in H. destruct H as [Hd Hr].
    destruct (digit_step d Hd) as [E1 [E2 E3]].
    cbn [map app read_mant]. rewrite E1, E2, E3.
    assert (E4 : (m_nd st =? 0) = false) by (apply Z.eqb_neq; lia).
    rewrite E4, andb_false_r.
    rewrite IH; [|exact Hr|cbn [m_nd]; lia].
    cbn [m_val m_nd m_dp m_sawdot m_sawdigits m_us].
    f_equal. rewrite dvala_cons, len_cons. f_equal; [lia|destruct r; reflexivity].
Qed.

Lemma read_mant_digits_nz : forall ds rest st, forallb is_digit_b ds = true ->
  (exists d r, ds = d :: r /\ d <> x30) -> 0 <= m_nd st ->
  read_mant false (map bZ ds ++ rest) st =
  read_mant false rest (Build_mant (dvala (m_val st) ds) (m_nd st + len ds) (m_dp st) (m_sawdot st)
                                   true (m_us st)).
Proof.
  intros ds rest st H [d [r [E Hnz]]] Hnd. subst ds.
  cbn [forallb] in H. apply andb_true_iff in H. destruct H as [Hd Hr].
  destruct (digit_step d Hd) as [E1 [E2 E3]].
  cbn [map app read_mant]. rewrite E1, E2, E3.
  assert (E4 : (bZ d =? 48) = false).
  { apply Z.eqb_neq. intro E. apply Hnz. apply digit_b_x30. exact E. }
  rewrite E4, andb_false_l.
  rewrite read_mant_digits_pos; [|exact Hr|cbn [m_nd]; lia].
  cbn [m_val m_nd m_dp m_sawdot m_sawdigits m_us].
  f_equal. rewrite dvala_cons, len_cons. f_equal; [lia|destruct r; reflexivity].
Qed.

Lemma zeros_digits_b : forall k, forallb is_digit_b (repeat x30 k) = true.
Proof. induction k as [|k IH]; [reflexivity|]. cbn [repeat forallb]. rewrite IH. reflexivity. Qed.

Lemma dvala_zeros : forall k a, dvala a (repeat x30 k) = a * 10 ^ Z.of_nat k.
Proof.
  induction k as [|k IH]; intro a.
  - unfold dvala. cbn [repeat fold_left]. change (10 ^ Z.of_nat 0) with 1. lia.
  - cbn [repeat]. rewrite dvala_cons, IH. rewrite bZ_x30. rewrite Nat2Z.inj_succ, Z.pow_succ_r by lia. ring.
Qed.

Lemma len_zeros : forall k, len (repeat x30 k) = Z.of_nat k.
Proof. intro k. unfold len. rewrite repeat_length. reflexivity. Qed.

(* a run of zeros after at least one significant digit: they count *)
Lemma read_mant_zeros_pos : forall k rest st, 0 < m_nd st ->
  read_mant false (map bZ (repeat x30 k) ++ rest) st =
  read_mant false rest (Build_mant (m_val st * 10 ^ Z.of_nat k) (m_nd st + Z.of_nat k) (m_dp st) (m_sawdot st)
                                   (sawd (repeat x30 k) (m_sawdigits st)) (m_us st)).
Proof.
  intros k rest st Hnd. rewrite read_mant_digits_pos; [|apply zeros_digits_b|exact Hnd].
  rewrite dvala_zeros, len_zeros. reflexivity.
Qed.

(* leading zeros (no significant digit yet): only the decimal point moves *)
Lemma read_mant_zeros_lead : forall k rest st, m_nd st = 0 ->
  read_mant false (map bZ (repeat x30 k) ++ rest) st =
  read_mant false rest (Build_mant (m_val st) 0 (m_dp st - Z.of_nat k) (m_sawdot st)
                                   (sawd (repeat x30 k) (m_sawdigits st)) (m_us st)).
Proof.
  induction k as [|k IH]; intros rest st Hnd.
  - destruct st as [v nd dp sd sg us]. cbn [m_nd] in Hnd. subst nd.
    cbn [repeat map app m_val m_nd m_dp m_sawdot m_sawdigits m_us sawd]. change (Z.of_nat 0) with 0.
    rewrite Z.sub_0_r. reflexivity.
  - cbn [repeat map app read_mant]. rewrite bZ_x30.
    change (48 =? 95) with false. change (48 =? 46) with false. change (is_digit 48) with true.
    change (48 =? 48) with true. rewrite Hnd. change (0 =? 0) with true. cbn [andb]. cbv iota.
    rewrite IH by reflexivity.
    cbn [m_val m_nd m_dp m_sawdot m_sawdigits m_us sawd].
    f_equal. f_equal; [lia|destruct k; reflexivity].
Qed.

Lemma read_mant_dot : forall rest st, m_sawdot st = false ->
  read_mant false (46 :: rest) st =
  read_mant false rest (Build_mant (m_val st) (m_nd st) (m_nd st) true (m_sawdigits st) (m_us st)).
Proof. intros rest st H. cbn [read_mant]. change (46 =? 95) with false. change (46 =? 46) with true. rewrite H. reflexivity. Qed.

Lemma read_mant_nil : forall st, read_mant false [] st = (st, []).
Proof. reflexivity. Qed.

Lemma read_mant_e : forall rest st, read_mant false (101 :: rest) st = (st, 101 :: rest).
Proof. reflexivity. Qed.

(* the value of a digit string as read by the mantissa loop from the initial state *)
Lemma read_mant_dec_string : forall c rest st, 0 < c < 10 ^ 25 -> 0 <= m_nd st ->
  read_mant false (map bZ (dec_string c) ++ rest) st =
  read_mant false rest (Build_mant (m_val st * 10 ^ L c + c) (m_nd st + L c) (m_dp st) (m_sawdot st) true (m_us st)).
Proof.
  intros c rest st Hc Hnd. destruct (dec_string_spec c Hc) as [Hv [_ Hh]].
  rewrite read_mant_digits_nz; [|apply dec_string_digits_b|exact Hh|exact Hnd].
  rewrite dvala_lin, Hv. reflexivity.
Qed.

Lemma read_mant_zeros : forall k rest st, 0 <= k ->
  read_mant false (map bZ (zeros k) ++ rest) st =
  if m_nd st =? 0
  then read_mant false rest (Build_mant (m_val st) 0 (m_dp st - k) (m_sawdot st)
                                        (sawd (zeros k) (m_sawdigits st)) (m_us st))
  else if 0 <? m_nd st
  then read_mant false rest (Build_mant (m_val st * 10 ^ k) (m_nd st + k) (m_dp st) (m_sawdot st)
                                        (sawd (zeros k) (m_sawdigits st)) (m_us st))
  else read_mant false (map bZ (zeros k) ++ rest) st.
Proof.
  intros k rest st Hk. unfold zeros.
  destruct (m_nd st =? 0) eqn:E.
  - apply Z.eqb_eq in E. rewrite read_mant_zeros_lead by exact E. rewrite Z2Nat.id by exact Hk. reflexivity.
  - destruct (0 <? m_nd st) eqn:E2; [|reflexivity]. apply Z.ltb_lt in E2.
    rewrite read_mant_zeros_pos by exact E2. rewrite Z2Nat.id by exact Hk. reflexivity.
Qed.

(** * What ParseFloat reads from a laid-out number *)

Definition nohex (s : list Z) : Prop :=
  match s with
  | c0 :: c1 :: _ :: _ => (c0 =? 48) && (lower c1 =? 120) = false
  | _ => True
  end.

Lemma hexsplit_nohex : forall s1 : list Z, nohex s1 ->
  match s1 with
  | c0 :: c1 :: ((_ :: _) as r2) =>
    if (c0 =? 48) && (lower c1 =? 120) then (true, r2) else (false, s1)
  | _ => (false, s1)
  end = (false, s1).
Proof.
  intros s1 H. destruct s1 as [|c0 [|c1 [|c2 r]]]; try reflexivity.
  cbn [nohex] in H. rewrite H. reflexivity.
Qed.

(* summary of the state after the mantissa loop: value, digit count, effective decimal point *)
Definition mant_ok (st : mant) (v nd dp : Z) : Prop :=
  m_val st = v /\ m_nd st = nd /\ (if m_sawdot st then m_dp st else m_nd st) = dp /\
  m_sawdigits st = true /\ m_us st = false.

(* -330 <= dp + e <= 310 is the range of decimal magnitudes in which [parse_number] asks [round_rat]; beyond it
   the answer is overflow or zero by the magnitude alone *)
Lemma parse_number_shape : forall (neg : bool) tok s st s3 e v nd dp,
  map bZ tok = (if neg then [45] else []) ++ s ->
  (exists c r, s = c :: r /\ is_digit c = true) ->
  nohex s ->
  read_mant false s mant0 = (st, s3) ->
  mant_ok st v nd dp ->
  read_exp false s3 = Some (e, false, []) ->
  v <> 0 ->
  -330 <= dp + e <= 310 ->
  parse_number tok =
  match round_rat (dec_num v (dp + e - nd)) (dec_den (dp + e - nd)) with
  | Some b => Some (signed neg b)
  | None => None
  end.
Proof.
  intros neg tok s st s3 e v nd dp Hmap [c [r [Es Hc]]] Hnh Hrm [Hv [Hnd [Hdp [Hsd Hus]]]] Hex Hv0 Hmag.
  assert (Hc' : (c =? 43) = false /\ (c =? 45) = false).
  { unfold is_digit in Hc. apply andb_true_iff in Hc. destruct Hc as [H1 H2]. apply Z.leb_le in H1, H2.
    split; apply Z.eqb_neq; lia. }
  destruct Hc' as [E43 E45].
  assert (Ev0 : (v =? 0) = false) by (apply Z.eqb_neq; exact Hv0).
  assert (Em1 : (310 <? dp + e) = false) by (apply Z.ltb_ge; lia).
  assert (Em2 : (dp + e <? -330) = false) by (apply Z.ltb_ge; lia).
  unfold parse_number. rewrite Hmap.
  (* the sign is consumed (or the head is a digit); from there both cases read the same *)
  destruct neg; cbn [app];
    [change (45 =? 43) with false; change (45 =? 45) with true|rewrite Es at 1; cbv beta iota; rewrite E43, E45];
    cbv beta iota; rewrite (hexsplit_nohex s Hnh); cbv beta iota;
    rewrite Hrm; cbv beta iota; rewrite Hsd; cbn [negb]; cbv iota;
    rewrite Hex; cbv beta iota; rewrite Hus; cbn [orb andb]; cbv iota;
    rewrite Hv, Ev0; cbv iota; rewrite Hdp, Hnd;
    (replace (dp + e - nd + nd) with (dp + e) by lia); rewrite Em1, Em2; reflexivity.
Qed.

Lemma nohex_head : forall c r, c <> 48 -> nohex (c :: r).
Proof.
  intros c r H. destruct r as [|c1 [|c2 r]]; cbn [nohex]; trivial.
  apply Z.eqb_neq in H. rewrite H. reflexivity.
Qed.

(* the digit strings the layouts are applied to *)
Definition digs_ok (digs : bytes) : Prop :=
  forallb is_digit_b digs = true /\ exists d r, digs = d :: r /\ d <> x30.

Lemma digs_ok_len : forall digs, digs_ok digs -> 1 <= len digs.
Proof. intros digs [_ [d [r [E _]]]]. subst. rewrite len_cons. pose proof (len_nonneg r). lia. Qed.

Lemma digs_ok_dec_string : forall c, 0 < c < 10 ^ 25 -> digs_ok (dec_string c).
Proof.
  intros c H. split; [apply dec_string_digits_b|apply (dec_string_spec c H)].
Qed.

Lemma read_exp_digits_spec : forall ds e us, forallb is_digit_b ds = true -> 0 <= e -> dvala e ds < 10000 ->
  read_exp_digits (map bZ ds) e us = (dvala e ds, us, []).
Proof.
  induction ds as [|d r IH]; intros e us H He Hb.
  - reflexivity.
  - cbn [forallb] in H. apply andb_true_iff in H. destruct H as [Hd Hr].
    destruct (digit_step d Hd) as [_ [_ E3]]. pose proof (digit_b_range d Hd) as Hrg.
    rewrite dvala_cons in *.
    pose proof (dvala_ge_acc r (e * 10 + (bZ d - 48)) Hr ltac:(lia)) as Hmono.
    cbn [map read_exp_digits]. rewrite E3.
    assert (E4 : (e <? 10000) = true) by (apply Z.ltb_lt; lia). rewrite E4.
    apply IH; [exact Hr|lia|exact Hb].
Qed.

Definition exp_part (n : Z) : bytes :=
  [x65] ++ (if 0 <=? n - 1 then [x2b] else [x2d]) ++ dec_string (Z.abs (n - 1)).

Lemma read_exp_layout : forall n, -10000 < n - 1 < 10000 ->
  read_exp false (map bZ (exp_part n)) = Some (n - 1, false, []).
Proof.
  intros n Hn. unfold exp_part.
  set (x := Z.abs (n - 1)).
  assert (Hx : 0 <= x < 10000) by (unfold x; lia).
  assert (Hx25 : 0 <= x < 10 ^ 25).
  { split; [lia|]. apply Z.lt_trans with 10000; [lia|reflexivity]. }
  pose proof (dec_string_digits_b x) as Hd. pose proof (dval_dec_string x Hx25) as Hv.
  pose proof (dec_string_nonempty x) as Hne.
  destruct (dec_string x) as [|d r] eqn:Eds; [contradiction|].
  assert (Hd0 : is_digit (bZ d) = true).
  { cbn [forallb] in Hd. apply andb_true_iff in Hd. apply (digit_step d (proj1 Hd)). }
  assert (Hred : read_exp_digits (map bZ (d :: r)) 0 false = (x, false, [])).
  { rewrite read_exp_digits_spec; [rewrite <- Hv; reflexivity|exact Hd|lia|].
    change (dvala 0 (d :: r)) with (dval (d :: r)). lia. }
  destruct (Z.leb_spec 0 (n - 1)) as [E|E]; cbn [app map]; change (bZ x65) with 101;
    unfold read_exp; change (lower 101 =? 101) with true; cbv iota;
    [change (bZ x2b) with 43; change (43 =? 43) with true
    |change (bZ x2d) with 45; change (45 =? 43) with false; change (45 =? 45) with true];
    cbv iota beta; change (bZ d :: map bZ r) with (map bZ (d :: r)); rewrite Hd0, Hred;
    do 3 f_equal; unfold x; lia.
Qed.

(* the text of a number: integer digits, optional fraction, optional exponent *)
Definition frac_text (fp : bytes) : bytes := match fp with [] => [] | _ :: _ => x2e :: fp end.
Definition exp_text (ex : option Z) : bytes := match ex with None => [] | Some n => exp_part n end.
Definition exp_val (ex : option Z) : Z := match ex with None => 0 | Some n => n - 1 end.
Definition numtext (ip fp : bytes) (ex : option Z) : bytes := ip ++ frac_text fp ++ exp_text ex.

(* [sig]: the digits from the first non-zero one on; [dp]: how many of them stand before the decimal point (when
   negative: the number of zeros between the point and [sig]).  Either the integer part starts with a non-zero
   digit, or it is "0" and the fraction is zeros followed by [sig]. *)
Definition shape (ip fp sig : bytes) (dp : Z) : Prop :=
  (digs_ok ip /\ forallb is_digit_b fp = true /\ sig = ip ++ fp /\ dp = len ip) \/
  (exists j, ip = [x30] /\ fp = repeat x30 j ++ sig /\ digs_ok sig /\ dp = - Z.of_nat j).

Lemma frac_text_sig : forall zs sig, digs_ok sig -> frac_text (zs ++ sig) = x2e :: zs ++ sig.
Proof. intros zs sig [_ [d [r [-> _]]]]. destruct zs; reflexivity. Qed.

Lemma read_mant_shape : forall ip fp sig dp tail, shape ip fp sig dp ->
  exists st, read_mant false (map bZ (ip ++ frac_text fp) ++ tail) mant0 = read_mant false tail st /\
             mant_ok st (dval sig) (len sig) dp.
Proof.
  intros ip fp sig dp tail [[Hok [Hf [-> ->]]]|[j [-> [-> [Hok ->]]]]].
  - pose proof (digs_ok_len ip Hok) as Hl. destruct Hok as [Hd Hh]. rewrite map_app, <- app_assoc.
    rewrite read_mant_digits_nz; [|exact Hd|exact Hh|cbn [m_nd mant0]; lia].
    destruct fp as [|f fp'].
    + cbn [frac_text map app]. rewrite app_nil_r. eexists. split; [reflexivity|].
      unfold mant_ok. cbn [m_val m_nd m_dp m_sawdot m_sawdigits m_us mant0].
      split; [reflexivity|]. split; [lia|]. split; [lia|]. split; reflexivity.
    + cbn [frac_text]. change (map bZ (x2e :: f :: fp')) with (46 :: map bZ (f :: fp')). cbn [app].
      rewrite read_mant_dot by reflexivity. rewrite read_mant_digits_pos; [|exact Hf|cbn [m_nd mant0]; lia].
      eexists. split; [reflexivity|].
      unfold mant_ok. cbn [m_val m_nd m_dp m_sawdot m_sawdigits m_us mant0 sawd].
      split; [rewrite <- dvala_app; reflexivity|]. split; [rewrite len_app; lia|]. split; [lia|]. split; reflexivity.
  - rewrite (frac_text_sig _ _ Hok). destruct Hok as [Hd Hh].
    change ([x30] ++ x2e :: repeat x30 j ++ sig) with (repeat x30 1 ++ [x2e] ++ repeat x30 j ++ sig).
    rewrite !map_app, <- !app_assoc.
    rewrite read_mant_zeros_lead by reflexivity.
    change (map bZ [x2e]) with [46]. cbn [app].
    rewrite read_mant_dot by reflexivity.
    rewrite read_mant_zeros_lead by reflexivity.
    rewrite read_mant_digits_nz; [|exact Hd|exact Hh|cbn [m_nd]; lia].
    eexists. split; [reflexivity|].
    unfold mant_ok. cbn [m_val m_nd m_dp m_sawdot m_sawdigits m_us mant0].
    split; [reflexivity|]. split; [lia|]. split; [lia|]. split; reflexivity.
Qed.

Lemma shape_head : forall ip fp sig dp ex, shape ip fp sig dp ->
  (exists c r, map bZ (numtext ip fp ex) = c :: r /\ is_digit c = true) /\ nohex (map bZ (numtext ip fp ex)).
Proof.
  intros ip fp sig dp ex [[[Hd [d [r [-> Hnz]]]] _]|[j [-> [-> [Hok _]]]]]; unfold numtext.
  - cbn [forallb] in Hd. apply andb_true_iff in Hd. cbn [app map]. split.
    + eexists _, _. split; [reflexivity|]. apply (digit_step d (proj1 Hd)).
    + apply nohex_head. intro E. apply Hnz, digit_b_x30, E.
  - rewrite (frac_text_sig _ _ Hok). cbn [app map]. split; [eexists _, _; split; reflexivity|].
    destruct (map bZ _); cbn [nohex]; [exact I|reflexivity].
Qed.

(* what ParseFloat reads from a text of that shape *)
Lemma parse_numtext : forall (neg : bool) ip fp ex sig dp, shape ip fp sig dp ->
  (forall n, ex = Some n -> -10000 < n - 1 < 10000) -> dval sig <> 0 -> -330 <= dp + exp_val ex <= 310 ->
  parse_number ((if neg then [x2d] else []) ++ numtext ip fp ex) =
  match round_rat (dec_num (dval sig) (dp + exp_val ex - len sig)) (dec_den (dp + exp_val ex - len sig)) with
  | Some b => Some (signed neg b)
  | None => None
  end.
Proof.
  intros neg ip fp ex sig dp Hs Hex Hv Hb.
  destruct (shape_head ip fp sig dp ex Hs) as [Hhead Hnh].
  destruct (read_mant_shape ip fp sig dp (map bZ (exp_text ex)) Hs) as [st [Hrm Hmk]].
  apply (parse_number_shape neg _ (map bZ (numtext ip fp ex)) st (map bZ (exp_text ex)) (exp_val ex)); try assumption.
  - rewrite map_app. destruct neg; reflexivity.
  - unfold numtext. rewrite app_assoc, map_app, Hrm. destruct ex; reflexivity.
  - destruct ex as [n|]; [apply read_exp_layout, Hex; reflexivity|reflexivity].
Qed.

(** * The laid-out texts are JSON numbers (lexer of encoding/json) *)

Lemma digit_b_bN : forall d, is_digit_b d = true ->
  (bN d =? 0x2d)%N = false /\ (bN d =? 0x2e)%N = false /\ (bN d =? 0x65)%N = false /\ (bN d =? 0x45)%N = false.
Proof. intros d H. apply digit_b_range in H. unfold bZ in H. fold (bN d) in H. repeat split; apply N.eqb_neq; lia. Qed.

Lemma digit_b_bN30 : forall d, is_digit_b d = true -> d <> x30 -> (bN d =? 0x30)%N = false.
Proof. intros d _ Hnz. apply N.eqb_neq. intro E. apply Hnz, byte_to_N_inj, E. Qed.

Lemma rev_rev_app : forall (a b : bytes), rev (rev a ++ b) = rev b ++ a.
Proof. intros a b. rewrite rev_app_distr, rev_involutive. reflexivity. Qed.

Definition stops (rest : bytes) : Prop :=
  match rest with [] => True | c :: _ => is_digit_b c = false end.

Lemma take_digits_app : forall ds rest acc, forallb is_digit_b ds = true -> stops rest ->
  take_digits (ds ++ rest) acc = (rev ds ++ acc, rest).
Proof.
  induction ds as [|d r IH]; intros rest acc H Hs.
  - cbn [app rev]. destruct rest as [|c rest']; [reflexivity|]. cbn [stops] in Hs. cbn [take_digits]. rewrite Hs. reflexivity.
  - cbn [forallb] in H. apply andb_true_iff in H. destruct H as [Hd Hr].
    cbn [app take_digits]. rewrite Hd. rewrite IH by assumption.
    cbn [rev]. rewrite <- app_assoc. reflexivity.
Qed.

Lemma stops_tail : forall fp ex, stops (frac_text fp ++ exp_text ex).
Proof. intros [|f fp] [n|]; reflexivity. Qed.

Lemma lex_exp_text : forall acc ex, lex_exp acc (exp_text ex) = Some (rev acc ++ exp_text ex, []).
Proof.
  intros acc [n|]; cbn [exp_text]; [|cbn [lex_exp]; unfold rev'; rewrite <- rev_alt, app_nil_r; reflexivity].
  unfold exp_part. pose proof (dec_string_nonempty (Z.abs (n - 1))) as Hne.
  pose proof (dec_string_digits_b (Z.abs (n - 1))) as Hd.
  destruct (dec_string (Z.abs (n - 1))) as [|d es']; [contradiction|].
  cbn [forallb] in Hd. apply andb_true_iff in Hd. destruct Hd as [Hd Hes].
  assert (Htd : forall a, take_digits es' a = (rev es' ++ a, [])).
  { intro a. rewrite <- (app_nil_r es') at 1. apply take_digits_app; [exact Hes|exact I]. }
  destruct (0 <=? n - 1); cbn [app]; unfold lex_exp; change ((bN x65 =? 101)%N || (bN x65 =? 69)%N) with true; cbv iota;
    [change ((bN x2b =? 43)%N || (bN x2b =? 45)%N) with true|change ((bN x2d =? 43)%N || (bN x2d =? 45)%N) with true];
    cbv iota beta; unfold rev'; rewrite Hd, Htd, <- rev_alt, rev_rev_app; cbn [rev]; rewrite <- !app_assoc; reflexivity.
Qed.

Lemma lex_frac_text : forall acc fp ex, forallb is_digit_b fp = true ->
  lex_frac acc (frac_text fp ++ exp_text ex) = Some (rev acc ++ frac_text fp ++ exp_text ex, []).
Proof.
  intros acc [|d ds'] ex Hd; cbn [frac_text app].
  - rewrite <- (lex_exp_text acc ex). destruct ex; reflexivity.
  - cbn [forallb] in Hd. apply andb_true_iff in Hd. destruct Hd as [Hd Hds].
    unfold lex_frac. change (bN x2e =? 46)%N with true. cbv iota. rewrite Hd.
    rewrite take_digits_app; [|exact Hds|destruct ex; reflexivity].
    rewrite lex_exp_text, rev_rev_app. cbn [rev]. rewrite <- !app_assoc. reflexivity.
Qed.

Lemma lex_number_sign : forall (neg : bool) d rest, (bN d =? 0x2d)%N = false ->
  lex_number ((if neg then [x2d] else []) ++ d :: rest) =
  if (bN d =? 0x30)%N then lex_frac (d :: (if neg then [x2d] else [])) rest
  else if is_digit_b d
       then let '(acc1, s1) := take_digits rest (d :: (if neg then [x2d] else [])) in lex_frac acc1 s1
       else None.
Proof.
  intros neg d rest H. destruct neg; unfold lex_number; cbn [app].
  - change (bN x2d =? 45)%N with true. reflexivity.
  - rewrite H. reflexivity.
Qed.

(* the lexer of encoding/json consumes a text of that shape completely *)
Lemma lex_numtext : forall (neg : bool) ip fp ex sig dp, shape ip fp sig dp ->
  lex_number ((if neg then [x2d] else []) ++ numtext ip fp ex) = Some ((if neg then [x2d] else []) ++ numtext ip fp ex, []).
Proof.
  intros neg ip fp ex sig dp [[[Hd [d [r [-> Hnz]]]] [Hf _]]|[j [-> [-> [[Hd _] _]]]]]; unfold numtext; cbn [app].
  - cbn [forallb] in Hd. apply andb_true_iff in Hd. destruct Hd as [Hd Hr].
    destruct (digit_b_bN d Hd) as [E1 _]. rewrite lex_number_sign by exact E1.
    rewrite (digit_b_bN30 d Hd Hnz), Hd.
    rewrite take_digits_app; [|exact Hr|apply stops_tail].
    rewrite lex_frac_text by exact Hf. rewrite rev_rev_app.
    destruct neg; cbn [rev app]; reflexivity.
  - rewrite lex_number_sign by reflexivity. change (bN x30 =? 48)%N with true. cbv iota.
    rewrite lex_frac_text by (apply forallb_digit_app; split; [apply zeros_digits_b|exact Hd]).
    destruct neg; reflexivity.
Qed.

(** * The four layouts of the ES6 printer as texts of that shape *)
Lemma layout_shape : forall (fmt : bool) c n, 0 < c < 10 ^ 25 ->
  exists ip fp ex sig dp,
    @eq (list byte) (if fmt then layout_f (dec_string c) n else layout_e (dec_string c) n) (numtext ip fp ex) /\
    shape ip fp sig dp /\ dp + exp_val ex = n /\ (forall m, ex = Some m -> m = n) /\ dval sig <> 0 /\
    dec_num (dval sig) (n - len sig) = dec_num c (n - L c) /\ dec_den (n - len sig) = dec_den (n - L c).
Proof.
  intros fmt c n Hc.
  pose proof (digs_ok_dec_string c Hc) as Hok. pose proof (dval_dec_string c ltac:(lia)) as Hval.
  assert (HlenL : len (dec_string c) = L c) by reflexivity. pose proof (L_pos c Hc) as HL.
  assert (Hc0 : c <> 0) by lia. pose proof Hok as [Hd Hh].
  destruct fmt.
  - unfold layout_f. cbv zeta. change (Z.of_nat (length (dec_string c))) with (L c).
    destruct (Z.leb_spec (L c) n) as [E1|E1]; [|destruct (Z.ltb_spec 0 n) as [E2|E2]].
    + (* ddd000 *)
      unfold zeros. set (k := Z.to_nat (n - L c)). assert (Hk : Z.of_nat k = n - L c) by lia.
      exists (dec_string c ++ repeat x30 k), [], None, (dec_string c ++ repeat x30 k), n.
      assert (Hdv : dval (dec_string c ++ repeat x30 k) = c * 10 ^ Z.of_nat k)
        by (unfold dval; rewrite dvala_app, dvala_zeros; fold (dval (dec_string c)); now rewrite Hval).
      assert (Hln : len (dec_string c ++ repeat x30 k) = n) by (rewrite len_app, len_zeros; lia).
      rewrite Hdv, Hln.
      split; [unfold numtext; cbn [frac_text exp_text]; now rewrite !app_nil_r|].
      split.
      { left. split; [split; [apply forallb_digit_app; split; [exact Hd|apply zeros_digits_b]|]|].
        - destruct Hh as [d [r [E Hnz]]]. exists d, (r ++ repeat x30 k). rewrite E. split; [reflexivity|exact Hnz].
        - split; [reflexivity|]. split; [now rewrite app_nil_r|symmetry; exact Hln]. }
      split; [cbn [exp_val]; lia|]. split; [discriminate|].
      split. { assert (0 < 10 ^ Z.of_nat k) by (apply Z.pow_pos_nonneg; lia). nia. }
      rewrite Z.sub_diag. unfold dec_num, dec_den. change (0 <=? 0) with true.
      rewrite (proj2 (Z.leb_le 0 (n - L c))) by lia. cbv iota. change (10 ^ 0) with 1. rewrite Hk. split; [ring|reflexivity].
    + (* dd.ddd *)
      set (nn := Z.to_nat n). assert (Hnn : Z.of_nat nn = n) by lia.
      pose proof (firstn_skipn nn (dec_string c)) as Hfs.
      assert (Hd2 : forallb is_digit_b (firstn nn (dec_string c)) = true /\
                    forallb is_digit_b (skipn nn (dec_string c)) = true) by (apply forallb_digit_app; rewrite Hfs; exact Hd).
      assert (HlF : len (firstn nn (dec_string c)) = n) by (unfold len; rewrite firstn_length_le; unfold L in *; lia).
      exists (firstn nn (dec_string c)), (skipn nn (dec_string c)), None, (dec_string c), n. rewrite Hval, HlenL.
      split.
      { unfold numtext. destruct (skipn nn (dec_string c)) eqn:Es; [|cbn [frac_text exp_text app]; now rewrite app_nil_r].
        exfalso. apply (f_equal (@length byte)) in Es. rewrite skipn_length in Es. cbn [length] in Es. unfold L in *. lia. }
      split.
      { left. split; [split; [apply Hd2|]|split; [apply Hd2|split; [symmetry; exact Hfs|symmetry; exact HlF]]].
        destruct Hh as [d [r [E Hnz]]]. rewrite E. destruct nn as [|n']; [lia|].
        exists d, (firstn n' r). split; [reflexivity|exact Hnz]. }
      split; [cbn [exp_val]; lia|]. split; [discriminate|]. split; [exact Hc0|split; reflexivity].
    + (* 0.000ddd *)
      unfold zeros. set (k := Z.to_nat (- n)). assert (Hk : Z.of_nat k = - n) by lia.
      exists [x30], (repeat x30 k ++ dec_string c), None, (dec_string c), n. rewrite Hval, HlenL.
      split; [unfold numtext; rewrite (frac_text_sig _ _ Hok); cbn [exp_text app]; now rewrite app_nil_r|].
      split; [right; exists k; split; [reflexivity|]; split; [reflexivity|]; split; [exact Hok|lia]|].
      split; [cbn [exp_val]; lia|]. split; [discriminate|]. split; [exact Hc0|split; reflexivity].
  - (* d.ddde+x *)
    destruct Hh as [d [r [Ed Hnz]]]. exists [d], r, (Some n), (dec_string c), 1. rewrite Hval, HlenL.
    split; [unfold layout_e, numtext; rewrite Ed; destruct r; reflexivity|].
    split.
    { left. rewrite Ed in Hd. cbn [forallb] in Hd. apply andb_true_iff in Hd.
      split; [split; [cbn [forallb]; now rewrite (proj1 Hd)|exists d, []; auto]|].
      split; [apply Hd|]. split; [exact Ed|reflexivity]. }
    split; [cbn [exp_val]; lia|]. split; [intros m Hm; now injection Hm|]. split; [exact Hc0|split; reflexivity].
Qed.

Definition layout_text (neg fmt : bool) (c n : Z) : bytes :=
  (if neg then [x2d] else []) ++ (if fmt then layout_f (dec_string c) n else layout_e (dec_string c) n).

Theorem parse_layout : forall (neg fmt : bool) c n, 0 < c < 10 ^ 25 -> -330 <= n <= 310 ->
  parse_number (layout_text neg fmt c n)
  = match round_rat (dec_num c (n - L c)) (dec_den (n - L c)) with
    | Some b => Some (signed neg b)
    | None => None
    end.
Proof.
  intros neg fmt c n Hc Hn. unfold layout_text.
  destruct (layout_shape fmt c n Hc) as [ip [fp [ex [sig [dp [-> [Hs [He [Hex [Hv0 [E1 E2]]]]]]]]]]].
  rewrite (parse_numtext neg ip fp ex sig dp Hs); [|intros m Hm; rewrite (Hex m Hm); lia|exact Hv0|lia].
  rewrite He, E1, E2. reflexivity.
Qed.

Theorem lex_layout : forall (neg fmt : bool) c n, 0 < c < 10 ^ 25 ->
  lex_number (layout_text neg fmt c n) = Some (layout_text neg fmt c n, []).
Proof.
  intros neg fmt c n Hc. unfold layout_text.
  destruct (layout_shape fmt c n Hc) as [ip [fp [ex [sig [dp [-> [Hs _]]]]]]]. exact (lex_numtext neg ip fp ex sig dp Hs).
Qed.

(** * Instances *)
Example layout_text_ex :
  [layout_text false true 30000000000000004 0; layout_text true true 12345 4; layout_text false true 123 7;
   layout_text false true 123 (-5); layout_text false false 5 (-323); layout_text true false 17976931348623157 309;
   layout_text false false 1 22; layout_text false false 12 1]
  = map bytes_of_string ["0.30000000000000004"; "-1234.5"; "1230000"; "0.00000123"; "5e-324";
                         "-1.7976931348623157e+308"; "1e+21"; "1.2e+0"]%string.
Proof. vm_compute. reflexivity. Qed.

(* the hypotheses of parse_layout / lex_layout hold for these instances *)
Example hyps_ex : (0 < 30000000000000004 < 10 ^ 25) /\ (-330 <= 0 <= 310) /\ (0 < 5 < 10 ^ 25) /\ (-330 <= -323 <= 310).
Proof. vm_compute. repeat split; discriminate. Qed.

(* [parse_layout] instantiated: both sides computed *)
Example parse_layout_ex1 :
  parse_number (bytes_of_string "0.30000000000000004") = Some 0x3FD3333333333334%N /\
  match round_rat (dec_num 30000000000000004 (0 - L 30000000000000004)) (dec_den (0 - L 30000000000000004)) with
  | Some b => Some (signed false b) | None => None end = Some 0x3FD3333333333334%N.
Proof. vm_compute. split; reflexivity. Qed.

Example parse_layout_ex2 :
  parse_number (bytes_of_string "-1.7976931348623157e+308") = Some 0xFFEFFFFFFFFFFFFF%N /\
  match round_rat (dec_num 17976931348623157 (309 - L 17976931348623157)) (dec_den (309 - L 17976931348623157)) with
  | Some b => Some (signed true b) | None => None end = Some 0xFFEFFFFFFFFFFFFF%N.
Proof. vm_compute. split; reflexivity. Qed.

Example parse_layout_ex3 :
  parse_number (bytes_of_string "5e-324") = Some 1%N /\
  match round_rat (dec_num 5 (-323 - L 5)) (dec_den (-323 - L 5)) with
  | Some b => Some (signed false b) | None => None end = Some 1%N.
Proof. vm_compute. split; reflexivity. Qed.

(* a grid of (neg, fmt, c, n) inside the bounds of parse_layout (the bounds are met: [in_bounds]); the check says that on a
   point both sides of parse_layout agree and the lexer returns the whole text *)
Definition grid : list (bool * bool * Z * Z) :=
  flat_map (fun neg => flat_map (fun fmt => flat_map (fun c => map (fun n => (neg, fmt, c, n))
    [-330; -329; -5; -1; 0; 1; 2; 3; 4; 7; 17; 18; 19; 22; 25; 26; 309; 310])
    [1; 9; 10; 123; 1200; 10 ^ 17; 10 ^ 17 + 1; 10 ^ 25 - 1; 10 ^ 24; 30000000000000004; 99999])
    [true; false]) [true; false].

Definition grid_check (q : bool * bool * Z * Z) : bool :=
  let '(neg, fmt, c, n) := q in
  let rhs := match round_rat (dec_num c (n - L c)) (dec_den (n - L c)) with
             | Some b => Some (signed neg b) | None => None end in
  (match parse_number (layout_text neg fmt c n), rhs with
   | Some a, Some b => N.eqb a b
   | None, None => true
   | _, _ => false
   end) &&
  (match lex_number (layout_text neg fmt c n) with
   | Some (a, []) => bytes_eqb a (layout_text neg fmt c n)
   | _ => false
   end).

(* inside the bounds the check is [parse_layout] and [lex_layout] themselves, so only the bounds are evaluated *)
Lemma grid_check_in_bounds : forall neg fmt c n, 0 < c < 10 ^ 25 -> -330 <= n <= 310 ->
  grid_check (neg, fmt, c, n) = true.
Proof.
  intros neg fmt c n Hc Hn. unfold grid_check. rewrite parse_layout, lex_layout, bytes_eqb_refl by assumption.
  destruct (round_rat _ _); [rewrite N.eqb_refl|]; reflexivity.
Qed.

Definition in_bounds (q : bool * bool * Z * Z) : bool :=
  let '(_, _, c, n) := q in (0 <? c) && (c <? 10 ^ 25) && (-330 <=? n) && (n <=? 310).

Example grid_ok : forallb grid_check grid = true /\ length grid = 792%nat.
Proof.
  split; [|reflexivity]. apply forallb_forall. intros [[[neg fmt] c] n] Hq.
  assert (B : forallb in_bounds grid = true) by (vm_compute; reflexivity).
  rewrite forallb_forall in B. apply B in Hq. unfold in_bounds in Hq.
  rewrite !andb_true_iff, !Z.ltb_lt, !Z.leb_le in Hq. apply grid_check_in_bounds; lia.
Qed.

(* [lex_layout] instantiated *)
Example lex_layout_ex :
  map (fun s => lex_number (bytes_of_string s))
      ["0.30000000000000004"; "-1234.5"; "1230000"; "5e-324"; "-1.7976931348623157e+308"; "1e+21"]%string
  = map (fun s => Some (bytes_of_string s, []))
      ["0.30000000000000004"; "-1234.5"; "1230000"; "5e-324"; "-1.7976931348623157e+308"; "1e+21"]%string.
Proof. vm_compute. reflexivity. Qed.

(* outside the bounds of parse_layout ParseFloat's magnitude shortcut decides ("mag < -330 -> 0"), not round_rat;
   on this instance both give 0 *)
Example outside_bounds_ex :
  parse_number (layout_text false false 123 (-331)) = Some 0%N.
Proof. vm_compute. reflexivity. Qed.

Print Assumptions dec_string_len_spec.
Print Assumptions dec_string_digits_b.
Print Assumptions dec_string_mul10.
Print Assumptions strip_zeros_spec.
Print Assumptions strip_zeros_len.
Print Assumptions dval_dec_string.
Print Assumptions dval_app.
Print Assumptions read_mant_dec_string.
Print Assumptions read_mant_zeros.
Print Assumptions parse_layout.
Print Assumptions lex_layout.
