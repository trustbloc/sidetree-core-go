(* Numbers of the JSON canonicalizer (C07).  Definitions and examples.
   [parse_number]   : strconv.ParseFloat(tok, 64) as used by parseSimpleType; None = the canonicalizer reports an
                      error (syntax error, range error (overflow), or NaN/Inf which NumberToJSON rejects).
                      The lexer mirrors strconv.readFloat (go1.23), so it also accepts what is NOT in the RFC 8259
                      grammar: leading '+', leading zeros, "1.", ".5", digit-separating underscores, hex floats.
   [number_to_json] : NumberToJSON (es6numfmt.go): ES6 Number::toString layout over the shortest round-trip digits.
   Doubles are given by their bit pattern (math.Float64bits).  All arithmetic is exact, on Z. *)
From Coq Require Import String List NArith ZArith Bool.
From Coq.Strings Require Import Byte.
From SV Require Import Base.Bytes Json.Utf.
Import ListNotations.
Local Open Scope Z_scope.

Definition bZ (b : byte) : Z := Z.of_N (Byte.to_N b).
Definition zbyte (z : Z) : byte := byte_of_N (Z.to_N z).

Definition two52 : Z := 4503599627370496.
Definition two63 : Z := 9223372036854775808.
Definition two64 : Z := 18446744073709551616.
Definition inf_bits : Z := 0x7FF0000000000000.

(* ---------- exact rounding of a positive rational to binary64 (round to nearest, ties to even) ----------
   result: the bit pattern (sign bit clear); None = overflow (ParseFloat: +Inf with ErrRange).
   e  = floor(log2 (num/den));  subnormals use the fixed exponent -1022; a rounding carry propagates into the
   exponent field because bits = (e'+1022)*2^52 + q with q in [2^52, 2^53] (normal) or [0, 2^52] (subnormal). *)
Definition round_rat (num den : Z) : option Z :=
  let l := Z.log2 num - Z.log2 den in
  let ge := if 0 <=? l then den * 2 ^ l <=? num else den <=? num * 2 ^ (- l) in
  let e := if ge then l else l - 1 in
  let e' := Z.max e (-1022) in
  let sh := 52 - e' in
  let n' := if 0 <=? sh then num * 2 ^ sh else num in
  let d' := if 0 <=? sh then den else den * 2 ^ (- sh) in
  let q := n' / d' in
  let r := n' mod d' in
  let q' := match 2 * r ?= d' with
            | Lt => q
            | Gt => q + 1
            | Eq => if Z.even q then q else q + 1
            end in
  let bits := (e' + 1022) * two52 + q' in
  if bits <? inf_bits then Some bits else None.

(* value c * 10^p as a rational *)
Definition dec_num (c p : Z) : Z := if 0 <=? p then c * 10 ^ p else c.
Definition dec_den (p : Z) : Z := if 0 <=? p then 1 else 10 ^ (- p).

(* ---------- strconv.readFloat ---------- *)
Definition lower (c : Z) : Z := Z.lor c 32.
Definition is_digit (c : Z) : bool := (48 <=? c) && (c <=? 57).
Definition is_hexletter (c : Z) : bool := (97 <=? lower c) && (lower c <=? 102).

Record mant := { m_val : Z; m_nd : Z; m_dp : Z; m_sawdot : bool; m_sawdigits : bool; m_us : bool }.

Definition mant0 : mant := Build_mant 0 0 0 false false false.

(* the "digits" loop; the full mantissa is kept (Go keeps 19 digits + a trunc flag and falls back to an exact
   algorithm, which is correctly rounded) *)
Fixpoint read_mant (hex : bool) (s : list Z) (st : mant) : mant * list Z :=
  match s with
  | [] => (st, [])
  | c :: r =>
    if c =? 95 then
      read_mant hex r (Build_mant (m_val st) (m_nd st) (m_dp st) (m_sawdot st) (m_sawdigits st) true)
    else if c =? 46 then
      if m_sawdot st then (st, s)
      else read_mant hex r (Build_mant (m_val st) (m_nd st) (m_nd st) true (m_sawdigits st) (m_us st))
    else if is_digit c then
      if (c =? 48) && (m_nd st =? 0) then
        read_mant hex r (Build_mant (m_val st) (m_nd st) (m_dp st - 1) (m_sawdot st) true (m_us st))
      else
        read_mant hex r (Build_mant (m_val st * (if hex then 16 else 10) + (c - 48)) (m_nd st + 1) (m_dp st)
                                    (m_sawdot st) true (m_us st))
    else if hex && is_hexletter c then
      read_mant hex r (Build_mant (m_val st * 16 + (lower c - 87)) (m_nd st + 1) (m_dp st)
                                  (m_sawdot st) true (m_us st))
    else (st, s)
  end.

(* exponent digits; the accumulator saturates exactly as in Go ("if e < 10000") *)
Fixpoint read_exp_digits (s : list Z) (e : Z) (us : bool) : Z * bool * list Z :=
  match s with
  | [] => (e, us, [])
  | c :: r =>
    if is_digit c then read_exp_digits r (if e <? 10000 then e * 10 + (c - 48) else e) us
    else if c =? 95 then read_exp_digits r e true
    else (e, us, s)
  end.

(* optional exponent: Some (e*esign, underscores, rest); None = malformed *)
Definition read_exp (hex : bool) (s : list Z) : option (Z * bool * list Z) :=
  match s with
  | c :: r =>
    if lower c =? (if hex then 112 else 101) then
      match r with
      | [] => None
      | c1 :: r1 =>
        let '(esign, r2) := if c1 =? 43 then (1, r1) else if c1 =? 45 then (-1, r1) else (1, r) in
        match r2 with
        | [] => None
        | c2 :: _ =>
          if is_digit c2 then
            let '(e, us, rest) := read_exp_digits r2 0 false in Some (e * esign, us, rest)
          else None
        end
      end
    else if hex then None else Some (0, false, s)
  | [] => if hex then None else Some (0, false, [])
  end.

(* strconv.underscoreOK; saw: 0 = '^', 1 = '0', 2 = '_', 3 = '!' *)
Fixpoint us_go (hex : bool) (s : list Z) (saw : Z) : bool :=
  match s with
  | [] => negb (saw =? 2)
  | c :: r =>
    if is_digit c || (hex && is_hexletter c) then us_go hex r 1
    else if c =? 95 then (if saw =? 1 then us_go hex r 2 else false)
    else if saw =? 2 then false
    else us_go hex r 3
  end.

Definition underscore_ok (s : list Z) : bool :=
  let s1 := match s with
            | c :: r => if (c =? 45) || (c =? 43) then r else s
            | [] => s
            end in
  match s1 with
  | c0 :: c1 :: r =>
    if (c0 =? 48) && ((lower c1 =? 98) || (lower c1 =? 111) || (lower c1 =? 120))
    then us_go (lower c1 =? 120) r 1
    else us_go false s1 0
  | _ => us_go false s1 0
  end.

Definition signed (neg : bool) (b : Z) : N := Z.to_N (if neg then b + two63 else b).

Definition parse_number (tok : bytes) : option N :=
  let s := map bZ tok in
  match s with
  | [] => None
  | c :: r =>
    let '(neg, s1) := if c =? 43 then (false, r) else if c =? 45 then (true, r) else (false, s) in
    let '(hex, s2) := match s1 with
                      | c0 :: c1 :: ((_ :: _) as r2) =>
                        if (c0 =? 48) && (lower c1 =? 120) then (true, r2) else (false, s1)
                      | _ => (false, s1)
                      end in
    let '(st, s3) := read_mant hex s2 mant0 in
    if negb (m_sawdigits st) then None
    else
      let dp := if m_sawdot st then m_dp st else m_nd st in
      let dp := if hex then dp * 4 else dp in
      let ndm := if hex then m_nd st * 4 else m_nd st in
      match read_exp hex s3 with
      | None => None
      | Some (e, us2, s4) =>
        match s4 with
        | _ :: _ => None                             (* n != len(s): syntax error *)
        | [] =>
          if (m_us st || us2) && negb (underscore_ok s) then None
          else if m_val st =? 0 then Some (signed neg 0)
          else
            let ex := dp + e - ndm in                (* value = m_val * base^... : 10^ex resp. 2^ex *)
            let mag := ex + ndm in
            if hex then
              if 1100 <? mag then None
              else if mag <? -1100 then Some (signed neg 0)
              else match (if 0 <=? ex then round_rat (m_val st * 2 ^ ex) 1
                          else round_rat (m_val st) (2 ^ (- ex))) with
                   | Some b => Some (signed neg b)
                   | None => None
                   end
            else
              if 310 <? mag then None
              else if mag <? -330 then Some (signed neg 0)
              else match round_rat (dec_num (m_val st) ex) (dec_den ex) with
                   | Some b => Some (signed neg b)
                   | None => None
                   end
        end
      end
  end.

(* ---------- shortest round-trip digits ---------- *)

(* x = xn/xd >= 10^n ? *)
Definition ge_pow10 (xn xd n : Z) : bool :=
  if 0 <=? n then xd * 10 ^ n <=? xn else xd <=? xn * 10 ^ (- n).

Fixpoint adj_up (fuel : nat) (xn xd n : Z) : Z :=
  match fuel with
  | O => n
  | S f => if ge_pow10 xn xd n then adj_up f xn xd (n + 1) else n
  end.

Fixpoint adj_down (fuel : nat) (xn xd n : Z) : Z :=
  match fuel with
  | O => n
  | S f => if ge_pow10 xn xd (n - 1) then n else adj_down f xn xd (n - 1)
  end.

(* the n with 10^(n-1) <= x < 10^n *)
Definition dec_exp (xn xd : Z) : Z :=
  let l := Z.log2 xn - Z.log2 xd in
  let est := (l * 30103) / 100000 in
  adj_down 4 xn xd (adj_up 4 xn xd est).

(* rounding interval of the double x = m*2^e (expf = exponent field): [x*lowM/(4m), x*highM/(4m)], closed iff m is
   even.  With y = yn/yd = x*10^(17-n0), a candidate c*P (P = 10^(17-k)) lies in it iff
   LO <= c*P*A <= HI for A = 4*m*yd, LO = yn*lowM, HI = yn*highM.  Fast pre-filter only: acceptance is always
   decided by parsing back ([roundtrips]). *)
Definition in_interval (incl : bool) (A LO HI cP : Z) : bool :=
  let t := cP * A in
  match t ?= LO with
  | Lt => false
  | Eq => incl
  | Gt => match t ?= HI with Lt => true | Eq => incl | Gt => false end
  end.

Definition roundtrips (babs c p : Z) : bool :=
  match round_rat (dec_num c p) (dec_den p) with
  | Some b => b =? babs
  | None => false
  end.

(* search k = 1 .. 17; L = floor(x * 10^(17-n0)), R/yd the fraction left.  Candidates at k digits are
   lo = floor(x*10^(k-n0)) and lo+1; among those that parse back to the same double take the closest
   (ties: even), as ES6 7.1.12.1 step 5 / strconv's shortest formatting. *)
Fixpoint search (ks : list Z) (babs : Z) (incl : bool) (A LO HI n0 L R yd : Z) : option (Z * Z) :=
  match ks with
  | [] => None
  | k :: ks' =>
    let P := 10 ^ (17 - k) in
    let lo := L / P in
    let r := L mod P in
    let exact := (r =? 0) && (R =? 0) in
    let p := n0 - k in
    let ok_lo := if in_interval incl A LO HI (lo * P) then roundtrips babs lo p else false in
    let ok_hi := if exact then false
                 else if in_interval incl A LO HI ((lo + 1) * P) then roundtrips babs (lo + 1) p else false in
    if ok_lo then
      if ok_hi then
        match 2 * (r * yd + R) ?= P * yd with
        | Lt => Some (lo, k)
        | Gt => Some (lo + 1, k)
        | Eq => Some (if Z.even lo then lo else lo + 1, k)
        end
      else Some (lo, k)
    else if ok_hi then Some (lo + 1, k)
    else search ks' babs incl A LO HI n0 L R yd
  end.

Definition ks17 : list Z := [1; 2; 3; 4; 5; 6; 7; 8; 9; 10; 11; 12; 13; 14; 15; 16; 17].

Fixpoint strip_zeros (fuel : nat) (c : Z) : Z :=
  match fuel with
  | O => c
  | S f => if (c mod 10 =? 0) && (0 <? c) then strip_zeros f (c / 10) else c
  end.

Fixpoint z_digits (fuel : nat) (z : Z) (acc : bytes) : bytes :=
  match fuel with
  | O => acc
  | S f =>
    let acc' := zbyte (48 + z mod 10) :: acc in
    if z <? 10 then acc' else z_digits f (z / 10) acc'
  end.

Definition dec_string (z : Z) : bytes := z_digits 25 z [].

(* last step of [shortest]: position of the decimal point (carry: c = 10^k), trailing zeros stripped, re-check *)
Definition finish (babs n0 c k : Z) : option (bytes * Z) :=
  let n := n0 + (Z.of_nat (length (dec_string c)) - k) in
  let c' := strip_zeros 20 c in
  let digs := dec_string c' in
  if roundtrips babs c' (n - Z.of_nat (length digs)) then Some (digs, n) else None.

(* (digits, n): value = 0.digits * 10^n, digits without trailing zeros.  The stripped digit string is checked
   once more to parse back to the same double (None otherwise; NumShortest.shortest_full: not on a double). *)
Definition shortest_search (babs m e expf : Z) : option (Z * Z * Z) :=
  let xn := if 0 <=? e then m * 2 ^ e else m in
  let xd := if 0 <=? e then 1 else 2 ^ (- e) in
  let n0 := dec_exp xn xd in
  let sc := 17 - n0 in
  let yn := if 0 <=? sc then xn * 10 ^ sc else xn in
  let yd := if 0 <=? sc then xd else xd * 10 ^ (- sc) in
  let lowM := if (m =? two52) && (1 <? expf) then 4 * m - 1 else 4 * m - 2 in
  let highM := 4 * m + 2 in
  match search ks17 babs (Z.even m) (4 * m * yd) (yn * lowM) (yn * highM) n0 (yn / yd) (yn mod yd) yd with
  | None => None
  | Some (c, k) => Some (n0, c, k)
  end.

Definition shortest (babs m e expf : Z) : option (bytes * Z) :=
  match shortest_search babs m e expf with
  | None => None
  | Some (n0, c, k) => finish babs n0 c k
  end.

(* ---------- ES6 layout ---------- *)
Definition zeros (n : Z) : bytes := repeat x30 (Z.to_nat n).

Definition layout_f (digs : bytes) (n : Z) : bytes :=
  let kd := Z.of_nat (length digs) in
  if kd <=? n then digs ++ zeros (n - kd)
  else if 0 <? n then firstn (Z.to_nat n) digs ++ [x2e] ++ skipn (Z.to_nat n) digs
  else [x30; x2e] ++ zeros (- n) ++ digs.

Definition layout_e (digs : bytes) (n : Z) : bytes :=
  let mantissa := match digs with
                  | [] => []
                  | [d] => [d]
                  | d :: r => d :: x2e :: r
                  end in
  mantissa ++ [x65] ++ (if 0 <=? n - 1 then [x2b] else [x2d]) ++ dec_string (Z.abs (n - 1)).

Definition bits_1e21 : Z := 0x444B1AE4D6E2EF50.
Definition bits_1em6 : Z := 0x3EB0C6F7A0B5ED8D.

(* NumberToJSON.  The two "Go 1.11.4 rounding bug" work-arounds in the source only replace the shortest
   digits by an equally long, equally valid digit string and are no-ops with a correct FormatFloat; they are
   not modelled separately (the differential run compares against the real output). *)
Definition number_to_json (bits : N) : option bytes :=
  let b := Z.of_N bits in
  let expf := (b / two52) mod 2048 in
  let frac := b mod two52 in
  let neg := (b / two63) mod 2 =? 1 in
  if expf =? 2047 then None
  else if (expf =? 0) && (frac =? 0) then Some [x30]
  else
    let babs := b mod two63 in
    let m := if expf =? 0 then frac else frac + two52 in
    let e := if expf =? 0 then -1074 else expf - 1075 in
    match shortest babs m e expf with
    | None => None
    | Some (digs, n) =>
      let fmt_f := (babs <? bits_1e21) && (bits_1em6 <=? babs) in
      let text := (if neg then [x2d] else []) ++ (if fmt_f then layout_f digs n else layout_e digs n) in
      (* self-check of the shortest-digit search: the text, read by the model of ParseFloat, is this double
         (this is what makes the digits "round-trip"; that the check never fails is
         NumShortest.number_to_json_total) *)
      match parse_number text with
      | Some p => if Z.of_N p =? b mod two64 then Some text else None
      | None => None
      end
    end.

Example num_ex1 : number_to_json 0x3FD3333333333334%N = Some (bytes_of_string "0.30000000000000004"%string).
Proof. vm_compute. reflexivity. Qed.
Example num_ex2 : number_to_json 0x444B1AE4D6E2EF50%N = Some (bytes_of_string "1e+21"%string).
Proof. vm_compute. reflexivity. Qed.
Example num_ex3 : number_to_json 1%N = Some (bytes_of_string "5e-324"%string).
Proof. vm_compute. reflexivity. Qed.
Example num_ex4 : parse_number (bytes_of_string "1.7976931348623157e308"%string) = Some 0x7FEFFFFFFFFFFFFF%N.
Proof. vm_compute. reflexivity. Qed.
Example num_ex5 : parse_number (bytes_of_string "1E400"%string) = None.
Proof. vm_compute. reflexivity. Qed.
Example num_ex6 : parse_number (bytes_of_string "-0"%string) = Some 0x8000000000000000%N.
Proof. vm_compute. reflexivity. Qed.
