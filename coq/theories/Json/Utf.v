(* UTF-8 / UTF-16 helpers mirroring the Go runtime functions used by the JSON canonicalizer (C07).
   Definitions and examples.
   - [utf8_encode]   : strings.Builder.WriteRune / utf8.AppendRune (invalid runes become U+FFFD)
   - [decode_runes]  : the conversion []rune(string): invalid or truncated sequences yield U+FFFD and
                       consume ONE byte (utf8.DecodeRuneInString with the acceptRanges table)
   - [utf16_encode]  : utf16.Encode
   - [utf16_decode_pair] : utf16.DecodeRune (U+FFFD unless (high, low) surrogate pair)
   - [utf16_key]     : sort key of the canonicalizer: utf16.Encode([]rune(rawUTF8)) *)
From Coq Require Import List NArith Bool.
From Coq.Strings Require Import Byte.
From SV Require Import Base.Bytes.
Import ListNotations.
Local Open Scope N_scope.

Definition bN (b : byte) : N := Byte.to_N b.

Definition is_surrogate (r : N) : bool := (0xD800 <=? r) && (r <? 0xE000).

Definition utf8_encode (r : N) : bytes :=
  if r <? 0x80 then [byte_of_N r]
  else if r <? 0x800 then [byte_of_N (0xC0 + r / 64); byte_of_N (0x80 + r mod 64)]
  else if is_surrogate r || (0x10FFFF <? r) then [xef; xbf; xbd]
  else if r <? 0x10000 then
    [byte_of_N (0xE0 + r / 4096); byte_of_N (0x80 + (r / 64) mod 64); byte_of_N (0x80 + r mod 64)]
  else
    [byte_of_N (0xF0 + r / 262144); byte_of_N (0x80 + (r / 4096) mod 64);
     byte_of_N (0x80 + (r / 64) mod 64); byte_of_N (0x80 + r mod 64)].

Definition is_cont (n : N) : bool := (0x80 <=? n) && (n <=? 0xBF).

(* second-byte range for a given lead byte (utf8.acceptRanges) *)
Definition second_ok (b0 b1 : N) : bool :=
  if b0 =? 0xE0 then (0xA0 <=? b1) && (b1 <=? 0xBF)
  else if b0 =? 0xED then (0x80 <=? b1) && (b1 <=? 0x9F)
  else if b0 =? 0xF0 then (0x90 <=? b1) && (b1 <=? 0xBF)
  else if b0 =? 0xF4 then (0x80 <=? b1) && (b1 <=? 0x8F)
  else is_cont b1.

Definition rune_error : N := 0xFFFD.

Fixpoint decode_runes (s : bytes) : list N :=
  match s with
  | [] => []
  | c0 :: r0 =>
    let b0 := bN c0 in
    if b0 <? 0x80 then b0 :: decode_runes r0
    else if (b0 <? 0xC2) || (0xF4 <? b0) then rune_error :: decode_runes r0
    else if b0 <? 0xE0 then
      match r0 with
      | c1 :: r1 =>
        if is_cont (bN c1) then ((b0 - 0xC0) * 64 + (bN c1 - 0x80)) :: decode_runes r1
        else rune_error :: decode_runes r0
      | [] => rune_error :: decode_runes r0
      end
    else if b0 <? 0xF0 then
      match r0 with
      | c1 :: c2 :: r2 =>
        if second_ok b0 (bN c1) && is_cont (bN c2)
        then ((b0 - 0xE0) * 4096 + (bN c1 - 0x80) * 64 + (bN c2 - 0x80)) :: decode_runes r2
        else rune_error :: decode_runes r0
      | _ => rune_error :: decode_runes r0
      end
    else
      match r0 with
      | c1 :: c2 :: c3 :: r3 =>
        if second_ok b0 (bN c1) && is_cont (bN c2) && is_cont (bN c3)
        then ((b0 - 0xF0) * 262144 + (bN c1 - 0x80) * 4096 + (bN c2 - 0x80) * 64 + (bN c3 - 0x80))
             :: decode_runes r3
        else rune_error :: decode_runes r0
      | _ => rune_error :: decode_runes r0
      end
  end.

Fixpoint utf16_encode (l : list N) : list N :=
  match l with
  | [] => []
  | r :: t =>
    if (r <? 0xD800) || ((0xE000 <=? r) && (r <? 0x10000)) then r :: utf16_encode t
    else if (0x10000 <=? r) && (r <=? 0x10FFFF) then
      (0xD800 + (r - 0x10000) / 1024) :: (0xDC00 + (r - 0x10000) mod 1024) :: utf16_encode t
    else rune_error :: utf16_encode t
  end.

Definition utf16_key (s : bytes) : list N := utf16_encode (decode_runes s).

Definition utf16_decode_pair (r1 r2 : N) : N :=
  if (0xD800 <=? r1) && (r1 <? 0xDC00) && (0xDC00 <=? r2) && (r2 <? 0xE000)
  then (r1 - 0xD800) * 1024 + (r2 - 0xDC00) + 0x10000
  else rune_error.

(* lexicographic order on code-unit lists (lexicographicallyPrecedes without the duplicate report) *)
Fixpoint key_ltb (a b : list N) : bool :=
  match a, b with
  | [], [] => false
  | [], _ :: _ => true
  | _ :: _, [] => false
  | x :: a', y :: b' => if x <? y then true else if y <? x then false else key_ltb a' b'
  end.

Fixpoint key_eqb (a b : list N) : bool :=
  match a, b with
  | [], [] => true
  | x :: a', y :: b' => (x =? y) && key_eqb a' b'
  | _, _ => false
  end.

Example utf8_encode_astral : utf8_encode 0x1F600 = [xf0; x9f; x98; x80]. Proof. reflexivity. Qed.
Example decode_astral : decode_runes [xf0; x9f; x98; x80] = [0x1F600]. Proof. reflexivity. Qed.
Example decode_invalid : decode_runes [xff; x41; xed; xa0; x80] = [0xFFFD; 0x41; 0xFFFD; 0xFFFD; 0xFFFD].
Proof. reflexivity. Qed.
Example key_astral_before_bmp_high :
  key_ltb (utf16_key [xf0; x9f; x98; x80]) (utf16_key [xef; xac; xb3]) = true.
Proof. reflexivity. Qed.
