(* C16, progress half: the writer thread's own continuation and the lemmas about it.

   Definitions first: what the writer thread does next in every program-counter state
   ([next_ev]), its continuation until it is Idle again ([thread], fuel = the termination measure
   [mu]), one timer tick ([tick_events]) and sequences of ticks.
   Then the lemmas: every thread step preserves the invariants of Invariants.v, never marks the
   state stuck, never increases the outstanding work and strictly decreases [mu]; path invariants
   for a forced failure-free tick (progress) and for a tick whose cut fails (transparency).

   The theorems are in Writer/Liveness.v. *)
From Coq Require Import List ZArith Bool Lia Permutation.
From SV Require Import Writer.Machine Writer.Invariants.
Import ListNotations.
Local Open Scope nat_scope.

(* What is NOT modelled (the operation handler over the CAS, the anchor writer) is an oracle: the
   ids the handler finds expired and whether the call succeeds may depend on the whole model
   state (queue, history of anchored batches, ...), i.e. on everything observable. *)
Record oracle := { o_expired : wstate -> list Z; o_ok : wstate -> bool }.

(* handler and anchor writer succeed *)
Definition failure_free (o : oracle) : Prop := forall s, o_ok o s = true.
(* no cut of the tick succeeds: every WriteAnchor fails (PrepareTxnFiles may succeed or fail), AND the handler does not
   find a whole batch expired.  The second clause is needed because (F16) a batch whose operations have all expired
   is committed without any anchor write (its operations are discarded): a failing anchor writer alone does not
   keep the queue as it is ([Liveness.anchor_failure_alone_is_not_enough]). *)
Definition cut_fails (o : oracle) : Prop :=
  forall s, match wpc s with
            | AtPrepare _ _ b _ =>
                o_ok o s = true -> b <> [] -> included (split_batch (fun i => memZ i (o_expired o s)) [] b) <> []
            | AtAnchor _ _ _ _ _ => o_ok o s = false
            | _ => True
            end.

(* the single event the writer thread can perform in each program-counter state *)
Definition next_ev (o : oracle) (s : wstate) : option event :=
  match wpc s with
  | Idle => None                               (* waits for a timer *)
  | AtLen _ _ => Some ELen
  | AtPeek _ _ _ => Some EPeek
  | AtRemove _ _ _ _ => Some ERemove
  | AtPrepare _ _ _ _ => Some (EPrepare (o_ok o s) (o_expired o s))
  | AtAnchor _ _ _ _ _ => Some (EAnchor (o_ok o s))
  | AtReAdd _ _ _ _ (_ :: _) => Some EReAdd
  | AtReAdd _ _ _ _ [] => Some EAck
  | AtNack _ _ _ => Some ENack
  end.

(* the thread's continuation (no client Add interleaves) until Idle or out of fuel *)
Fixpoint thread (max : nat) (o : oracle) (fuel : nat) (s : wstate) : list event :=
  match fuel with
  | O => []
  | S k => match next_ev o s with
           | None => []
           | Some e => e :: thread max o k (wstep max s e)
           end
  end.

(* operations accepted and neither anchored nor discarded yet / already settled *)
Definition work (s : wstate) : nat := length (queue s) + length (inflight (wpc s)).
Definition settled (s : wstate) : nat := length (anchored_ops s) + length (discarded s).

(* position inside a tick, counted down: a thread step that leaves [work] as it is lowers it.  A step that settles
   operations may raise it, to at most 9 + the remaining work (AtAnchor -> AtReAdd with the deferred operations). *)
Definition rank (p : pc) : nat :=
  match p with
  | Idle => 0
  | AtNack _ _ _ => 1
  | AtAnchor _ _ _ _ _ => 2
  | AtPrepare _ _ _ _ => 3
  | AtRemove _ _ _ _ => 4
  | AtPeek _ true _ => 5
  | AtLen _ true => 6
  | AtPeek _ false _ => 7
  | AtLen _ false => 8
  | AtReAdd _ _ _ _ rest => 9 + length rest
  end.
(* termination measure of the thread: every thread step strictly decreases it ([thread_step]).  The 10: losing one unit
   of work lowers the product by at least 2 * work + 11 (work after the step), more than the 9 + work [rank] can reach. *)
Definition mu (s : wstate) : nat := work s * (work s + 10) + rank (wpc s).

(* [mu s] is enough fuel for the thread to reach Idle ([thread_run]) *)
Definition finish_events (max : nat) (o : oracle) (s : wstate) : list event := thread max o (mu s) s.

(* one timer tick (monitor: force = false, batch timeout: force = true) and what the thread does *)
Definition tick_events (max : nat) (o : oracle) (force : bool) (s : wstate) : list event :=
  ETick force :: finish_events max o (wstep max s (ETick force)).

(* a sequence of ticks, each with its own oracle and force flag *)
Fixpoint ticks_events (max : nat) (l : list (oracle * bool)) (s : wstate) : list event :=
  match l with
  | [] => []
  | (o, f) :: r => let ev := tick_events max o f s in ev ++ ticks_events max r (run max s ev)
  end.

Definition forced (os : list oracle) : list (oracle * bool) := map (fun o => (o, true)) os.
Definition unforced (os : list oracle) : list (oracle * bool) := map (fun o => (o, false)) os.

(* batch-timeout ticks only *)
Definition drain_events (max : nat) (os : list oracle) (s : wstate) : list event :=
  ticks_events max (forced os) s.

Definition adds (l : list qop) : list event := map EAdd l.

(* what the thread additionally knows in the middle of a cut (on top of Invariants.pc_wf) *)
Definition linv (s : wstate) : Prop :=
  match wpc s with
  | AtRemove _ _ n _ => 1 <= n
  | AtPrepare _ _ b _ => b <> []
  | AtAnchor _ _ b _ sp => length (additional sp) < length b
  | _ => True
  end.

Definition RInv (max : nat) (s : wstate) : Prop := Inv max s /\ linv s.

(* a state of a tick from which a cut is certain (no failure, max > 0): the tick is forced, or the
   cut is the forced cut, or a full batch is queued *)
Definition will_cut (max : nat) (s : wstate) : Prop :=
  match wpc s with
  | AtLen tf cf => queue s <> [] /\ (tf = true \/ cf = true \/ max <= length (queue s))
  | AtPeek _ _ pending => 1 <= pending
  | AtRemove _ _ _ _ | AtPrepare _ _ _ _ | AtAnchor _ _ _ _ _ => True
  | _ => False
  end.

Definition not_readd (p : pc) : Prop := match p with AtReAdd _ _ _ _ _ => False | _ => True end.

Lemma run_app max s a b : run max s (a ++ b) = run max (run max s a) b.
Proof. unfold run. apply fold_left_app. Qed.

Lemma run_cons max s e l : run max s (e :: l) = run max (wstep max s e) l.
Proof. reflexivity. Qed.

(* the defining equations of [wstep], one per program counter.  The proofs of this file do not rewrite with them:
   they take the state apart, after which [wstep] computes (see [wstep_linv]). *)
Lemma step_tick max s f : wpc s = Idle -> wstep max s (ETick f) = set_pc s (AtLen f false).
Proof. intros H. unfold wstep. rewrite H. reflexivity. Qed.

Lemma step_len max s tf cf : wpc s = AtLen tf cf ->
  wstep max s ELen =
  if negb cf && (length (queue s) <? max) then after_empty_cut s tf cf (length (queue s))
  else set_pc s (AtPeek tf cf (length (queue s))).
Proof. intros H. unfold wstep. rewrite H. reflexivity. Qed.

Lemma step_peek max s tf cf p : wpc s = AtPeek tf cf p ->
  wstep max s EPeek =
  let window := firstn (Nat.min p max) (queue s) in
  let '(batch, ver) := version_prefix window in
  match batch with
  | [] => after_empty_cut s tf cf p
  | _ => {| queue := queue s; wpc := AtRemove tf cf (length batch) ver; anchored := anchored s;
            discarded := discarded s; accepted := accepted s;
            boundary_seen := (length batch <? length window); stuck := stuck s |}
  end.
Proof. intros H. unfold wstep. rewrite H. reflexivity. Qed.

Lemma step_remove max s tf cf n ver : wpc s = AtRemove tf cf n ver ->
  wstep max s ERemove = set_queue s (skipn n (queue s)) (AtPrepare tf cf (firstn n (queue s)) ver).
Proof. intros H. unfold wstep. rewrite H. reflexivity. Qed.

Lemma step_prepare max s tf cf b ver ok ex : wpc s = AtPrepare tf cf b ver ->
  wstep max s (EPrepare ok ex) =
  if ok then
    let sp := split_batch (fun i => memZ i ex) [] b in
    match included sp with
    | [] => {| queue := queue s; wpc := AtReAdd tf cf b ver []; anchored := anchored s;
               discarded := discarded s ++ expired_ops sp; accepted := accepted s;
               boundary_seen := boundary_seen s; stuck := stuck s |}
    | _ :: _ => set_pc s (AtAnchor tf cf b ver sp)
    end
  else set_pc s (AtNack tf cf b).
Proof. intros H. unfold wstep. rewrite H. reflexivity. Qed.

Lemma step_anchor max s tf cf b ver sp ok : wpc s = AtAnchor tf cf b ver sp ->
  wstep max s (EAnchor ok) =
  if ok then
    {| queue := queue s; wpc := AtReAdd tf cf b ver (additional sp);
       anchored := anchored s ++ [{| ab_ver := ver; ab_removed := b; ab_included := included sp;
                                     ab_forced := cf; ab_boundary := boundary_seen s |}];
       discarded := discarded s ++ expired_ops sp; accepted := accepted s;
       boundary_seen := boundary_seen s; stuck := stuck s |}
  else set_pc s (AtNack tf cf b).
Proof. intros H. unfold wstep. rewrite H. reflexivity. Qed.

Lemma step_readd max s tf cf b ver a rest : wpc s = AtReAdd tf cf b ver (a :: rest) ->
  wstep max s EReAdd =
  set_queue s (queue s ++ [{| q_id := q_id a; q_sfx := q_sfx a; q_ty := q_ty a; q_ver := ver |}])
            (AtReAdd tf cf b ver rest).
Proof. intros H. unfold wstep. rewrite H. reflexivity. Qed.

Lemma step_ack max s tf cf b ver : wpc s = AtReAdd tf cf b ver [] ->
  wstep max s EAck = if cf then set_pc s Idle else set_pc s (AtLen tf false).
Proof. intros H. unfold wstep. rewrite H. reflexivity. Qed.

Lemma step_nack max s tf cf b : wpc s = AtNack tf cf b ->
  wstep max s ENack = set_queue s (b ++ queue s) Idle.
Proof. intros H. unfold wstep. rewrite H. reflexivity. Qed.

Lemma after_empty_cut_cases s tf cf p :
  after_empty_cut s tf cf p = set_pc s Idle \/
  (cf = false /\ tf = true /\ after_empty_cut s tf cf p = set_pc s (AtLen tf true)).
Proof.
  unfold after_empty_cut. destruct cf; [left; reflexivity|].
  destruct (Nat.eqb p 0); [left; reflexivity|]. destruct tf; [right | left]; auto.
Qed.

Lemma linv_after_empty_cut s tf cf p : linv (after_empty_cut s tf cf p).
Proof. destruct (after_empty_cut_cases s tf cf p) as [-> | (_ & _ & ->)]; exact I. Qed.

Lemma firstn_nonempty {A} n (l : list A) : 1 <= n -> n <= length l -> firstn n l <> [].
Proof. destruct n; [lia|]. destruct l; cbn; [lia | congruence]. Qed.

(* As in Invariants.wstep_inv the state is taken apart first, so that what [linv] and [wstep] say at each program
   counter computes; an event that leaves the program counter where it was leaves [linv] as it was. *)
Lemma wstep_linv max s e : Inv max s -> linv s -> linv (wstep max s e).
Proof.
  intros (_ & Hw & _) Hl. destruct s as [q p a d ac b st]. unfold linv, pc_wf, wstep in *. cbn [wpc queue boundary_seen] in *.
  destruct e as [o|f| | | |ok ex|ok| | |],
           p as [|tf cf|tf cf pe|tf cf n ver|tf cf bt ver|tf cf bt ver sp|tf cf bt ver [|x rest]|tf cf bt];
    cbn [wpc mark_stuck set_pc set_queue]; try exact I; try exact Hl.
  - destruct (negb cf && _); [apply linv_after_empty_cut | exact I].
  - destruct (version_prefix _) as [[|b0 b1] ver]; [apply linv_after_empty_cut | cbn; lia].
  - apply firstn_nonempty; [exact Hl | apply Hw].
  - destruct ok; [|exact I]. cbv zeta. pose proof (split_batch_additional_lt (fun i => memZ i ex) bt Hl).
    destruct (included _); cbn; [exact I | assumption].
  - destruct ok; exact I.
  - destruct cf; exact I.
Qed.

Lemma wstep_rinv max s e : RInv max s -> RInv max (wstep max s e).
Proof. intros [Hi Hl]. split; [apply wstep_inv; exact Hi | apply wstep_linv; assumption]. Qed.

Lemma run_rinv max es : forall s, RInv max s -> RInv max (run max s es).
Proof.
  induction es as [|e r IH]; intros s H; [exact H|]. rewrite run_cons. apply IH. apply wstep_rinv. exact H.
Qed.

Lemma init_rinv max q : RInv max (init q).
Proof. split; [apply init_inv | exact I]. Qed.

Lemma reach_rinv max q es : RInv max (run max (init q) es).
Proof. apply run_rinv. apply init_rinv. Qed.

Lemma rank_zero p : rank p = 0 -> p = Idle.
Proof. destruct p as [|tf cf|tf cf p|? ? ? ?|? ? ? ?|? ? ? ? ?|? ? ? ? ?|? ? ?]; cbn; try discriminate; try reflexivity;
  destruct cf; discriminate. Qed.

Lemma next_ev_none o s : next_ev o s = None -> wpc s = Idle.
Proof. unfold next_ev. destruct (wpc s) as [| | | | | |? ? ? ? rest|]; try discriminate; [reflexivity|]. destruct rest; discriminate. Qed.

Lemma next_ev_idle o s : wpc s = Idle -> next_ev o s = None.
Proof. unfold next_ev. intros ->. reflexivity. Qed.

Lemma firstn_skipn_length {A} n (l : list A) : length (skipn n l) + length (firstn n l) = length l.
Proof. rewrite <- (firstn_skipn n l) at 3. rewrite app_length. lia. Qed.

Definition step_ok (s s' : wstate) : Prop :=
  stuck s' = stuck s /\ accepted s' = accepted s /\ work s' <= work s /\ mu s' < mu s.

Lemma step_ok_eq s s' :
  stuck s' = stuck s -> accepted s' = accepted s -> work s' = work s -> rank (wpc s') < rank (wpc s) -> step_ok s s'.
Proof. intros H1 H2 H3 H4. repeat split; try assumption; [|unfold mu; rewrite H3]; lia. Qed.

Lemma step_ok_lt s s' :
  stuck s' = stuck s -> accepted s' = accepted s -> work s' < work s -> rank (wpc s') <= 9 + work s' -> step_ok s s'.
Proof.
  intros H1 H2 H3 H4. repeat split; try assumption; [lia|]. unfold mu.
  assert (H : (work s' + 1) * (work s' + 11) <= work s * (work s + 10)) by (apply Nat.mul_le_mono; lia).
  lia.
Qed.

Lemma step_ok_set_pc s P :
  length (inflight P) = length (inflight (wpc s)) -> rank P < rank (wpc s) -> step_ok s (set_pc s P).
Proof. intros Hi Hr. apply step_ok_eq; try reflexivity; [|exact Hr]. unfold work, set_pc; cbn [queue wpc]; lia. Qed.

Lemma step_ok_after_empty_cut s tf (cf : bool) p :
  inflight (wpc s) = [] -> (if cf then 1 else 7) <= rank (wpc s) ->
  step_ok s (after_empty_cut s tf cf p).
Proof.
  intros Hi Hr. destruct (after_empty_cut_cases s tf cf p) as [-> | (Hcf & _ & ->)].
  - apply step_ok_set_pc; rewrite ?Hi; cbn [inflight rank length]; [reflexivity|]. destruct cf; lia.
  - subst cf. apply step_ok_set_pc; rewrite ?Hi; cbn [inflight rank length]; [reflexivity | lia].
Qed.

Lemma thread_step max o s e :
  RInv max s -> next_ev o s = Some e -> step_ok s (wstep max s e).
Proof.
  intros [(_ & Hw & _) Hl] He. destruct s as [q p a d ac b st]. unfold next_ev, linv, pc_wf in *. cbn [wpc queue boundary_seen] in *.
  destruct p as [|tf cf|tf cf pe|tf cf n ver|tf cf bt ver|tf cf bt ver sp|tf cf bt ver [|x rest]|tf cf bt];
    [discriminate He|..]; injection He as <-; unfold wstep; cbn [wpc queue boundary_seen].
  - destruct (negb cf && _) eqn:Eg.
    + apply step_ok_after_empty_cut; [reflexivity|]. destruct cf; cbn in *; [discriminate | lia].
    + apply step_ok_set_pc; [reflexivity|]. destruct cf; cbn; lia.
  - destruct (version_prefix _) as [[|b0 b1] ver].
    + apply step_ok_after_empty_cut; [reflexivity|]. destruct cf; cbn; lia.
    + apply step_ok_eq; try reflexivity. destruct cf; cbn; lia.
  - apply step_ok_eq; try reflexivity; [|cbn; lia]. unfold work. cbn. pose proof (firstn_skipn_length n q). lia.
  - destruct (o_ok o _); [cbv zeta; destruct (included _)|].
    + (* F16: the whole batch expired - it is settled (discarded) without an anchor write *)
      apply step_ok_lt; try reflexivity; unfold work; cbn; destruct bt; cbn; try congruence; lia.
    + apply step_ok_set_pc; cbn; try reflexivity; lia.
    + apply step_ok_set_pc; cbn; try reflexivity; lia.
  - destruct (o_ok o _).
    + apply step_ok_lt; try reflexivity; unfold work; cbn; lia.
    + apply step_ok_set_pc; cbn; try reflexivity; lia.
  - destruct cf; apply step_ok_set_pc; cbn; try reflexivity; lia.
  - apply step_ok_eq; try reflexivity; [|cbn; lia]. unfold work. cbn. rewrite app_length. cbn. lia.
  - apply step_ok_eq; try reflexivity; [|cbn; lia]. unfold work. cbn. rewrite app_length. lia.
Qed.

(* the thread's continuation ends in Idle, and a property [P] that every thread step keeps holds at its end *)
Lemma thread_run max o (P : wstate -> Prop) :
  (forall s e, RInv max s -> P s -> next_ev o s = Some e -> P (wstep max s e)) ->
  forall fuel s, RInv max s -> P s -> mu s <= fuel ->
  let s' := run max s (thread max o fuel s) in
  P s' /\ wpc s' = Idle /\ RInv max s' /\ stuck s' = stuck s /\ accepted s' = accepted s /\ work s' <= work s.
Proof.
  intros Hstep. induction fuel as [|k IH]; intros s Hi Hp Hmu.
  - cbn. assert (Hr : rank (wpc s) = 0) by (unfold mu in Hmu; lia).
    apply rank_zero in Hr. repeat split; auto; apply Hi.
  - cbn [thread]. destruct (next_ev o s) as [e|] eqn:Ee.
    + rewrite run_cons.
      destruct (thread_step max o s e Hi Ee) as (Hs & Ha & Hw & Hm).
      destruct (IH (wstep max s e)) as (Hp' & Hpc' & Hi' & Hs' & Ha' & Hw').
      * apply wstep_rinv. exact Hi.
      * apply (Hstep s e); assumption.
      * lia.
      * cbv zeta. repeat split; try assumption; try apply Hi'; try congruence. lia.
    + cbn. apply next_ev_none in Ee. repeat split; auto; apply Hi.
Qed.

Lemma finish_run max o (P : wstate -> Prop) :
  (forall s e, RInv max s -> P s -> next_ev o s = Some e -> P (wstep max s e)) ->
  forall s, RInv max s -> P s ->
  let s' := run max s (finish_events max o s) in
  P s' /\ wpc s' = Idle /\ RInv max s' /\ stuck s' = stuck s /\ accepted s' = accepted s /\ work s' <= work s.
Proof. intros Hstep s Hi Hp. apply (thread_run max o P Hstep (mu s) s Hi Hp). lia. Qed.

(* path invariant of a forced failure-free tick: a cut is certain, then work has decreased *)
Definition progress_inv (max w0 : nat) (s : wstate) : Prop := work s < w0 \/ (work s = w0 /\ will_cut max s).

Lemma progress_step max o w0 s e :
  0 < max -> failure_free o -> RInv max s -> progress_inv max w0 s -> next_ev o s = Some e ->
  progress_inv max w0 (wstep max s e).
Proof.
  intros Hmax Hff Hi [Hlt | [Heq Hc]] He.
  { left. destruct (thread_step max o s e Hi He) as (_ & _ & Hw & _). lia. }
  destruct Hi as [(_ & Hwf & _) Hl]. specialize (Hff s). destruct s as [q p a d ac b st].
  unfold progress_inv, next_ev, linv, pc_wf, will_cut, work in *. cbn [wpc queue boundary_seen] in *.
  destruct p as [|tf cf|tf cf pe|tf cf n ver|tf cf bt ver|tf cf bt ver sp|tf cf bt ver rest|tf cf bt];
    try contradiction; injection He as <-; unfold wstep; cbn [wpc queue boundary_seen]; cbn [inflight length] in Heq.
  - (* AtLen: queue not empty, and forced or a full batch *)
    destruct Hc as [Hne Hwhy]. destruct q as [|x q']; [congruence|]. right.
    destruct (negb cf && _) eqn:Eg; [|split; [exact Heq | cbn; lia]].
    apply andb_true_iff in Eg. destruct Eg as [Ecf Elt]. apply Nat.ltb_lt in Elt.
    destruct cf; [discriminate|]. destruct Hwhy as [-> | [Hx | Hx]]; [|discriminate | lia].
    split; [exact Heq | cbn; auto].
  - (* AtPeek, 1 <= p *)
    destruct q as [|x q']; [cbn in Hwf; lia|].
    destruct (Nat.min pe max) eqn:E; [lia|]. cbn [firstn version_prefix same_version_prefix]. rewrite Z.eqb_refl.
    right. split; [exact Heq | exact I].
  - right. split; [|exact I]. cbn. pose proof (firstn_skipn_length n q). lia.
  - rewrite Hff. cbv zeta. destruct (included _).
    + (* F16: the whole batch expired: it is settled right here *)
      left. cbn. destruct bt; [congruence | cbn in Heq; lia].
    + right. split; [exact Heq | exact I].
  - rewrite Hff. left. cbn. lia.
Qed.

(* path invariant of a tick that changes nothing: the queue, with the batch in flight in front of it, the anchored
   batches and the discard pile are what they were, and the program counter stays in a set [C] *)
Definition frozen (C : pc -> Prop) (q0 : list qop) (a0 : list anchored_batch) (d0 : list qop) (s : wstate) : Prop :=
  inflight (wpc s) ++ queue s = q0 /\ anchored s = a0 /\ discarded s = d0 /\ C (wpc s).

Lemma frozen_after_empty_cut (C : pc -> Prop) q0 a0 d0 s tf cf p :
  inflight (wpc s) = [] -> C Idle -> (tf = true -> C (AtLen tf true)) ->
  frozen C q0 a0 d0 s -> frozen C q0 a0 d0 (after_empty_cut s tf cf p).
Proof.
  intros Hi HI HL (Hq & Ha & Hd & _). rewrite Hi in Hq.
  destruct (after_empty_cut_cases s tf cf p) as [-> | (_ & Htf & ->)]; repeat split; auto.
Qed.

(* every cut fails: the handler fails, or it prepares a batch (not all expired) and the anchor write fails *)
Lemma transparent_step max o q0 a0 d0 s e :
  cut_fails o -> RInv max s -> frozen not_readd q0 a0 d0 s -> next_ev o s = Some e ->
  frozen not_readd q0 a0 d0 (wstep max s e).
Proof.
  intros Hfail [_ Hl] Ht He. specialize (Hfail s). pose proof Ht as (Hq & _ & _ & Hn).
  destruct s as [q p a d ac b st]. unfold next_ev, linv in *. cbn [wpc queue] in *.
  destruct p as [|tf cf|tf cf pe|tf cf n ver|tf cf bt ver|tf cf bt ver sp|tf cf bt ver rest|tf cf bt];
    try contradiction; [discriminate He|..]; injection He as <-; unfold wstep; cbn [wpc queue].
  - destruct (negb cf && _); [apply frozen_after_empty_cut; [reflexivity | exact I | intros _; exact I | exact Ht] | exact Ht].
  - destruct (version_prefix _) as [[|b0 b1] ver];
      [apply frozen_after_empty_cut; [reflexivity | exact I | intros _; exact I | exact Ht] | exact Ht].
  - split; [|apply Ht]. cbn. rewrite firstn_skipn. exact Hq.
  - destruct (o_ok o _); [|exact Ht]. cbv zeta.
    destruct (included _); [destruct (Hfail eq_refl Hl eq_refl) | exact Ht].
  - rewrite Hfail. exact Ht.
  - exact Ht.
Qed.

(* a tick that finds fewer than max operations and is not forced does nothing *)
Definition small_pc (p : pc) : Prop := p = Idle \/ p = AtLen false false.

Lemma small_step max o q0 a0 d0 s e :
  length q0 < max -> frozen small_pc q0 a0 d0 s -> next_ev o s = Some e -> frozen small_pc q0 a0 d0 (wstep max s e).
Proof.
  intros Hlt (Hq & Ha & Hd & [Hpc | Hpc]) He; destruct s as [q p a d ac b st]; cbn [wpc] in Hpc; subst p; [discriminate|].
  injection He as <-. unfold wstep. cbn [wpc queue inflight app] in *. subst q0.
  rewrite (proj2 (Nat.ltb_lt _ _) Hlt). cbn [negb andb]. unfold after_empty_cut. rewrite orb_true_r.
  repeat split; try assumption. left. reflexivity.
Qed.

(* with a maximum operation count of 0 nothing is ever cut *)
Definition cutless (p : pc) : Prop := match p with Idle | AtLen _ _ | AtPeek _ _ _ => True | _ => False end.

Lemma max0_step o q0 a0 d0 s e :
  frozen cutless q0 a0 d0 s -> next_ev o s = Some e -> frozen cutless q0 a0 d0 (wstep 0 s e).
Proof.
  intros Hm He. pose proof Hm as (_ & _ & _ & Hpc). destruct s as [q p a d ac b st].
  unfold next_ev in He. cbn [wpc] in *.
  destruct p as [|tf cf|tf cf pe| | | | |]; try contradiction; [discriminate He|..]; injection He as <-; unfold wstep; cbn [wpc queue].
  - rewrite andb_false_r. exact Hm.
  - rewrite Nat.min_0_r. cbn [firstn version_prefix].
    apply frozen_after_empty_cut; [reflexivity | exact I | intros _; exact I | exact Hm].
Qed.

Lemma run_adds max l : forall s,
  run max s (adds l) =
  {| queue := queue s ++ l; wpc := wpc s; anchored := anchored s; discarded := discarded s;
     accepted := accepted s ++ l; boundary_seen := boundary_seen s; stuck := stuck s |}.
Proof.
  induction l as [|o r IH]; intros s.
  - cbn. rewrite !app_nil_r. destruct s; reflexivity.
  - cbn [adds map]. rewrite run_cons. fold (adds r). rewrite IH. cbn [wstep queue wpc anchored discarded accepted boundary_seen stuck].
    rewrite <- !app_assoc. reflexivity.
Qed.

Lemma work_idle s : wpc s = Idle -> work s = length (queue s).
Proof. unfold work. intros ->. apply Nat.add_0_r. Qed.

Lemma conserved_length s : conserved s -> length (accepted s) = work s + settled s.
Proof.
  unfold conserved, all_ops, work, settled. intros H. apply Permutation_length in H.
  unfold ids in H. rewrite !map_length, !app_length in H. lia.
Qed.
