(* C16: invariants of the batch writer over all interleavings and fault placements. *)
From Coq Require Import List ZArith Bool Lia Permutation.
From SV Require Import Base.ListFacts Base.PermCount Base.Split3 Base.TakeWhile Writer.Machine.
Import ListNotations.
Local Open Scope Z_scope.

Lemma memZ_In x l : memZ x l = true <-> In x l.
Proof.
  induction l as [|y r IH]; cbn [memZ In]; [split; [discriminate | tauto]|].
  rewrite orb_true_iff, Z.eqb_eq, IH. split; intros [H|H]; auto.
Qed.

Lemma split_batch_split3 f l : forall seen,
  split_batch f seen l =
  let s := split3 (fun o => f (q_id o)) q_sfx memZ seen l in
  {| included := s3_in s; additional := s3_add s; expired_ops := s3_exp s |}.
Proof.
  induction l as [|o r IH]; intros seen; cbn [split_batch split3]; [reflexivity|].
  rewrite !IH. destruct (f (q_id o)); [|destruct (memZ (q_sfx o) seen)]; reflexivity.
Qed.

(* every operation of the batch is accounted for exactly once *)
Lemma split_batch_perm f : forall l seen,
  let sp := split_batch f seen l in
  Permutation l (included sp ++ additional sp ++ expired_ops sp).
Proof. intros l seen. cbn zeta. rewrite split_batch_split3. apply split3_perm. Qed.

(* one operation per suffix in a batch, taken from the batch *)
Lemma split_batch_included f l seen :
  NoDup (map q_sfx (included (split_batch f seen l))) /\ incl (included (split_batch f seen l)) l.
Proof.
  rewrite split_batch_split3. destruct (split3_in (fun o => f (q_id o)) q_sfx memZ memZ_In l seen) as [Hn Hi].
  split; [exact Hn | intros o Ho; apply (Hi o Ho)].
Qed.

(* F16: when nothing is included (every operation of the batch expired), nothing is deferred either *)
Lemma split_batch_included_nil_additional_nil f l :
  included (split_batch f [] l) = [] -> additional (split_batch f [] l) = [].
Proof. rewrite split_batch_split3. apply split3_in_nil, memZ_In. Qed.

(* at least the first operation of a batch is included or expired *)
Lemma split_batch_additional_lt f l : l <> [] -> (length (additional (split_batch f [] l)) < length l)%nat.
Proof. rewrite split_batch_split3. apply split3_add_lt, memZ_In. Qed.

Lemma split_batch_all_expired_eq f l : included (split_batch f [] l) = [] -> expired_ops (split_batch f [] l) = l.
Proof.
  intros Hi. pose proof (split_batch_included_nil_additional_nil f l Hi) as Ha. revert Hi Ha.
  rewrite split_batch_split3. apply split3_all_exp.
Qed.

Definition anchored_ops (s : wstate) : list qop := concat (map ab_included (anchored s)).

(* everything accepted is in exactly one place *)
Definition all_ops (s : wstate) : list qop :=
  queue s ++ inflight (wpc s) ++ anchored_ops s ++ discarded s.

Definition conserved (s : wstate) : Prop := Permutation (ids (accepted s)) (ids (all_ops s)).

Lemma ids_app a b : ids (a ++ b) = ids a ++ ids b.
Proof. apply map_app. Qed.

Lemma firstn_skipn_perm {A} n (l : list A) : Permutation l (firstn n l ++ skipn n l).
Proof. rewrite firstn_skipn. reflexivity. Qed.

Lemma anchored_ops_snoc l b : concat (map ab_included (l ++ [b])) = concat (map ab_included l) ++ ab_included b.
Proof. rewrite map_app, concat_app. cbn. rewrite app_nil_r. reflexivity. Qed.

(* conservation goals by counting ids (Base/PermCount.v): [x] is the id counted *)
Ltac conserved_by_count x :=
  unfold conserved, all_ops, anchored_ops, ids in *;
  cbn [queue wpc accepted anchored discarded inflight set_pc set_queue] in *;
  rewrite ?anchored_ops_snoc in *; perm_count Z.eq_dec x; cbn [map count_occ app ab_included q_id] in *.

(* what the writer thread knows to be true at each program counter *)
Definition homogeneous (ver : Z) (l : list qop) : Prop := Forall (fun o => q_ver o = ver) l.

Definition shape_ok (max : nat) (cf boundary : bool) (ver : Z) (batch : list qop) : Prop :=
  (length batch <= max)%nat /\ homogeneous ver batch /\
  ((length batch < max)%nat -> cf = true \/ boundary = true).

Definition pc_wf (max : nat) (s : wstate) : Prop :=
  match wpc s with
  | AtPeek tf cf pending => (pending <= length (queue s))%nat /\ (cf = false -> (max <= pending)%nat)
  | AtRemove tf cf n ver =>
      (n <= length (queue s))%nat /\ shape_ok max cf (boundary_seen s) ver (firstn n (queue s))
  | AtPrepare tf cf batch ver => shape_ok max cf (boundary_seen s) ver batch
  | AtAnchor tf cf batch ver sp =>
      shape_ok max cf (boundary_seen s) ver batch /\
      Permutation batch (included sp ++ additional sp ++ expired_ops sp) /\ incl (included sp) batch /\
      NoDup (map q_sfx (included sp)) /\ included sp <> []
  | AtReAdd tf cf batch ver rest => homogeneous ver rest
  | _ => True
  end.

Definition batch_ok (max : nat) (b : anchored_batch) : Prop :=
  shape_ok max (ab_forced b) (ab_boundary b) (ab_ver b) (ab_removed b) /\
  incl (ab_included b) (ab_removed b) /\ NoDup (map q_sfx (ab_included b)) /\ ab_included b <> [].

Definition Inv (max : nat) (s : wstate) : Prop :=
  conserved s /\ pc_wf max s /\ Forall (batch_ok max) (anchored s).

Lemma after_empty_cut_inv max s tf cf p :
  inflight (wpc s) = [] -> conserved s -> Forall (batch_ok max) (anchored s) -> Inv max (after_empty_cut s tf cf p).
Proof.
  intros Hi Hc Hb. unfold after_empty_cut, Inv, pc_wf.
  destruct cf; [|destruct (Nat.eqb p 0 || negb tf)];
    unfold conserved, all_ops, anchored_ops in *; cbn [queue wpc accepted anchored discarded inflight set_pc];
    rewrite Hi in Hc; auto.
Qed.

Lemma svp_take_while v l : same_version_prefix v l = take_while (fun o => q_ver o =? v) l.
Proof. induction l as [|o r IH]; cbn [same_version_prefix take_while]; [|rewrite IH]; reflexivity. Qed.

(* One case per event and program counter.  With the state taken apart its projections compute, so an event that
   does not match the program counter (the state is marked stuck, nothing else changes) and a step that only moves
   the program counter between states with nothing in flight keep the three parts of the invariant as they are. *)
Theorem wstep_inv max s e : Inv max s -> Inv max (wstep max s e).
Proof.
  intros (Hc & Hw & Hb). destruct s as [q p a d ac b st]. unfold pc_wf in Hw. unfold wstep. cbn [wpc queue boundary_seen] in *.
  destruct e as [o|f| | | |ok ex|ok| | |].
  { (* client Add: appended at the tail, nothing the writer relies on changes *)
    split; [|split; [|exact Hb]].
    - conserved_by_count x. destruct (Z.eq_dec (q_id o) x); lia.
    - unfold pc_wf. cbn [wpc queue boundary_seen]. destruct p; try exact Hw; rewrite app_length; cbn [length].
      + split; [lia | apply Hw].
      + split; [lia|]. rewrite firstn_app. replace (n - length q)%nat with 0%nat by lia. cbn [firstn]. rewrite app_nil_r. apply Hw. }
  all: destruct p as [|tf cf|tf cf pe|tf cf n ver|tf cf batch ver|tf cf batch ver sp|tf cf batch ver [|r0 rest]|tf cf batch];
    try exact (conj Hc (conj Hw Hb)).
  - (* Len *)
    destruct (negb cf && (length q <? max)%nat) eqn:Eg; [apply after_empty_cut_inv; [reflexivity | exact Hc | exact Hb]|].
    split; [exact Hc | split; [|exact Hb]]. split; [cbn; lia|]. intros ->. apply Nat.ltb_ge. exact Eg.
  - (* Peek *)
    destruct Hw as [Hp Hcf]. unfold version_prefix.
    destruct (firstn (Nat.min pe max) q) as [|o w] eqn:Ew; [apply after_empty_cut_inv; [reflexivity | exact Hc | exact Hb]|].
    destruct (take_while_window (fun x => q_ver x =? q_ver o) (fun x => q_ver x = q_ver o) (Nat.min pe max) q
                (fun x => proj1 (Z.eqb_eq _ _))) as (Hh & Hl & Hfn).
    rewrite Ew, <- svp_take_while in Hh, Hl, Hfn.
    destruct (same_version_prefix (q_ver o) (o :: w)) as [|b0 bt];
      [apply after_empty_cut_inv; [reflexivity | exact Hc | exact Hb]|].
    split; [exact Hc | split; [|exact Hb]]. unfold pc_wf. cbn [wpc queue boundary_seen].
    assert (Hwl : length (o :: w) = Nat.min pe max) by (rewrite <- Ew, firstn_length; lia).
    split; [lia|]. rewrite <- Hfn. split; [lia | split; [exact Hh|]].
    intros Hlt. destruct cf; [left; reflexivity|]. right. specialize (Hcf eq_refl). apply Nat.ltb_lt. lia.
  - (* Remove *)
    split; [|split; [apply Hw | exact Hb]].
    assert (Hq : Permutation (ids q) (ids (firstn n q ++ skipn n q))) by (rewrite firstn_skipn; reflexivity).
    conserved_by_count x. lia.
  - (* Prepare *)
    destruct ok; [|exact (conj Hc (conj I Hb))]. cbv zeta.
    destruct (included (split_batch (fun i => memZ i ex) [] batch)) as [|i0 ir] eqn:Einc.
    + (* F16: every operation expired - the whole batch moves to [discarded], no anchor *)
      rewrite (split_batch_all_expired_eq _ _ Einc).
      split; [|split; [constructor | exact Hb]]. conserved_by_count x. lia.
    + split; [exact Hc | split; [|exact Hb]].
      split; [exact Hw|]. split; [apply split_batch_perm|].
      split; [apply split_batch_included|]. split; [apply split_batch_included|]. rewrite Einc. discriminate.
  - (* Anchor *)
    destruct ok; [|exact (conj Hc (conj I Hb))]. destruct Hw as (Hs & Hperm & Hincl & Hnd & Hne).
    split; [|split].
    + apply (Permutation_map q_id) in Hperm. conserved_by_count x. lia.
    + (* what is deferred was in the batch, so it has the batch's version *)
      destruct Hs as (_ & Hh & _). unfold pc_wf, homogeneous in *. cbn [wpc]. rewrite Forall_forall in *. intros y Hy. apply Hh.
      eapply Permutation_in; [apply Permutation_sym; exact Hperm|]. apply in_or_app. right. apply in_or_app. left. exact Hy.
    + cbn [anchored]. apply Forall_app. split; [exact Hb|]. constructor; [|constructor].
      unfold batch_ok. cbn [ab_forced ab_boundary ab_ver ab_removed ab_included]. auto.
  - (* ReAdd *)
    split; [|split; [inversion Hw; assumption | exact Hb]].
    conserved_by_count x. destruct (Z.eq_dec (q_id r0) x); lia.
  - (* Ack *) destruct cf; exact (conj Hc (conj I Hb)).
  - (* Nack: the batch returns to the head of the queue *)
    split; [|split; [exact I | exact Hb]]. conserved_by_count x. lia.
Qed.

Lemma init_inv max q : Inv max (init q).
Proof.
  unfold Inv, init, conserved, all_ops, anchored_ops, pc_wf. cbn. rewrite !app_nil_r. repeat split; [reflexivity | constructor].
Qed.

Theorem run_inv max es : forall s, Inv max s -> Inv max (run max s es).
Proof.
  unfold run. induction es as [|e r IH]; intros s H; cbn [fold_left]; [exact H|]. apply IH. apply wstep_inv. exact H.
Qed.

(* every reachable state, for every interleaving of client Adds with the writer's actions and
   every placement of Prepare / WriteAnchor failures *)
Lemma reach_inv max q es : Inv max (run max (init q) es).
Proof. apply run_inv, init_inv. Qed.

Theorem conservation max q es :
  let s := run max (init q) es in
  Permutation (ids (accepted s)) (ids (queue s ++ inflight (wpc s) ++ anchored_ops s ++ discarded s)).
Proof. intros s. apply (reach_inv max q es). Qed.

Theorem exactly_once max q es :
  let s := run max (init q) es in
  NoDup (ids (accepted s)) ->
  NoDup (ids (anchored_ops s)) /\ incl (ids (anchored_ops s)) (ids (accepted s)) /\
  (forall i, In i (ids (anchored_ops s)) -> ~ In i (ids (queue s)) /\ ~ In i (ids (inflight (wpc s))) /\ ~ In i (ids (discarded s))).
Proof.
  intros s Hnd. pose proof (conservation max q es) as Hc. fold s in Hc. cbn zeta in Hc.
  pose proof (Permutation_NoDup Hc Hnd) as Hall. rewrite !ids_app in Hall, Hc.
  apply NoDup_app_iff in Hall. destruct Hall as (_ & H1 & D1).
  apply NoDup_app_iff in H1. destruct H1 as (_ & H2 & D2).
  apply NoDup_app_iff in H2. destruct H2 as (H3 & _ & D3).
  split; [exact H3|]. split.
  - intros i Hi. eapply Permutation_in; [apply Permutation_sym; exact Hc|]. rewrite !in_app_iff. auto.
  - intros i Hi. repeat split.
    + intros Hq. apply (D1 i Hq). rewrite !in_app_iff. auto.
    + intros Hq. apply (D2 i Hq). rewrite in_app_iff. auto.
    + apply D3. exact Hi.
Qed.

(* every anchored batch: at most max operations, one protocol version, one operation per suffix,
   and a batch smaller than max was cut on batch timeout (forced) or at a version boundary *)
Theorem batch_shape max q es :
  let s := run max (init q) es in
  Forall (fun b => (length (ab_removed b) <= max)%nat /\
                   Forall (fun o => q_ver o = ab_ver b) (ab_removed b) /\
                   incl (ab_included b) (ab_removed b) /\ NoDup (map q_sfx (ab_included b)) /\
                   ((length (ab_removed b) < max)%nat -> ab_forced b = true \/ ab_boundary b = true))
         (anchored s).
Proof.
  intros s. eapply Forall_impl; [|apply (reach_inv max q es)]. intros b ((Hl & Hh & Hf) & Hi & Hn & _). auto.
Qed.

(* F16: an anchor is written only for a batch with at least one included operation (a batch whose operations have all
   expired is committed without an anchor; its operations are in [discarded]) *)
Theorem anchored_nonempty max q es :
  let s := run max (init q) es in Forall (fun b => ab_included b <> []) (anchored s).
Proof.
  intros s. eapply Forall_impl; [|apply (reach_inv max q es)]. intros b (_ & _ & _ & Hne). exact Hne.
Qed.

(* FIFO: removal takes the head of the queue; a failed batch returns to the head in its order *)
Theorem remove_takes_head max s tf cf n ver :
  wpc s = AtRemove tf cf n ver ->
  let s' := wstep max s ERemove in
  exists batch, wpc s' = AtPrepare tf cf batch ver /\ queue s = batch ++ queue s'.
Proof.
  intros Hpc. unfold wstep. rewrite Hpc. cbn. exists (firstn n (queue s)). split; [reflexivity|].
  symmetry. apply firstn_skipn.
Qed.

Theorem nack_restores_head max s tf cf batch :
  wpc s = AtNack tf cf batch ->
  let s' := wstep max s ENack in queue s' = batch ++ queue s /\ wpc s' = Idle.
Proof. intros Hpc. unfold wstep. rewrite Hpc. cbn. auto. Qed.

(* client submissions never disturb the part of the queue the writer has looked at *)
Theorem add_appends max s o :
  let s' := wstep max s (EAdd o) in
  queue s' = queue s ++ [o] /\ wpc s' = wpc s /\ anchored s' = anchored s.
Proof. cbn. auto. Qed.
