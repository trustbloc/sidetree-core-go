(* C16, progress: every operation accepted by the batch writer IS eventually anchored (or
   discarded as expired) once processing is failure-free and batch-timeout ticks keep coming.

   Invariants.v proves safety over all event lists (nothing lost, nothing duplicated, batch
   shape).  Here: the writer thread's own continuation ([thread], LivenessLemmas.v) from ANY
   reachable state - reachable = [run max (init q) es] for an arbitrary event list [es], i.e. any
   interleaving of client Adds, ticks, handler / anchor failures, and even ill-scheduled events -
   terminates in Idle, a tick that can cut settles at least one operation, a failed cut puts the
   batch back at the head of the queue in its order, and enough forced ticks empty the queue.

   Hypotheses that cannot be dropped (on the right the theorem that says what happens without it; the unconditional
   statements are refuted by [drain_unforced_refuted], [drain_max0_refuted], [drain_failing_refuted]):
   - [0 < max]: with MaxOperationCount = 0 the cutter never cuts            (max0_never_drains)
   - forced ticks: a monitor tick never cuts a batch smaller than max         (unforced_never_drains)
   - eventually failure-free: a handler / anchor writer that keeps failing keeps the whole queue
     (head-of-line blocking; no operation is ever skipped)                     (failing_never_drains)

   F16: a batch whose operations have ALL expired is committed without an anchor write - PrepareTxnFiles
   returns no anchor string and the writer goes straight to Ack.  [next_ev] follows the program counter, so after such
   a prepare the thread's next event is EAck, never EAnchor.  Consequences here: the batch is settled at the prepare
   step (progress), and "the anchor writer is down" alone does not imply "nothing changes": the hypothesis of the
   transparency theorems is [cut_fails] (anchor writes fail AND no batch is found entirely expired);
   [anchor_failure_alone_is_not_enough] is the witness. *)
From Coq Require Import List ZArith Lia Permutation.
From SV Require Import Writer.Machine Writer.Invariants Writer.LivenessLemmas.
Import ListNotations.
Local Open Scope nat_scope.

(* [next_ev] is not a choice: in every state it is the only kind of event, client Adds apart, that
   the machine accepts without marking the state stuck (the correspondence check of Corr/Writer.v
   requires recorded traces of the real writer not to be stuck) *)
Definition same_kind (a b : event) : bool :=
  match a, b with
  | ETick _, ETick _ | ELen, ELen | EPeek, EPeek | ERemove, ERemove | EPrepare _ _, EPrepare _ _
  | EAnchor _, EAnchor _ | EReAdd, EReAdd | EAck, EAck | ENack, ENack => true
  | _, _ => false
  end.

Theorem next_ev_is_the_enabled_event max o s e :
  stuck s = false -> (forall a, e <> EAdd a) -> stuck (wstep max s e) = false ->
  match next_ev o s with
  | Some e' => same_kind e e' = true
  | None => exists f, e = ETick f
  end.
Proof.
  intros Hs Hna Hok. destruct s as [q p a d ac b st]. unfold next_ev, wstep in *. cbn [wpc] in *.
  destruct e as [x|f| | | |ok ex|ok| | |]; [destruct (Hna x eq_refl)|..];
    destruct p as [|tf cf|tf cf pe|tf cf n ver|tf cf bt ver|tf cf bt ver sp|tf cf bt ver [|r0 rest]|tf cf bt];
    cbn [mark_stuck stuck] in *; try congruence; try reflexivity.
  exists f. reflexivity.
Qed.

(* the thread always comes back to Idle: any oracle (failures allowed), any max, any reachable
   state, in particular from the middle of a tick *)
Theorem thread_finishes max o q es :
  let s := run max (init q) es in
  let s' := run max (init q) (es ++ finish_events max o s) in
  wpc s' = Idle /\ stuck s' = stuck s /\ accepted s' = accepted s /\ work s' <= work s.
Proof.
  intros s s'. unfold s'. rewrite run_app. fold s.
  destruct (finish_run max o (fun _ => True) (fun _ _ _ _ _ => I) s (reach_rinv max q es) I)
    as (_ & Hpc & _ & Hs & Ha & Hw).
  auto.
Qed.

(* one tick from an Idle state satisfying the invariants, with a path invariant P *)
Lemma tick_run max o f (P : wstate -> Prop) s :
  (forall s e, RInv max s -> P s -> next_ev o s = Some e -> P (wstep max s e)) ->
  RInv max s -> wpc s = Idle -> P (set_pc s (AtLen f false)) ->
  let s' := run max s (tick_events max o f s) in
  P s' /\ wpc s' = Idle /\ RInv max s' /\ stuck s' = stuck s /\ accepted s' = accepted s /\
  length (queue s') <= length (queue s).
Proof.
  intros Hstep Hi Hpc Hp. unfold tick_events. rewrite run_cons.
  assert (Hi1 : RInv max (wstep max s (ETick f))) by (apply wstep_rinv; exact Hi).
  replace (wstep max s (ETick f)) with (set_pc s (AtLen f false)) in * by (unfold wstep; rewrite Hpc; reflexivity).
  destruct (finish_run max o P Hstep _ Hi1 Hp) as (Hp' & Hpc' & Hi' & Hs & Ha & Hw).
  cbv zeta. repeat split; try assumption; try apply Hi'.
  unfold work in Hw. rewrite Hpc' in Hw. cbn [set_pc queue wpc inflight length] in Hw. lia.
Qed.

Lemma tick_basic max o f s :
  RInv max s -> wpc s = Idle ->
  let s' := run max s (tick_events max o f s) in
  wpc s' = Idle /\ RInv max s' /\ stuck s' = stuck s /\ accepted s' = accepted s /\
  length (queue s') <= length (queue s).
Proof.
  intros Hi Hpc. destruct (tick_run max o f (fun _ => True) s (fun _ _ _ _ _ => I) Hi Hpc I) as (_ & H). exact H.
Qed.

(* a tick along which [frozen C] is kept leaves queue, anchored batches and discard pile as they were *)
Lemma frozen_tick max o f (C : pc -> Prop) s :
  (forall s1 e, RInv max s1 -> frozen C (queue s) (anchored s) (discarded s) s1 -> next_ev o s1 = Some e ->
                frozen C (queue s) (anchored s) (discarded s) (wstep max s1 e)) ->
  RInv max s -> wpc s = Idle -> C (AtLen f false) ->
  let s' := run max s (tick_events max o f s) in
  queue s' = queue s /\ anchored s' = anchored s /\ discarded s' = discarded s /\
  wpc s' = Idle /\ RInv max s' /\ stuck s' = stuck s /\ accepted s' = accepted s.
Proof.
  intros Hstep Hi Hpc HC.
  destruct (tick_run max o f (frozen C (queue s) (anchored s) (discarded s)) s Hstep Hi Hpc)
    as ((Hq & Han & Hd & _) & Hpc' & Hi' & Hs & Ha & _).
  - repeat split. exact HC.
  - rewrite Hpc' in Hq. repeat split; try assumption; apply Hi'.
Qed.

(* progress per tick: a failure-free tick that is forced (batch timeout) or finds a full batch
   settles at least one operation; the queue - measured AFTER the deferred same-DID operations
   have been re-added - is strictly shorter *)
Lemma tick_progress_inv max o f s :
  0 < max -> failure_free o -> RInv max s -> wpc s = Idle -> queue s <> [] ->
  (f = true \/ max <= length (queue s)) ->
  let s' := run max s (tick_events max o f s) in
  wpc s' = Idle /\ RInv max s' /\ stuck s' = stuck s /\ accepted s' = accepted s /\
  length (queue s') < length (queue s) /\ settled s < settled s'.
Proof.
  intros Hmax Hff Hi Hpc Hne Hwhy.
  destruct (tick_run max o f (progress_inv max (work s)) s (fun s0 e => progress_step max o _ s0 e Hmax Hff) Hi Hpc)
    as ([Hlt | [_ Hc]] & Hpc' & Hi' & Hs & Ha & _).
  - right. split; [unfold work; rewrite Hpc; reflexivity|].
    split; [exact Hne | destruct Hwhy as [-> | Hfull]; auto].
  - pose proof (conserved_length _ (proj1 (proj1 Hi))) as Hc. pose proof (conserved_length _ (proj1 (proj1 Hi'))) as Hc'.
    rewrite (work_idle _ Hpc) in *. rewrite (work_idle _ Hpc'), Ha in *.
    repeat split; try assumption; try apply Hi'; lia.
  - unfold will_cut in Hc. rewrite Hpc' in Hc. contradiction.
Qed.

Theorem tick_progress max o f q es :
  let s := run max (init q) es in
  0 < max -> failure_free o -> wpc s = Idle -> queue s <> [] ->
  (f = true \/ max <= length (queue s)) ->
  let s' := run max (init q) (es ++ tick_events max o f s) in
  wpc s' = Idle /\ stuck s' = stuck s /\ accepted s' = accepted s /\
  length (queue s') < length (queue s) /\ settled s < settled s'.
Proof.
  intros s Hmax Hff Hpc Hne Hwhy s'. unfold s'. rewrite run_app. fold s.
  destruct (tick_progress_inv max o f s Hmax Hff (reach_rinv max q es) Hpc Hne Hwhy) as (H1 & _ & H2 & H3 & H4 & H5).
  repeat split; assumption.
Qed.

(* a tick in which the handler or the anchor write fails at the first cut: nothing changes *)
Lemma failed_tick_inv max o f s :
  cut_fails o -> RInv max s -> wpc s = Idle ->
  let s' := run max s (tick_events max o f s) in
  queue s' = queue s /\ anchored s' = anchored s /\ discarded s' = discarded s /\
  wpc s' = Idle /\ RInv max s' /\ stuck s' = stuck s /\ accepted s' = accepted s.
Proof.
  intros Hfail Hi Hpc. apply (frozen_tick max o f not_readd); [|exact Hi | exact Hpc | exact I].
  intros s1 e. apply transparent_step. exact Hfail.
Qed.

Theorem failed_tick_transparent max o f q es :
  let s := run max (init q) es in
  cut_fails o -> wpc s = Idle ->
  let s' := run max (init q) (es ++ tick_events max o f s) in
  queue s' = queue s /\ anchored s' = anchored s /\ discarded s' = discarded s /\
  wpc s' = Idle /\ stuck s' = stuck s /\ accepted s' = accepted s.
Proof.
  intros s Hfail Hpc s'. unfold s'. rewrite run_app. fold s.
  destruct (failed_tick_inv max o f s Hfail (reach_rinv max q es) Hpc) as (H1 & H2 & H3 & H4 & _ & H5 & H6).
  repeat split; assumption.
Qed.

(* the Remove of a cut and the client Adds behind it *)
Lemma run_remove_adds max q tf cf n ver a d ac b st l rest :
  run max {| queue := q; wpc := AtRemove tf cf n ver; anchored := a; discarded := d; accepted := ac;
             boundary_seen := b; stuck := st |} (ERemove :: adds l ++ rest) =
  run max {| queue := skipn n q ++ l; wpc := AtPrepare tf cf (firstn n q) ver; anchored := a; discarded := d;
             accepted := ac ++ l; boundary_seen := b; stuck := st |} rest.
Proof. rewrite run_cons, run_app, run_adds. reflexivity. Qed.

(* a failed cut anywhere in a tick (after successful cuts too), with client Adds interleaved at
   every point: the batch returns to the head of the queue in its original order, the operations
   added meanwhile stay behind it.  Holds in every state (no invariant needed). *)
Theorem failed_cut_restores_prepare max s tf cf n ver a1 a2 ex :
  wpc s = AtRemove tf cf n ver ->
  let s' := run max s (ERemove :: adds a1 ++ EPrepare false ex :: adds a2 ++ [ENack]) in
  queue s' = queue s ++ a1 ++ a2 /\ wpc s' = Idle /\ anchored s' = anchored s /\
  discarded s' = discarded s /\ stuck s' = stuck s /\ accepted s' = accepted s ++ a1 ++ a2.
Proof.
  intros Hpc. destruct s as [q p a d ac b st]. cbn [wpc] in Hpc. subst p. cbv zeta.
  rewrite run_remove_adds, run_cons. cbn [wstep wpc set_pc set_queue queue anchored discarded accepted boundary_seen stuck].
  rewrite run_app, run_adds, run_cons. cbn [run fold_left wstep wpc set_pc set_queue queue anchored discarded accepted boundary_seen stuck].
  rewrite <- !app_assoc. rewrite (app_assoc (firstn n q)), firstn_skipn. repeat split.
Qed.

Theorem failed_cut_restores_anchor max s tf cf n ver a1 a2 a3 ex :
  wpc s = AtRemove tf cf n ver ->
  included (split_batch (fun i => memZ i ex) [] (firstn n (queue s))) <> [] ->   (* F16: else there is no anchor write *)
  let s' := run max s (ERemove :: adds a1 ++ EPrepare true ex :: adds a2 ++ EAnchor false :: adds a3 ++ [ENack]) in
  queue s' = queue s ++ a1 ++ a2 ++ a3 /\ wpc s' = Idle /\ anchored s' = anchored s /\
  discarded s' = discarded s /\ stuck s' = stuck s /\ accepted s' = accepted s ++ a1 ++ a2 ++ a3.
Proof.
  intros Hpc Hinc. destruct s as [q p a d ac b st]. cbn [wpc queue] in Hpc, Hinc. subst p. cbv zeta.
  rewrite run_remove_adds, run_cons. cbn [wstep wpc]. cbv zeta.
  destruct (included (split_batch (fun i => memZ i ex) [] (firstn n q))) as [|i0 ir] eqn:Einc; [congruence|].
  cbn [set_pc set_queue queue wpc anchored discarded accepted boundary_seen stuck].
  rewrite run_app, run_adds, run_cons. cbn [wstep wpc set_pc set_queue queue anchored discarded accepted boundary_seen stuck].
  rewrite run_app, run_adds, run_cons. cbn [run fold_left wstep wpc set_pc set_queue queue anchored discarded accepted boundary_seen stuck].
  rewrite <- !app_assoc. rewrite (app_assoc (firstn n q)), firstn_skipn. repeat split.
Qed.

(* F16: a cut whose operations have all expired, with client Adds interleaved at every point: no anchor write, the
   batch is committed; its operations - all of them, in their order - are discarded, nothing is anchored, nothing
   is re-queued; the operations added meanwhile are in the queue behind what was left.  Holds in every state. *)
Theorem all_expired_cut_commits_without_anchor max s tf cf n ver a1 a2 ex :
  wpc s = AtRemove tf cf n ver ->
  included (split_batch (fun i => memZ i ex) [] (firstn n (queue s))) = [] ->
  let s' := run max s (ERemove :: adds a1 ++ EPrepare true ex :: adds a2 ++ [EAck]) in
  queue s' = skipn n (queue s) ++ a1 ++ a2 /\ wpc s' = (if cf then Idle else AtLen tf false) /\
  anchored s' = anchored s /\ discarded s' = discarded s ++ firstn n (queue s) /\
  stuck s' = stuck s /\ accepted s' = accepted s ++ a1 ++ a2.
Proof.
  intros Hpc Hinc. destruct s as [q p a d ac b st]. cbn [wpc queue] in Hpc, Hinc. subst p. cbv zeta.
  rewrite run_remove_adds, run_cons. cbn [wstep wpc]. cbv zeta.
  rewrite Hinc, (split_batch_all_expired_eq _ _ Hinc).
  cbn [set_pc set_queue queue wpc anchored discarded accepted boundary_seen stuck].
  rewrite run_app, run_adds, run_cons.
  destruct cf; cbn [run fold_left wstep wpc set_pc set_queue queue anchored discarded accepted boundary_seen stuck];
    rewrite <- !app_assoc; repeat split.
Qed.

(* after a successful prepare the thread writes an anchor if and only if the handler included an operation *)
Theorem no_anchor_event_after_all_expired_prepare max o s tf cf b ver :
  wpc s = AtPrepare tf cf b ver -> o_ok o s = true ->
  let s' := wstep max s (EPrepare (o_ok o s) (o_expired o s)) in
  match included (split_batch (fun i => memZ i (o_expired o s)) [] b) with
  | [] => next_ev o s' = Some EAck /\ anchored s' = anchored s /\
          Permutation (discarded s') (discarded s ++ b)
  | _ :: _ => next_ev o s' = Some (EAnchor (o_ok o s')) /\ anchored s' = anchored s /\ discarded s' = discarded s
  end.
Proof.
  intros Hpc Hok. unfold wstep. rewrite Hpc, Hok. cbv zeta.
  destruct (included (split_batch (fun i => memZ i (o_expired o s)) [] b)) as [|i0 ir] eqn:Einc; [|repeat split].
  rewrite (split_batch_all_expired_eq _ _ Einc). repeat split. reflexivity.
Qed.

Lemma ticks_cons max o f r s :
  ticks_events max ((o, f) :: r) s =
  tick_events max o f s ++ ticks_events max r (run max s (tick_events max o f s)).
Proof. reflexivity. Qed.

(* arbitrary ticks (any oracles: failures anywhere; forced or not): back to Idle, nothing
   accepted is forgotten, the queue does not grow *)
Lemma ticks_basic max : forall l s,
  RInv max s -> wpc s = Idle ->
  let s' := run max s (ticks_events max l s) in
  wpc s' = Idle /\ RInv max s' /\ stuck s' = stuck s /\ accepted s' = accepted s /\
  length (queue s') <= length (queue s).
Proof.
  induction l as [|[o f] r IH]; intros s Hi Hpc.
  - cbn. repeat split; auto; apply Hi.
  - rewrite ticks_cons, run_app.
    destruct (tick_basic max o f s Hi Hpc) as (Hpc1 & Hi1 & Hs1 & Ha1 & Hq1).
    destruct (IH _ Hi1 Hpc1) as (Hpc2 & Hi2 & Hs2 & Ha2 & Hq2).
    cbv zeta. repeat split; try assumption; try apply Hi2; try congruence. lia.
Qed.

(* forced failure-free ticks empty the queue: one tick per queued operation is enough *)
Lemma drain_inv max : forall os s,
  0 < max -> Forall failure_free os -> RInv max s -> wpc s = Idle ->
  length (queue s) <= length os ->
  let s' := run max s (drain_events max os s) in
  queue s' = [] /\ wpc s' = Idle /\ RInv max s' /\ stuck s' = stuck s /\ accepted s' = accepted s.
Proof.
  unfold drain_events. induction os as [|o r IH]; intros s Hmax Hff Hi Hpc Hlen.
  - cbn in *. destruct (queue s); [|cbn in Hlen; lia]. repeat split; auto; apply Hi.
  - cbn [forced map]. fold (forced r). rewrite ticks_cons, run_app. inversion Hff as [|? ? Ho Hr]; subst.
    destruct (tick_basic max o true s Hi Hpc) as (Hpc1 & Hi1 & Hs1 & Ha1 & Hq1).
    set (s1 := run max s (tick_events max o true s)) in *.
    assert (Hq : length (queue s1) <= length r).
    { destruct (queue s) as [|x q'] eqn:Eq; [cbn [length] in Hq1; lia|].
      destruct (tick_progress_inv max o true s Hmax Ho Hi Hpc) as (_ & _ & _ & _ & E & _); [rewrite Eq; discriminate | auto|].
      fold s1 in E. rewrite Eq in E. cbn [length] in Hlen, E. lia. }
    destruct (IH s1 Hmax Hr Hi1 Hpc1 Hq) as (A & B & C & D & E).
    repeat split; try assumption; try apply C; congruence.
Qed.

(* what "drained" means for the accepted operations *)
Definition all_settled (s0 s' : wstate) : Prop :=
  queue s' = [] /\ wpc s' = Idle /\ stuck s' = stuck s0 /\ accepted s' = accepted s0 /\
  Permutation (ids (accepted s0)) (ids (anchored_ops s') ++ ids (discarded s')) /\
  (NoDup (ids (accepted s0)) ->
   NoDup (ids (anchored_ops s') ++ ids (discarded s')) /\
   forall i, In i (ids (accepted s0)) ->
     count_occ Z.eq_dec (ids (anchored_ops s') ++ ids (discarded s')) i = 1).

Lemma settled_of_conserved s0 s' :
  conserved s' -> queue s' = [] -> wpc s' = Idle -> stuck s' = stuck s0 -> accepted s' = accepted s0 ->
  all_settled s0 s'.
Proof.
  intros Hc Hq Hpc Hs Ha. unfold conserved, all_ops in Hc. rewrite Hq, Hpc, Ha in Hc.
  cbn [inflight app] in Hc. rewrite ids_app in Hc.
  repeat split; try assumption.
  - eapply Permutation_NoDup; eassumption.
  - intros i Hin. rewrite <- (proj1 (Permutation_count_occ Z.eq_dec _ _) Hc i).
    apply NoDup_count_occ'; assumption.
Qed.

Lemma drain_settles max s0 s1 os :
  0 < max -> Forall failure_free os -> RInv max s1 -> wpc s1 = Idle -> stuck s1 = stuck s0 -> accepted s1 = accepted s0 ->
  length (queue s1) <= length os -> all_settled s0 (run max s1 (drain_events max os s1)).
Proof.
  intros Hmax Hff Hi Hpc Hs Ha Hlen. destruct (drain_inv max os s1 Hmax Hff Hi Hpc Hlen) as (A & B & C & D & E).
  apply settled_of_conserved; try assumption; try apply C; congruence.
Qed.

Theorem drain max q es os :
  let s := run max (init q) es in
  0 < max -> Forall failure_free os -> wpc s = Idle -> length (queue s) <= length os ->
  all_settled s (run max (init q) (es ++ drain_events max os s)).
Proof.
  intros s Hmax Hff Hpc Hlen. rewrite run_app. fold s. apply drain_settles; auto. apply reach_rinv.
Qed.

(* from ANY reachable state - client Adds interleaved anywhere in [es], the thread in
   the middle of a tick: let the thread finish (any oracle), then one forced failure-free tick
   per outstanding operation; the number of operations ever accepted is always enough *)
Theorem drain_from_anywhere max q es o0 os :
  let s := run max (init q) es in
  let s1 := run max s (finish_events max o0 s) in
  0 < max -> Forall failure_free os -> work s <= length os ->
  all_settled s (run max (init q) (es ++ finish_events max o0 s ++ drain_events max os s1)).
Proof.
  intros s s1 Hmax Hff Hlen. rewrite !run_app. fold s. fold s1.
  destruct (finish_run max o0 (fun _ => True) (fun _ _ _ _ _ => I) s (reach_rinv max q es) I)
    as (_ & Hpc1 & Hi1 & Hs1 & Ha1 & Hw1). fold s1 in Hpc1, Hi1, Hs1, Ha1, Hw1.
  apply drain_settles; try assumption.
  rewrite (work_idle _ Hpc1) in Hw1. lia.
Qed.

Lemma work_le_accepted max q es : work (run max (init q) es) <= length (accepted (run max (init q) es)).
Proof. rewrite (conserved_length _ (proj1 (proj1 (reach_rinv max q es)))). lia. Qed.

Corollary drain_bound_accepted max q es o0 os :
  let s := run max (init q) es in
  let s1 := run max s (finish_events max o0 s) in
  0 < max -> Forall failure_free os -> length (accepted s) <= length os ->
  all_settled s (run max (init q) (es ++ finish_events max o0 s ++ drain_events max os s1)).
Proof.
  intros s s1 Hmax Hff Hlen. apply drain_from_anywhere; try assumption.
  pose proof (work_le_accepted max q es) as Hwa. subst s. cbv zeta in *. lia.
Qed.

(* a client Add - at any point, in any state - only adds work: one more outstanding operation at
   the tail of the queue; the thread's position and everything settled are untouched *)
Theorem add_only_adds_work max s o :
  let s' := wstep max s (EAdd o) in
  queue s' = queue s ++ [o] /\ accepted s' = accepted s ++ [o] /\ wpc s' = wpc s /\
  work s' = S (work s) /\ settled s' = settled s /\ stuck s' = stuck s.
Proof.
  cbn. unfold work, settled, anchored_ops. cbn [queue wpc anchored discarded]. rewrite app_length. cbn [length].
  repeat split; lia.
Qed.

(* eventually failure-free schedules: ANY finite sequence of ticks (failing handler, failing
   anchor writes, monitor or timeout ticks), then enough forced failure-free ticks *)
Theorem drain_after_failures max q es pre os :
  let s := run max (init q) es in
  let s1 := run max s (ticks_events max pre s) in
  0 < max -> Forall failure_free os -> wpc s = Idle -> length (queue s) <= length os ->
  all_settled s (run max (init q) (es ++ ticks_events max pre s ++ drain_events max os s1)).
Proof.
  intros s s1 Hmax Hff Hpc Hlen. rewrite !run_app. fold s. fold s1.
  destruct (ticks_basic max pre s (reach_rinv max q es) Hpc) as (Hpc1 & Hi1 & Hs1 & Ha1 & Hq1).
  fold s1 in Hpc1, Hi1, Hs1, Ha1, Hq1.
  apply drain_settles; try assumption. lia.
Qed.

(* ticks each of which leaves queue, anchored batches and discard pile alone do so together; since the queue stays the
   same, what a tick needs to know of it may be said of the first state *)
Lemma ticks_frozen max : forall l s,
  RInv max s -> wpc s = Idle ->
  (forall o f s1, In (o, f) l -> RInv max s1 -> wpc s1 = Idle -> queue s1 = queue s ->
     let s' := run max s1 (tick_events max o f s1) in
     queue s' = queue s1 /\ anchored s' = anchored s1 /\ discarded s' = discarded s1) ->
  let s' := run max s (ticks_events max l s) in
  queue s' = queue s /\ anchored s' = anchored s /\ discarded s' = discarded s.
Proof.
  induction l as [|[o f] r IH]; intros s Hi Hpc Hq; [cbn; auto|].
  rewrite ticks_cons, run_app.
  destruct (Hq o f s (or_introl eq_refl) Hi Hpc eq_refl) as (A & B & C).
  destruct (tick_basic max o f s Hi Hpc) as (D & E & _).
  destruct (IH _ E D) as (A' & B' & C').
  - intros o' f' s1 Hin Hi1 Hpc1 Hq1. apply Hq; [right; exact Hin | exact Hi1 | exact Hpc1 | congruence].
  - cbv zeta. repeat split; congruence.
Qed.

(* monitor ticks never cut a batch smaller than max: they change nothing *)
Lemma unforced_tick_inv max o s :
  RInv max s -> wpc s = Idle -> length (queue s) < max ->
  let s' := run max s (tick_events max o false s) in
  queue s' = queue s /\ anchored s' = anchored s /\ discarded s' = discarded s /\ wpc s' = Idle /\ RInv max s'.
Proof.
  intros Hi Hpc Hlt.
  destruct (frozen_tick max o false small_pc s) as (A & B & C & D & E & _); [|exact Hi | exact Hpc | right; reflexivity | auto].
  intros s1 e _. apply small_step. exact Hlt.
Qed.

Theorem unforced_never_drains max q es os :
  let s := run max (init q) es in
  wpc s = Idle -> length (queue s) < max ->
  let s' := run max (init q) (es ++ ticks_events max (unforced os) s) in
  queue s' = queue s /\ anchored s' = anchored s /\ discarded s' = discarded s.
Proof.
  intros s Hpc Hlt s'. unfold s'. rewrite run_app. fold s. apply (ticks_frozen max _ s (reach_rinv max q es) Hpc).
  intros o f s1 Hin Hi1 Hpc1 Hq1. apply in_map_iff in Hin. destruct Hin as (o' & [= <- <-] & _).
  destruct (unforced_tick_inv max o' s1 Hi1 Hpc1) as (A & B & C & _); [rewrite Hq1; exact Hlt | auto].
Qed.

(* MaxOperationCount = 0: no tick ever cuts *)
Lemma max0_tick_inv o f s :
  RInv 0 s -> wpc s = Idle ->
  let s' := run 0 s (tick_events 0 o f s) in
  queue s' = queue s /\ anchored s' = anchored s /\ discarded s' = discarded s /\ wpc s' = Idle /\ RInv 0 s'.
Proof.
  intros Hi Hpc.
  destruct (frozen_tick 0 o f cutless s) as (A & B & C & D & E & _); [|exact Hi | exact Hpc | exact I | auto].
  intros s1 e _. apply max0_step.
Qed.

Theorem max0_never_drains q es l :
  let s := run 0 (init q) es in
  wpc s = Idle ->
  let s' := run 0 (init q) (es ++ ticks_events 0 l s) in
  queue s' = queue s /\ anchored s' = anchored s /\ discarded s' = discarded s.
Proof.
  intros s Hpc s'. unfold s'. rewrite run_app. fold s. apply (ticks_frozen 0 _ s (reach_rinv 0 q es) Hpc).
  intros o f s1 _ Hi1 Hpc1 _. destruct (max0_tick_inv o f s1 Hi1 Hpc1) as (A & B & C & _). auto.
Qed.

(* a handler / anchor writer that always fails: the queue is kept as it is, for ever *)
Theorem failing_never_drains max q es l :
  let s := run max (init q) es in
  wpc s = Idle -> Forall (fun of => cut_fails (fst of)) l ->
  let s' := run max (init q) (es ++ ticks_events max l s) in
  queue s' = queue s /\ anchored s' = anchored s /\ discarded s' = discarded s.
Proof.
  intros s Hpc Hall s'. unfold s'. rewrite run_app. fold s. apply (ticks_frozen max _ s (reach_rinv max q es) Hpc).
  intros o f s1 Hin Hi1 Hpc1 _. rewrite Forall_forall in Hall.
  destruct (failed_tick_inv max o f s1 (Hall _ Hin) Hi1 Hpc1) as (A & B & C & _). auto.
Qed.

Local Open Scope Z_scope.
Definition op (id sfx ver : Z) : qop := {| q_id := id; q_sfx := sfx; q_ty := 2; q_ver := ver |}.

(* handler: operations 3 and 8 are expired; no failure *)
Definition clean : oracle := {| o_expired := fun _ => [3; 8]; o_ok := fun _ => true |}.
(* the handler fails *)
Definition broken : oracle := {| o_expired := fun _ => []; o_ok := fun _ => false |}.
(* the handler succeeds and finds nothing expired, the anchor write fails *)
Definition anchor_down : oracle :=
  {| o_expired := fun _ => [];
     o_ok := fun s => match wpc s with AtAnchor _ _ _ _ _ => false | _ => true end |}.
(* the handler succeeds and finds 1, 2, 3 and 8 expired, the anchor write fails *)
Definition anchor_down_expired : oracle :=
  {| o_expired := fun _ => [1; 2; 3; 8];
     o_ok := fun s => match wpc s with AtAnchor _ _ _ _ _ => false | _ => true end |}.

Lemma clean_ff : failure_free clean. Proof. intros s. reflexivity. Qed.
(* [cut_fails] is inhabited: by a failing handler, and by a failing anchor writer *)
Lemma broken_af : cut_fails broken.
Proof. intros s. destruct (wpc s); try exact I; try reflexivity. cbn. discriminate. Qed.
Lemma anchor_down_af : cut_fails anchor_down.
Proof.
  intros s. unfold anchor_down. cbn. destruct (wpc s) as [| | | |tf cf b ver| | |]; try exact I; try reflexivity.
  intros _ Hb. destruct b as [|x r]; [congruence|]. cbn. discriminate.
Qed.

(* three operations of DID 1 (two are deferred twice), one expired, a protocol-version boundary,
   a client Add in the middle of a tick; the trace stops in the middle of the second tick *)
Definition ex_events : list event :=
  [EAdd (op 1 1 100); EAdd (op 2 1 100); EAdd (op 3 2 100); EAdd (op 4 1 100); EAdd (op 5 3 100);
   EAdd (op 6 3 200); EAdd (op 7 4 200);
   ETick true; ELen; EPeek; ERemove; EAdd (op 8 5 200); EPrepare false []; ENack;    (* handler failure *)
   ETick false; ELen; EPeek; ERemove; EAdd (op 9 4 200)].

Definition ex_state := run 3 (init []) ex_events.

Example ex_mid_tick :
  (ids (queue ex_state), ids (inflight (wpc ex_state)), stuck ex_state)
  = ([4; 5; 6; 7; 8; 9], [1; 2; 3], false).
Proof. vm_compute. reflexivity. Qed.

Definition ex_clean9 := [clean; clean; clean; clean; clean; clean; clean; clean; clean].

Definition ex_final :=
  let s1 := run 3 ex_state (finish_events 3 clean ex_state) in
  run 3 (init []) (ex_events ++ finish_events 3 clean ex_state ++ drain_events 3 ex_clean9 s1).

(* every accepted operation is in exactly one anchored batch or was discarded as expired;
   operation 2 (same DID as 1, deferred by the handler and re-queued behind 9) is anchored in the
   last batch; no batch mixes the versions 100 and 200: [4;5] and [9] are cut at a boundary *)
Example ex_drained :
  (ids (queue ex_final), map (fun b => (ab_ver b, ids (ab_included b))) (anchored ex_final),
   ids (discarded ex_final), ids (accepted ex_final), stuck ex_final)
  = ([], [(100, [1]); (100, [4; 5]); (200, [6; 7]); (200, [9]); (100, [2])], [3; 8], [1; 2; 3; 4; 5; 6; 7; 8; 9], false).
Proof. vm_compute. reflexivity. Qed.

(* the hypotheses of drain_bound_accepted hold for it *)
Example ex_drain_applies : all_settled ex_state ex_final.
Proof.
  apply (drain_bound_accepted 3 [] ex_events clean ex_clean9).
  - lia.
  - repeat constructor; apply clean_ff.
  - vm_compute. lia.
Qed.

(* failing ticks first (handler down, then anchor writer down), then recovery *)
Definition ex_idle := run 3 (init []) (firstn 7 ex_events).
Definition ex_after_failures :=
  run 3 ex_idle (ticks_events 3 [(broken, true); (anchor_down, false); (anchor_down, true); (broken, true)] ex_idle).

Example ex_failures_transparent :
  (ids (queue ex_idle), ids (queue ex_after_failures), length (anchored ex_idle), length (anchored ex_after_failures),
   wpc ex_after_failures)
  = ([1; 2; 3; 4; 5; 6; 7], [1; 2; 3; 4; 5; 6; 7], 0%nat, 0%nat, Idle).
Proof. vm_compute. reflexivity. Qed.

Definition ex_pre := [(broken, true); (anchor_down, false); (anchor_down, true); (broken, true)].

(* F16: the anchor writer is down, but the handler finds the whole first batch [1;2;3] expired: that batch is committed
   without an anchor write (discarded), the next cut [4;5] fails at the anchor write and returns to the head.
   "Every anchor write fails" alone does not keep the queue: this is why [cut_fails] has its second clause. *)
Example ex_all_expired_batch :
  let s' := run 3 ex_idle (tick_events 3 anchor_down_expired true ex_idle) in
  (ids (queue s'), length (anchored s'), ids (discarded s'), wpc s', stuck s',
   existsb (fun e => match e with EAnchor _ => true | _ => false end)
           (firstn 6 (tick_events 3 anchor_down_expired true ex_idle)),
   firstn 6 (tick_events 3 anchor_down_expired true ex_idle))
  = ([4; 5; 6; 7], 0%nat, [1; 2; 3], Idle, false, false,
     [ETick true; ELen; EPeek; ERemove; EPrepare true [1; 2; 3; 8]; EAck]).
Proof. vm_compute. reflexivity. Qed.

Theorem anchor_failure_alone_is_not_enough :
  ~ (forall max o f q es,
       let s := run max (init q) es in
       (forall s0, match wpc s0 with AtAnchor _ _ _ _ _ => o_ok o s0 = false | _ => True end) -> wpc s = Idle ->
       discarded (run max (init q) (es ++ tick_events max o f s)) = discarded s).
Proof.
  intros H.
  specialize (H 3%nat anchor_down_expired true [] (firstn 7 ex_events)).
  cbv zeta in H.
  assert (Hdown : forall s0, match wpc s0 with AtAnchor _ _ _ _ _ => o_ok anchor_down_expired s0 = false | _ => True end).
  { intros s0. unfold anchor_down_expired. cbn [o_ok]. destruct (wpc s0); try exact I. reflexivity. }
  specialize (H Hdown eq_refl). vm_compute in H. discriminate H.
Qed.

Example ex_after_failures_applies :
  all_settled ex_idle
    (run 3 (init []) (firstn 7 ex_events ++ ticks_events 3 ex_pre ex_idle ++
                      drain_events 3 ex_clean9 (run 3 ex_idle (ticks_events 3 ex_pre ex_idle)))).
Proof.
  apply (drain_after_failures 3 [] (firstn 7 ex_events) ex_pre ex_clean9).
  - lia.
  - repeat constructor; apply clean_ff.
  - reflexivity.
  - vm_compute. lia.
Qed.

(* a monitor tick with a full batch queued makes progress (7 operations queued, max = 3) *)
Example ex_monitor_progress :
  let s' := run 3 (init []) (firstn 7 ex_events ++ tick_events 3 clean false ex_idle) in
  (length (queue s') < length (queue ex_idle) /\ settled ex_idle < settled s')%nat.
Proof.
  destruct (tick_progress 3 clean false [] (firstn 7 ex_events)) as (_ & _ & _ & A & B).
  - lia.
  - apply clean_ff.
  - reflexivity.
  - vm_compute. discriminate.
  - right. vm_compute. lia.
  - split; [exact A | exact B].
Qed.

Example ex_monitor_progress_values :
  let s' := run 3 (init []) (firstn 7 ex_events ++ tick_events 3 clean false ex_idle) in
  (ids (queue s'), map (fun b => ids (ab_included b)) (anchored s'), ids (discarded s')) = ([2], [[1]; [4; 5]; [6; 7]], [3]).
Proof. vm_compute. reflexivity. Qed.

(* refutations of the unconditional statements *)
Definition ex_small := run 3 (init []) [EAdd (op 1 1 100); EAdd (op 2 2 100)].

(* "monitor ticks drain the queue" is false: two operations, max = 3 *)
Theorem drain_unforced_refuted :
  ~ (forall max q es os, 0 < max -> Forall failure_free os ->
       let s := run max (init q) es in wpc s = Idle -> length (queue s) <= length os ->
       queue (run max (init q) (es ++ ticks_events max (unforced os) s)) = [])%nat.
Proof.
  intros H.
  specialize (H 3%nat [] [EAdd (op 1 1 100); EAdd (op 2 2 100)] [clean; clean; clean]
                ltac:(lia) ltac:(repeat constructor; apply clean_ff) eq_refl ltac:(cbn; lia)).
  vm_compute in H. discriminate H.
Qed.

(* "forced ticks drain the queue for every protocol" is false: MaxOperationCount = 0 *)
Theorem drain_max0_refuted :
  ~ (forall max q es os, Forall failure_free os ->
       let s := run max (init q) es in wpc s = Idle -> length (queue s) <= length os ->
       queue (run max (init q) (es ++ drain_events max os s)) = [])%nat.
Proof.
  intros H.
  specialize (H 0%nat [] [EAdd (op 1 1 100)] [clean] ltac:(repeat constructor; apply clean_ff) eq_refl ltac:(cbn; lia)).
  vm_compute in H. discriminate H.
Qed.

(* "forced ticks drain the queue whatever the handler does" is false: head-of-line blocking *)
Theorem drain_failing_refuted :
  ~ (forall max q es os, 0 < max ->
       let s := run max (init q) es in wpc s = Idle -> length (queue s) <= length os ->
       queue (run max (init q) (es ++ drain_events max os s)) = [])%nat.
Proof.
  intros H.
  specialize (H 3%nat [] [EAdd (op 1 1 100)] [broken; broken] ltac:(lia) eq_refl ltac:(cbn; lia)).
  vm_compute in H. discriminate H.
Qed.

Print Assumptions next_ev_is_the_enabled_event.
Print Assumptions thread_finishes.
Print Assumptions tick_progress.
Print Assumptions failed_tick_transparent.
Print Assumptions failed_cut_restores_prepare.
Print Assumptions failed_cut_restores_anchor.
Print Assumptions all_expired_cut_commits_without_anchor.
Print Assumptions no_anchor_event_after_all_expired_prepare.
Print Assumptions anchor_failure_alone_is_not_enough.
Print Assumptions drain.
Print Assumptions drain_from_anywhere.
Print Assumptions drain_bound_accepted.
Print Assumptions drain_after_failures.
Print Assumptions add_only_adds_work.
Print Assumptions unforced_never_drains.
Print Assumptions max0_never_drains.
Print Assumptions failing_never_drains.
Print Assumptions drain_unforced_refuted.
Print Assumptions drain_max0_refuted.
Print Assumptions drain_failing_refuted.
