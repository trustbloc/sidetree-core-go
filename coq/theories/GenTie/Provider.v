(* Tie between the provider's size / length guards (translated on every run) and the model. *)
From Coq Require Import ZArith Bool List String.
From SV Require Import Parser.Protocol Batch.Files Gen.Kernels GenTie.Tactics GenTie.Table.
Import ListNotations.
Local Open Scope Z_scope.

Definition limits_of (p : proto) : limits :=
  {| l_hash_len := MaxOperationHashLength p; l_uri_len := MaxCasURILength p; l_core_index := MaxCoreIndexFileSize p;
     l_proof := MaxProofFileSize p; l_prov_index := MaxProvisionalIndexFileSize p; l_chunk := MaxChunkFileSize p;
     l_factor := MaxMemoryDecompressionFactor p |}.

(* a URI is rejected exactly when the model's uri_ok fails *)
Theorem provider_uriGuard_tie p {A} (r : ref A) :
  small (MaxCasURILength p) -> gen_provider_uriGuard p (uri_len r) = negb (uri_ok (limits_of p) r).
Proof.
  intros Hs. unfold gen_provider_uriGuard, uri_ok, limits_of. cbn [l_uri_len]. tie.
Qed.

Theorem provider_mhLenGuard_tie p len :
  small (MaxOperationHashLength p) ->
  mh_ok (limits_of p) len = negb (len =? 0) && negb (gen_provider_mhLenGuard p len).
Proof.
  intros Hs. unfold gen_provider_mhLenGuard, mh_ok, limits_of. cbn [l_hash_len]. tie.
Qed.

(* readFromCAS: size before and after decompression *)
Theorem provider_size_guards_tie p {A} (max : Z) (r : raw A) :
  small max -> small (max * MaxMemoryDecompressionFactor p) ->
  read_file (limits_of p) max r =
  if negb (f_read_ok r) then None
  else if gen_provider_sizeGuard p (f_raw_size r) max then None
  else if negb (f_decomp_ok r) then None
  else if gen_provider_decompGuard p (f_size r) (gen_provider_decompMax p max) then None
  else f_parsed r.
Proof.
  intros H1 H2. unfold read_file, gen_provider_sizeGuard, gen_provider_decompGuard, gen_provider_decompMax, limits_of, to_int.
  cbn [l_factor]. tie.
Qed.

Theorem provider_param_table :
  map (fun k => (k, assoc_params k)) ["provider_mhLenGuard"; "provider_uriGuard"; "provider_sizeGuard"; "provider_decompGuard"; "provider_decompMax"]%string
  = [("provider_mhLenGuard", ["MaxOperationHashLength"]); ("provider_uriGuard", ["MaxCasURILength"]); ("provider_sizeGuard", []);
     ("provider_decompGuard", []); ("provider_decompMax", ["MaxMemoryDecompressionFactor"])]%string.
Proof. reflexivity. Qed.
