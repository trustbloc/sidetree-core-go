(* Tie between the window kernels translated from the Go source (Gen/Kernels.v, regenerated on
   every run) and the hand-written model. *)
From Coq Require Import List String.
From SV Require Import Parser.Protocol Parser.Window Gen.Kernels GenTie.Table.
From SV Require Export GenTie.Tactics.
Import ListNotations.
Local Open Scope Z_scope.

(* operationapplier.getAnchorUntil is the model's effective upper bound, and reads
   MaxOperationTimeDelta *)
Theorem applier_getAnchorUntil_tie p f u :
  small (MaxOperationTimeDelta p) ->
  gen_applier_getAnchorUntil p f u = eff_until (MaxOperationTimeDelta p) f u.
Proof.
  intros Hs. unfold gen_applier_getAnchorUntil, eff_until. tie.
Qed.

(* operationparser.getAnchorUntil (intake) computes the same bound *)
Theorem parser_getAnchorUntil_tie p f u :
  small (MaxOperationTimeDelta p) ->
  gen_parser_getAnchorUntil p f u = eff_until (MaxOperationTimeDelta p) f u.
Proof.
  intros Hs. unfold gen_parser_getAnchorUntil, eff_until. tie.
Qed.

(* operationapplier.verifyAnchoringTimeRange is the model's window test (true = no error) *)
Theorem applier_verify_tie p f u a :
  small (MaxOperationTimeDelta p) -> small a ->
  gen_applier_verifyAnchoringTimeRange p f u a = in_window (MaxOperationTimeDelta p) f u a.
Proof.
  intros Hs Ha. unfold gen_applier_verifyAnchoringTimeRange, in_window.
  rewrite ?applier_getAnchorUntil_tie by assumption. unfold eff_until. tie.
Qed.

(* the only protocol parameter the window kernels read *)
Theorem window_param_table :
  map (fun k => (k, assoc_params k)) ["applier_getAnchorUntil"; "applier_verifyAnchoringTimeRange"; "parser_getAnchorUntil"]%string
  = [("applier_getAnchorUntil", ["MaxOperationTimeDelta"]); ("applier_verifyAnchoringTimeRange", []);
     ("parser_getAnchorUntil", ["MaxOperationTimeDelta"])]%string.
Proof. reflexivity. Qed.
