(* cutter.Cut's arithmetic (translated on every run) in closed form: the guard is [negb force && pending <? max], the
   batch size [Nat.min pending max], the limit [MaxOperationCount].  The first two are the expressions
   Writer/Machine.v's [wstep max] uses at ELen / EPeek; the statements do not mention the writer model.
   The translator orders a kernel's parameters by name, hence [max] before [pending] in the applications. *)
From Coq Require Import ZArith Bool.
From SV Require Import Parser.Protocol Gen.Kernels GenTie.Tactics.
Local Open Scope Z_scope.

Theorem cutter_cutGuard_tie p force (pending max : nat) :
  gen_cutter_cutGuard p force (Z.of_nat max) (Z.of_nat pending) = negb force && (pending <? max)%nat.
Proof.
  unfold gen_cutter_cutGuard. tie.
Qed.

Theorem cutter_min_tie p (i j : nat) : gen_cutter_min p (Z.of_nat i) (Z.of_nat j) = Z.of_nat (Nat.min i j).
Proof.
  unfold gen_cutter_min. tie.
Qed.

Theorem cutter_batchSize_tie p (pending max : nat) :
  gen_cutter_batchSize p (Z.of_nat max) (Z.of_nat pending) = Z.of_nat (Nat.min pending max).
Proof. unfold gen_cutter_batchSize. unfold gen_cutter_min. tie. Qed.

Theorem cutter_maxOps_tie p : gen_cutter_maxOps p = MaxOperationCount p.
Proof. unfold gen_cutter_maxOps. tie. Qed.
