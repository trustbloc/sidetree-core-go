(* Tie between the patch validators' length guards (translated from the Go source on every run, with the
   package constants resolved to their literal values) and the validator model (C18). *)
From Coq Require Import ZArith Bool.
From SV Require Import Base.Bytes Gen.Kernels GenTie.Tactics Doc.Validator.
Local Open Scope Z_scope.

(* validateID rejects exactly the ids longer than the model's max_id_length *)
Theorem validator_idLenGuard_tie p (id : bytes) :
  gen_validator_idLenGuard p (Z.of_nat (length id)) = negb (length id <=? max_id_length)%nat.
Proof.
  unfold gen_validator_idLenGuard, max_id_length. tie.
Qed.

Corollary id_ok_passes_guard p id : id_ok id = true -> gen_validator_idLenGuard p (Z.of_nat (length id)) = false.
Proof.
  intros H. rewrite validator_idLenGuard_tie. unfold id_ok in H.
  apply andb_true_iff in H. destruct H as [H _]. apply andb_true_iff in H. destruct H as [H _]. rewrite H. reflexivity.
Qed.

Theorem validator_serviceTypeLenGuard_tie p (ty : bytes) :
  gen_validator_serviceTypeLenGuard p (Z.of_nat (length ty)) = negb (length ty <=? max_service_type_length)%nat.
Proof.
  unfold gen_validator_serviceTypeLenGuard, max_service_type_length. tie.
Qed.
