(* Tie between the comparators / filters translated from processor.go and metadata.go (regenerated
   on every run) and the model. *)
From Coq Require Import ZArith Bool Lia List.
From SV Require Import Resolve.Op Resolve.Process Gen.Kernels GenTie.Tactics.
Import ListNotations.
Local Open Scope Z_scope.

Theorem processor_sortLess_tie a b : gen_processor_sortLess a b = op_lt a b.
Proof.
  unfold gen_processor_sortLess, op_lt. tie.
Qed.

Theorem metadata_sortLess_tie a b : gen_metadata_sortLess a b = op_lt a b.
Proof.
  unfold gen_metadata_sortLess, op_lt. tie.
Qed.

Theorem processor_createLess_tie a b : gen_processor_createLess a b = published a && negb (published b).
Proof. unfold gen_processor_createLess, published. tie. Qed.

Theorem processor_isOpAfter_tie p o t n : gen_processor_isOpAfter p o t n = op_after t n o.
Proof.
  unfold gen_processor_isOpAfter, op_after, published. tie.
Qed.

(* vt is time.Time.Unix(), an int64 (negative before 1970); transaction times are unsigned *)
Theorem processor_versionTimeGuard_tie p vt o :
  - 2^63 <= vt < 2^63 -> 0 <= time o -> gen_processor_versionTimeGuard p vt o = (time o <=? vt).
Proof.
  intros H Ht. unfold gen_processor_versionTimeGuard.
  destruct (Z_lt_le_dec vt 0) as [Hn|Hp].
  - (* before the epoch: no operation is selected *)
    replace (time o <=? vt) with false by lia. tie.
  - rewrite (to_uint64_id vt) by lia. tie.
Qed.

Lemma insert_partitioned x : forall pl ul,
  Forall (fun o => published o = true) pl -> Forall (fun o => published o = false) ul ->
  insert gen_processor_createLess x (pl ++ ul) = if published x then x :: pl ++ ul else pl ++ x :: ul.
Proof.
  induction pl as [|a pl IHp]; intros ul Hp Hu; cbn [app].
  - destruct ul as [|z t]; [destruct (published x); reflexivity|]. cbn [insert]. rewrite processor_createLess_tie.
    inversion Hu as [|? ? Hz _]; subst. rewrite Hz. cbn [andb]. destruct (published x); reflexivity.
  - cbn [insert]. rewrite processor_createLess_tie. inversion Hp as [|? ? Ha Hpl]; subst. rewrite Ha. cbn [andb].
    destruct (published x) eqn:Ex; cbn [negb]; [reflexivity|]. f_equal.
    rewrite (IHp ul Hpl Hu). reflexivity.
Qed.

(* sort.SliceStable with the create comparator is the stable partition the model uses *)
Theorem stable_sort_creates_is_partition l :
  isort gen_processor_createLess l = creates_published_first l.
Proof.
  unfold creates_published_first. induction l as [|x r IH]; [reflexivity|].
  cbn [isort]. rewrite IH. rewrite insert_partitioned.
  - cbn [filter]. destruct (published x); reflexivity.
  - apply Forall_forall. intros z Hz. apply filter_In in Hz. apply Hz.
  - apply Forall_forall. intros z Hz. apply filter_In in Hz. destruct Hz as [_ Hz].
    destruct (published z); [discriminate | reflexivity].
Qed.
