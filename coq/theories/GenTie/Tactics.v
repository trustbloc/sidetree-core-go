(* Conversion lemmas and the tactic used by the tie proofs.  The tie theorems state that a kernel translated from
   the Go source equals the model function; they are proved SEMANTICALLY (case analysis on every condition, then
   linear arithmetic over Z and bool), not by syntactic identity, so that a rewrite of the Go code that computes the
   same function (conditions reordered or negated, operands swapped, branches merged, local names introduced)
   keeps the proof, while a rewrite that computes something else breaks it.  Nothing here depends on Gen/Kernels.v.
   The hypotheses [small x] of the tie theorems: the Go code converts the unsigned protocol parameters to int / int64
   (or multiplies two of them) before it compares; on values below 2^62 these conversions are the identity. *)
From Coq Require Import ZArith Bool Lia ZifyBool.
From SV Require Import Parser.Protocol.
Local Open Scope Z_scope.

Lemma to_int64_id z : - 2^63 <= z < 2^63 -> to_int64 z = z.
Proof.
  intros H. unfold to_int64. rewrite Z.mod_small by lia. lia.
Qed.

Lemma to_uint64_id z : 0 <= z < 2^64 -> to_uint64 z = z.
Proof. intros H. unfold to_uint64. apply Z.mod_small. lia. Qed.

Lemma small_int64 z : small z -> to_int64 z = z.
Proof. unfold small. intros H. apply to_int64_id. lia. Qed.

Lemma small_uint64 z : small z -> to_uint64 z = z.
Proof. unfold small. intros H. apply to_uint64_id. lia. Qed.

(* integer conversions of values known to be in range are the identity *)
Ltac conv_small :=
  unfold to_int, to_uint in *;
  repeat match goal with
  | H : small ?z |- context[to_int64 ?z] => rewrite (small_int64 z H)
  | H : small ?z |- context[to_uint64 ?z] => rewrite (small_uint64 z H)
  | |- context[to_int64 ?z] => rewrite (to_int64_id z) by (unfold small in *; lia)
  | |- context[to_uint64 ?z] => rewrite (to_uint64_id z) by (unfold small in *; lia)
  end.

Ltac split_ifs :=
  repeat match goal with
  | |- context[if ?b then _ else _] => let E := fresh "E" in destruct b eqn:E
  end.

(* after the caller has unfolded the kernel and the model function *)
Ltac tie := cbv zeta; conv_small; split_ifs; try reflexivity; try (unfold small in *; lia).
