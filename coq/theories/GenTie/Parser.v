(* The parser's limit guards (translated on every run) in closed form: [len >? X p] for the three size limits,
   [negb (len =? NonceSize p)] for the nonce, each reading the one parameter X named in [parser_param_table].  These
   are the comparisons Parser/Accept.v makes on the fields of [pproto] (validate_nonce tests the equality, not its
   negation); the statements do not mention that model. *)
From Coq Require Import ZArith List String.
From SV Require Import Base.Bytes Parser.Protocol Parser.Accept Gen.Kernels GenTie.Tactics GenTie.Table.
Import ListNotations.
Local Open Scope Z_scope.

(* the parser's protocol record filled from the numeric parameters *)
Definition pproto_of (p : proto) (algs : list N) (sigs keys patches : list bytes) : pproto :=
  {| pp_max_op_size := MaxOperationSize p; pp_max_hash_len := MaxOperationHashLength p;
     pp_max_delta_size := MaxDeltaSize p; pp_nonce_size := NonceSize p; pp_time_delta := MaxOperationTimeDelta p;
     pp_hash_algs := algs; pp_sig_algs := sigs; pp_key_algs := keys; pp_patches := patches |}.

Theorem parser_opSizeGuard_tie p len : small (MaxOperationSize p) ->
  gen_parser_opSizeGuard p len = (len >? MaxOperationSize p).
Proof. intros H. unfold gen_parser_opSizeGuard. tie. Qed.

Theorem parser_hashLenGuard_tie p len : small (MaxOperationHashLength p) ->
  gen_parser_hashLenGuard p len = (len >? MaxOperationHashLength p).
Proof. intros H. unfold gen_parser_hashLenGuard. tie. Qed.

Theorem parser_deltaSizeGuard_tie p len : small (MaxDeltaSize p) ->
  gen_parser_deltaSizeGuard p len = (len >? MaxDeltaSize p).
Proof. intros H. unfold gen_parser_deltaSizeGuard. tie. Qed.

Theorem parser_nonceGuard_tie p len : small (NonceSize p) ->
  gen_parser_nonceGuard p len = negb (len =? NonceSize p).
Proof. intros H. unfold gen_parser_nonceGuard. tie. Qed.

(* each limit is governed by its own protocol parameter and no other *)
Theorem parser_param_table :
  map (fun k => (k, assoc_params k)) ["parser_opSizeGuard"; "parser_hashLenGuard"; "parser_deltaSizeGuard"; "parser_nonceGuard"]%string
  = [("parser_opSizeGuard", ["MaxOperationSize"]); ("parser_hashLenGuard", ["MaxOperationHashLength"]);
     ("parser_deltaSizeGuard", ["MaxDeltaSize"]); ("parser_nonceGuard", ["NonceSize"])]%string.
Proof. reflexivity. Qed.
