(* Theorems about Parser/ViewValidated.v: the parser model on request BYTES with the C18 validator model computing the
   per-patch verdicts (C10 <-> C18).  In the order of the file:
   - the decoder never produces a patch with a repeated member name ([decoded_patches_wf]); hence Patch.GetAction as
     modelled by the parser view (first occurrence) and by the validator model (last occurrence) agree on decoded
     patches ([action_of_patch_action])
   - [validated_view] / [parse_operation_validated] are [view_of_request] / [parse_operation_bytes] on the computed
     verdict list, so every theorem of ViewOfBytesProofs.v applies with valid := valid_of_bytes b
   - the loop of ValidateDelta in the parser model (C10, patches_ok on the view) IS the loop of the C18 model
     (validate_delta_patches) on the decoded patches ([delta_loop_agrees])
   - acceptance at intake of a create / update / recover request, as bytes: every decoded patch has an enabled action
     and satisfies validate_patch; composition with the C18 theorems (patch_rules; an accepted request's
     ietf-json-patch leaves publicKey / service untouched)
   - examples on the bytes of real requests *)
From Coq Require Import String List ZArith Bool.
From SV Require Import Base.Bytes Base.BytesFacts Json.Ast Json.GoJson Jws.Compact Resolve.Op Parser.Accept Parser.AcceptProofs Parser.ViewOfBytes
  Parser.ViewOfBytesProofs Doc.JsonPatch Doc.Validator Doc.ValidatorProofs Doc.JsonPatchProofs Parser.ViewValidated.
Import ListNotations.
Local Open Scope string_scope.
Local Open Scope list_scope.

Definition patchv_wf (p : patchv) : Prop :=
  match p with Some m => NoDup (map fst m) | None => True end.

(* [dm_stale] (Json/GoJson.v): the elements of the backing array beyond the length of the slice, which a later
   "patches" array decodes into *)
Definition delta_wf (d : delta_m) : Prop := Forall patchv_wf (dm_patches d) /\ Forall patchv_wf (dm_stale d).

Definition opt_wf {T} (P : T -> Prop) (o : option T) : Prop := match o with Some x => P x | None => True end.

Lemma jset_keys : forall k (v : json) m x, In x (map fst (jset k v m)) -> x = k \/ In x (map fst m).
Proof.
  intros k v m. induction m as [|[k' v'] r IH]; intros x H; cbn [jset] in H.
  - cbn in H. destruct H as [H|[]]. now left.
  - destruct (bytes_eqb k k') eqn:E.
    + apply BytesFacts.bytes_eqb_eq in E. subst k'. right. exact H.
    + cbn [map fst] in H. destruct H as [H|H]; [right; now left|].
      destruct (IH x H) as [H1|H1]; [now left | right; now right].
Qed.

Lemma jset_nodup : forall k (v : json) m, NoDup (map fst m) -> NoDup (map fst (jset k v m)).
Proof.
  intros k v m. induction m as [|[k' v'] r IH]; intros H; cbn [jset].
  - cbn. constructor; [intros [] | constructor].
  - destruct (bytes_eqb k k') eqn:E.
    + apply BytesFacts.bytes_eqb_eq in E. subst k'. exact H.
    + cbn [map fst] in *. inversion H as [|? ? Hni Hr]; subst. constructor; [|now apply IH].
      intro Hin. destruct (jset_keys _ _ _ _ Hin) as [H1|H1]; [|now apply Hni].
      subst k'. rewrite BytesFacts.bytes_eqb_refl in E. discriminate E.
Qed.

Lemma patch_members_nodup : forall m acc r,
  NoDup (map fst acc) -> patch_members m acc = Some r -> NoDup (map fst r).
Proof.
  induction m as [|[k v] m IH]; intros acc r Hn H; cbn [patch_members] in H.
  - inversion H; subst. exact Hn.
  - destruct (to_iface v) as [j|]; [|discriminate H]. apply (IH _ _ (jset_nodup k j acc Hn) H).
Qed.

Lemma dec_patch_wf : forall g old p, patchv_wf old -> dec_patch g old = Some p -> patchv_wf p.
Proof.
  intros g old p Hold H. destruct g; cbn [dec_patch] in H; try discriminate H.
  - inversion H; subst. exact I.
  - destruct (patch_members m match old with Some x => x | None => [] end) as [r|] eqn:E; [|discriminate H].
    inversion H; subst. cbn [patchv_wf]. eapply patch_members_nodup; [|exact E].
    destruct old as [x|]; [exact Hold | constructor].
Qed.

Lemma dec_elems_wf : forall l backing acc el st,
  Forall patchv_wf backing -> Forall patchv_wf acc -> dec_elems l backing acc = Some (el, st) ->
  Forall patchv_wf el /\ Forall patchv_wf st.
Proof.
  induction l as [|g l IH]; intros backing acc el st Hb Ha H; cbn [dec_elems] in H.
  - inversion H; subst. split; [unfold rev'; rewrite <- rev_alt; apply Forall_rev, Ha | exact Hb].
  - destruct backing as [|o b'].
    + destruct (dec_patch g None) as [p|] eqn:E; [|discriminate H].
      apply (IH [] (p :: acc) el st); [constructor | constructor; [apply (dec_patch_wf g None p I E) | exact Ha] | exact H].
    + inversion Hb as [|? ? Ho Hb']; subst.
      destruct (dec_patch g o) as [p|] eqn:E; [|discriminate H].
      apply (IH b' (p :: acc) el st); [exact Hb' | constructor; [apply (dec_patch_wf g o p Ho E) | exact Ha] | exact H].
Qed.

Lemma delta_member_wf : forall st fk v st', delta_wf st -> delta_member st fk v = Some st' -> delta_wf st'.
Proof.
  intros st fk v st' [Hp Hs] H. unfold delta_member in H.
  destruct (is_field fk "UPDATECOMMITMENT").
  { destruct (dec_str v (dm_upd st)); [|discriminate H]. inversion H; subst. split; assumption. }
  destruct (is_field fk "PATCHES"); [|inversion H; subst; split; assumption].
  destruct v as [| | | |l|]; try discriminate H.
  - inversion H; subst. split; constructor.
  - destruct l as [|g l]; [inversion H; subst; split; constructor|].
    destruct (dec_elems (g :: l) (dm_patches st ++ dm_stale st) []) as [[el sl]|] eqn:E; [|discriminate H].
    inversion H; subst. cbn [delta_wf dm_patches dm_stale].
    apply (dec_elems_wf _ _ _ _ _ (proj2 (Forall_app _ _ _) (conj Hp Hs)) (Forall_nil _) E).
Qed.

Lemma fold_members_inv : forall {T} (P : T -> Prop) (f : T -> bytes -> gj -> option T),
  (forall st k v st', P st -> f st k v = Some st' -> P st') ->
  forall m st st', P st -> fold_members f m st = Some st' -> P st'.
Proof.
  intros T P f Hf. induction m as [|[k v] m IH]; intros st st' Hp H; cbn [fold_members] in H.
  - inversion H; subst. exact Hp.
  - destruct (f st (fold_name k) v) as [st1|] eqn:E; [|discriminate H]. apply (IH st1 st' (Hf _ _ _ _ Hp E) H).
Qed.

Lemma dec_ptr_inv : forall {T} (P : T -> Prop) (zero : T) (f : T -> bytes -> gj -> option T),
  (forall st k v st', P st -> f st k v = Some st' -> P st') -> P zero ->
  forall g old r, opt_wf P old -> dec_ptr zero f g old = Some r -> opt_wf P r.
Proof.
  intros T P zero f Hf Hz g old r Hold H. destruct g; cbn [dec_ptr] in H; try discriminate H.
  - inversion H; subst. exact I.
  - destruct (fold_members f m match old with Some x => x | None => zero end) as [x|] eqn:E; [|discriminate H].
    inversion H; subst. cbn [opt_wf]. eapply (fold_members_inv P f Hf m); [|exact E].
    destruct old as [y|]; [exact Hold | exact Hz].
Qed.

Lemma unmarshal_tree_inv : forall {T} (P : T -> Prop) (zero : T) (f : T -> bytes -> gj -> option T),
  (forall st k v st', P st -> f st k v = Some st' -> P st') -> P zero ->
  forall g r, unmarshal_tree f zero g = Some r -> P r.
Proof.
  intros T P zero f Hf Hz g r H. destruct g as [t|]; [|discriminate H]. cbn [unmarshal_tree] in H.
  destruct t; cbn [dec_struct] in H; try discriminate H.
  - inversion H; subst. exact Hz.
  - apply (fold_members_inv P f Hf m zero r Hz H).
Qed.

Lemma delta_zero_wf : delta_wf delta_zero.
Proof. split; constructor. Qed.

(* every field but DELTA leaves the delta alone; DELTA decodes into it through dec_ptr *)
Lemma create_member_wf : forall st fk v st',
  opt_wf delta_wf (cr_delta st) -> create_member st fk v = Some st' -> opt_wf delta_wf (cr_delta st').
Proof.
  intros st fk v st' Hp. unfold create_member.
  destruct (is_field fk "TYPE"); [destruct (dec_str _ _); intros [= <-]; exact Hp|].
  destruct (is_field fk "SUFFIXDATA"); [destruct (dec_ptr suffix_zero _ _ _); intros [= <-]; exact Hp|].
  destruct (is_field fk "DELTA"); [|intros [= <-]; exact Hp].
  destruct (dec_ptr delta_zero delta_member v (cr_delta st)) as [r|] eqn:E; intros [= <-].
  exact (dec_ptr_inv delta_wf delta_zero delta_member delta_member_wf delta_zero_wf v (cr_delta st) r Hp E).
Qed.

Lemma update_member_wf : forall st fk v st',
  opt_wf delta_wf (ur_delta st) -> update_member st fk v = Some st' -> opt_wf delta_wf (ur_delta st').
Proof.
  intros st fk v st' Hp. unfold update_member.
  repeat (destruct (is_field fk _); [destruct (dec_str _ _); intros [= <-]; exact Hp|]).
  destruct (is_field fk "DELTA"); [|intros [= <-]; exact Hp].
  destruct (dec_ptr delta_zero delta_member v (ur_delta st)) as [r|] eqn:E; intros [= <-].
  exact (dec_ptr_inv delta_wf delta_zero delta_member delta_member_wf delta_zero_wf v (ur_delta st) r Hp E).
Qed.

Lemma decode_tree_delta_wf : forall len tree, opt_wf delta_wf (dq_delta (decode_tree len tree)).
Proof.
  intros len tree.
  pose proof (unmarshal_tree_inv (fun st => opt_wf delta_wf (cr_delta st)) create_zero create_member create_member_wf I tree) as Hc.
  pose proof (unmarshal_tree_inv (fun st => opt_wf delta_wf (ur_delta st)) update_zero update_member update_member_wf I tree) as Hu.
  unfold decode_tree. destruct (schema_of tree) as [ty ok]. destruct (negb ok); [exact I|].
  destruct (eqs ty "create"); [destruct (unmarshal_tree create_member _ _); [exact (Hc _ eq_refl) | exact I]|].
  destruct (eqs ty "update"); [destruct (unmarshal_tree update_member _ _); [exact (Hu _ eq_refl) | exact I]|].
  destruct (eqs ty "recover"); [destruct (unmarshal_tree update_member _ _); [exact (Hu _ eq_refl) | exact I]|].
  destruct (eqs ty "deactivate"); [destruct (unmarshal_tree deact_member _ _)|]; exact I.
Qed.

(* whatever the request bytes, no decoded patch has two members of the same name
   (Go maps; in the model: [patch_members] inserts with [jset]) - including patches assembled from several "patches"
   arrays and from stale elements of the backing array *)
Theorem decoded_patches_wf : forall b, Forall patchv_wf (dq_patches (decode_request b)).
Proof.
  intro b. unfold dq_patches, decode_request.
  pose proof (decode_tree_delta_wf (Z.of_nat (length b)) (std_parse b)) as H.
  destruct (dq_delta (decode_tree (Z.of_nat (length b)) (std_parse b))) as [x|]; [exact (proj1 H) | constructor].
Qed.

(* first and last occurrence agree when names are distinct *)
Lemma jlast_in : forall k m x, jlast k m = Some x -> In k (map fst m).
Proof.
  intros k m. induction m as [|[k' v] r IH]; intros x H; cbn [jlast] in H; [discriminate H|].
  destruct (jlast k r) as [y|] eqn:E.
  - right. apply (IH y eq_refl).
  - destruct (bytes_eqb k k') eqn:Ek; [|discriminate H]. apply BytesFacts.bytes_eqb_eq in Ek. subst k'. now left.
Qed.

Lemma jlast_jget_nodup : forall k m, NoDup (map fst m) -> jlast k m = jget k m.
Proof.
  intros k m. induction m as [|[k' v] r IH]; intros Hn; [reflexivity|].
  cbn [map fst] in Hn. inversion Hn as [|? ? Hni Hr]; subst. cbn [jlast jget]. pose proof (IH Hr) as E0.
  destruct (bytes_eqb k k') eqn:E.
  - apply BytesFacts.bytes_eqb_eq in E. subst k'. destruct (jlast k r) as [y|] eqn:Ej; [|reflexivity].
    exfalso. apply Hni. apply (jlast_in _ _ _ Ej).
  - rewrite E0. destruct (jget k r); reflexivity.
Qed.

(* the configured actions: the table of the parser view and the table of the validator model are the same set *)
Lemma known_action_iff : forall a,
  bmem a known_actions = match action_value_key a with Some _ => true | None => false end.
Proof.
  (* both sides test a against the same eight names in the same order *)
  intro a. unfold action_value_key, B, bmem, known_actions. cbn [map existsb].
  repeat (destruct (bytes_eqb a _); [reflexivity|]). reflexivity.
Qed.

(* on a patch with distinct member names, Patch.GetAction of the parser view
   (ViewOfBytes.action_of) and of the validator model (Validator.patch_action) coincide *)
Theorem action_of_patch_action : forall p, patchv_wf p -> action_of p = patch_action (json_of_patchv p).
Proof.
  intros [m|] Hwf; [|reflexivity]. cbn [action_of json_of_patchv patch_action patchv_wf] in *.
  unfold B. rewrite (jlast_jget_nodup (bs "action") m Hwf).
  destruct (jget (bs "action") m) as [[| | |a| |]|]; try reflexivity.
  rewrite known_action_iff. destruct (action_value_key a); reflexivity.
Qed.

Section Oracles.
Variable uri_ok : bytes -> bool.               (* url.ParseRequestURI succeeds *)
Variable uri_parse : bytes -> option bytes.    (* url.Parse + String() *)

Notation pv := (patch_validator uri_ok uri_parse).
Notation vpatch := (validate_patch uri_ok uri_parse).

Lemma valid_of_bytes_map : forall b, valid_of_bytes uri_ok uri_parse b = map pv (dq_patches (decode_request b)).
Proof. intro b. unfold valid_of_bytes, decoded_patches. rewrite map_map. reflexivity. Qed.

Theorem validated_view_is_view_of_request : forall ov b,
  validated_view uri_ok uri_parse ov b = view_of_request b (valid_of_bytes uri_ok uri_parse b) (origin_of_bytes ov b).
Proof.
  intros ov b. unfold validated_view, view_of_request_with, view_of_request, origin_of_bytes. now rewrite valid_of_bytes_map.
Qed.

Theorem parse_operation_validated_is_bytes : forall p batch t ov b,
  parse_operation_validated uri_ok uri_parse p batch t ov b
  = parse_operation_bytes p batch t b (valid_of_bytes uri_ok uri_parse b) (origin_of_bytes ov b).
Proof.
  intros. unfold parse_operation_validated, parse_operation_bytes. now rewrite validated_view_is_view_of_request.
Qed.

(* the delta part of the view *)
Lemma validated_view_delta : forall ov b,
  rv_delta (validated_view uri_ok uri_parse ov b)
  = delta_view_of (dq_delta (decode_request b)) (map pv (dq_patches (decode_request b))).
Proof. reflexivity. Qed.

(* the verdict list inside the view is exactly the computed list: one verdict per decoded patch, in order *)
Theorem validated_view_valid : forall ov b,
  dv_patch_valid (rv_delta (validated_view uri_ok uri_parse ov b)) = valid_of_bytes uri_ok uri_parse b.
Proof.
  intros ov b. rewrite validated_view_delta, valid_of_bytes_map. unfold dq_patches.
  destruct (dq_delta (decode_request b)) as [x|]; cbn [delta_view_of dv_patch_valid]; [|reflexivity].
  rewrite <- (map_length pv (dm_patches x)). apply firstn_all.
Qed.

Theorem validated_view_actions : forall ov b,
  dv_actions (rv_delta (validated_view uri_ok uri_parse ov b)) = map patch_action (decoded_patches b).
Proof.
  intros ov b. rewrite validated_view_delta. unfold decoded_patches. rewrite map_map.
  pose proof (decoded_patches_wf b) as Hwf. unfold dq_patches in *.
  destruct (dq_delta (decode_request b)) as [x|]; cbn [delta_view_of dv_actions]; [|reflexivity].
  apply map_ext_in. intros p Hin. apply action_of_patch_action. rewrite Forall_forall in Hwf. now apply Hwf.
Qed.

Lemma vout_ok_vand : forall a b, vout_ok (vand a b) = vout_ok a && vout_ok b.
Proof. intros [| |] b; reflexivity. Qed.

Lemma patches_loop_agrees : forall p (ps : list patchv), Forall patchv_wf ps ->
  vout_ok (validate_patches_out uri_ok uri_parse (pp_patches p) (map json_of_patchv ps))
  = patches_ok p (map action_of ps) (map pv ps).
Proof.
  intros p ps. induction ps as [|x r IH]; intros Hwf; [reflexivity|].
  inversion Hwf as [|? ? Hx Hr]; subst. cbn [map validate_patches_out patches_ok].
  rewrite (action_of_patch_action x Hx). destruct (patch_action (json_of_patchv x)) as [a|]; cbn [action_enabled]; [|reflexivity].
  change (mem_bytes a (pp_patches p)) with (bmem a (pp_patches p)). destruct (bmem a (pp_patches p)); cbn [andb]; [|reflexivity].
  rewrite vout_ok_vand, (IH Hr). reflexivity.
Qed.

(* for every byte string, the patch loop of ValidateDelta as the C18 model states it
   (Doc/Validator.v validate_delta_patches: at least one patch; for each, action configured, enabled, Validate) run on
   the patches decoded from the bytes, equals the patch loop of the parser model (Accept.v patches_ok) on the view *)
Theorem delta_loop_agrees : forall p ov b,
  let d := rv_delta (validated_view uri_ok uri_parse ov b) in
  delta_patches_validated uri_ok uri_parse p b
  = match dv_actions d with [] => false | _ => patches_ok p (dv_actions d) (dv_patch_valid d) end.
Proof.
  intros p ov b d. subst d. rewrite validated_view_valid, valid_of_bytes_map, validated_view_delta.
  unfold delta_patches_validated, decoded_patches, validate_delta_patches, validate_delta_patches_out.
  pose proof (decoded_patches_wf b) as Hwf. unfold dq_patches in *.
  destruct (dq_delta (decode_request b)) as [x|]; cbn [delta_view_of dv_actions]; [|reflexivity].
  destruct (dm_patches x) as [|q r] eqn:Eq; [reflexivity|].
  rewrite <- Eq in *. rewrite <- (patches_loop_agrees p (dm_patches x) Hwf). rewrite Eq. reflexivity.
Qed.

(* validate_delta of the parser model, in C18 terms *)
Corollary validate_delta_validated : forall p ov b,
  let d := rv_delta (validated_view uri_ok uri_parse ov b) in
  validate_delta p d
  = dv_present d && delta_patches_validated uri_ok uri_parse p b
    && validate_multihash p (dv_update_commitment d) && negb (Z.gtb (blen (dv_canonical d)) (pp_max_delta_size p)).
Proof.
  intros p ov b d. rewrite (delta_loop_agrees p ov b). fold d. unfold validate_delta.
  destruct (dv_present d); cbn [negb andb]; [|reflexivity].
  destruct (dv_actions d); [reflexivity|]. now rewrite <- andb_assoc.
Qed.

(* what an accepted delta gives, on the decoded patches *)
Definition patches_validated (p : pproto) (b : bytes) : Prop :=
  dq_patches (decode_request b) <> [] /\
  Forall (fun pt => vpatch (json_of_patchv pt) = true /\
                    exists a, action_of pt = Some a /\ patch_action (json_of_patchv pt) = Some a /\ In a (pp_patches p))
         (dq_patches (decode_request b)).

Lemma delta_ok_patches_validated : forall p ov b,
  delta_ok p (rv_delta (validated_view uri_ok uri_parse ov b)) -> patches_validated p b.
Proof.
  intros p ov b H. rewrite validated_view_delta in H. apply delta_ok_decoded in H.
  destruct H as (x & Ex & Hne & _ & _ & Hact & _ & Hval).
  pose proof (decoded_patches_wf b) as Hwf. unfold patches_validated, dq_patches in *. rewrite Ex in *.
  split; [exact Hne|].
  rewrite <- (map_length pv (dm_patches x)), firstn_all in Hval.
  apply Forall_forall. intros pt Hin. rewrite Forall_forall in Hact, Hwf, Hval. split.
  - apply (Hval (pv pt)). now apply in_map.
  - destruct (Hact pt Hin) as (a & Ha & Hen). exists a. split; [exact Ha|]. split; [|exact Hen].
    rewrite <- (action_of_patch_action pt (Hwf pt Hin)). exact Ha.
Qed.

(* create, update and recover at intake: if the parser model accepts the
   bytes, the decoded delta has at least one patch, and every decoded patch satisfies the C18 validator model and
   carries a configured action that the protocol enables *)
Theorem accepted_request_patches_validated : forall p t ov b o,
  parse_operation_validated uri_ok uri_parse p false t ov b = Some o ->
  po_ty o <> Deactivate ->
  patches_validated p b.
Proof.
  intros p t ov b o H Hty. unfold parse_operation_validated in H.
  destruct (parse_operation_dispatch _ _ _ _ _ H) as [_ Hd].
  apply (delta_ok_patches_validated p ov b).
  destruct Hd as [[_ P]|[[_ P]|[[_ P]|[_ P]]]].
  - now destruct (create_accept_implies_rules _ _ _ P) as (_ & _ & _ & _ & Hdel & _).
  - now destruct (update_accept_implies_rules _ _ _ _ P) as (_ & _ & Hdel & _).
  - destruct (deactivate_accept_implies_rules _ _ _ _ P) as (_ & _ & _ & Ho & _). contradiction.
  - now destruct (recover_accept_implies_rules _ _ _ _ P) as (_ & _ & _ & Hdel & _).
Qed.

(* the same conclusion as the C18 acceptance predicate on the decoded patches *)
Lemma all_validated_loop : forall enabled (ps : list patchv),
  Forall (fun pt => vpatch (json_of_patchv pt) = true /\
                    exists a, action_of pt = Some a /\ patch_action (json_of_patchv pt) = Some a /\ In a enabled) ps ->
  validate_patches_out uri_ok uri_parse enabled (map json_of_patchv ps) = VAccept.
Proof.
  intros enabled ps. induction ps as [|x r IH]; intros H; [reflexivity|].
  inversion H as [|? ? [Hv (a & _ & Ha & Hen)] Hr]; subst. cbn [map validate_patches_out]. rewrite Ha.
  unfold mem_bytes. rewrite (proj2 (existsb_bytes_eqb a enabled) Hen). unfold validate_patch in Hv.
  destruct (validate_patch_out uri_ok uri_parse (json_of_patchv x)); try discriminate Hv. cbn [vand]. exact (IH Hr).
Qed.

Lemma patches_validated_delta : forall p b, patches_validated p b -> delta_patches_validated uri_ok uri_parse p b = true.
Proof.
  intros p b [Hne H]. unfold delta_patches_validated, decoded_patches, validate_delta_patches, validate_delta_patches_out.
  pose proof (all_validated_loop (pp_patches p) _ H) as E.
  destruct (dq_patches (decode_request b)) as [|q r]; [contradiction|].
  cbn [map] in *. now rewrite E.
Qed.

(* C10 o C18: a create / update / recover request accepted at intake, as bytes,
   carries a non-empty list of patches each of which obeys the structural rules of Doc/ValidatorProofs.v
   [patch_rules]: enabled action; key ids 1-50 URL-safe bytes, pairwise distinct; key types permitted for each declared
   purpose; exactly one key-material member; service ids / types within their rules and every endpoint a URI that
   url.ParseRequestURI accepts; JSON-patch pointers well formed and outside the protected sections; no entry escapes *)
Theorem accepted_request_patch_rules : forall p t ov b o,
  parse_operation_validated uri_ok uri_parse p false t ov b = Some o ->
  po_ty o <> Deactivate ->
  decoded_patches b <> [] /\ Forall (patch_rules uri_ok service_endpoints (pp_patches p)) (decoded_patches b).
Proof.
  intros p t ov b o H Hty.
  apply (validated_rules uri_ok uri_parse (pp_patches p) (decoded_patches b)).
  apply (patches_validated_delta p b). apply (accepted_request_patches_validated p t ov b o H Hty).
Qed.

(* C10 o C18: whatever ietf-json-patch an accepted request carries, if the JSON-patch engine model applies it to
   a document object (distinct member names) and returns a document, every root member whose name starts with a
   protected name (the code's prefix test) is what it was (Doc/JsonPatchProofs.v jsonpatch_protects_prefix) *)
Theorem accepted_request_json_patch_protects_prefix : forall p t ov b o j ops m d' k,
  parse_operation_validated uri_ok uri_parse p false t ov b = Some o ->
  po_ty o <> Deactivate ->
  In j (decoded_patches b) -> patch_jsonpatch j = Some ops ->
  SV.Doc.JsonPatchProofs.wf (JObj m) = true -> jp_apply ops (JObj m) = Ok d' -> prot_prefix k = true ->
  jfield k d' = jget k m.
Proof.
  intros p t ov b o j ops m d' k H Hty Hin Hops Hwf Happ Hk.
  destruct (accepted_request_patch_rules p t ov b o H Hty) as [_ Hall].
  rewrite Forall_forall in Hall. destruct (Hall j Hin) as (_ & _ & _ & _ & _ & Hjp & _).
  apply (jsonpatch_protects_prefix ops m d' k Hwf (Hjp ops Hops) Happ Hk).
Qed.

(* in particular the members "publicKey" and "service": the accepted request's JSON patch never touches them *)
Theorem accepted_request_json_patch_protects : forall p t ov b o j ops m d',
  parse_operation_validated uri_ok uri_parse p false t ov b = Some o ->
  po_ty o <> Deactivate ->
  In j (decoded_patches b) -> patch_jsonpatch j = Some ops ->
  SV.Doc.JsonPatchProofs.wf (JObj m) = true -> jp_apply ops (JObj m) = Ok d' ->
  jmember "publicKey" d' = jget (bs "publicKey") m /\ jmember "service" d' = jget (bs "service") m.
Proof.
  intros p t ov b o j ops m d' H Hty Hin Hops Hwf Happ.
  split; eapply accepted_request_json_patch_protects_prefix; try eassumption; reflexivity.
Qed.

(* [update_bytes_accept_implies_rules] of ViewOfBytesProofs.v with the verdict list computed *)
Theorem update_validated_accept_implies_rules : forall p t ov b o,
  parse_operation_validated uri_ok uri_parse p false t ov b = Some o ->
  rv_type (validated_view uri_ok uri_parse ov b) = bytes_of_string "update" ->
  exists r,
    unmarshal update_member update_zero b = Some r /\
    ur_did r <> [] /\ hash_field_ok p (ur_reveal r) /\ ur_signed r <> [] /\
    signed_rules p (validated_view uri_ok uri_parse ov b) /\ t = true /\
    decoded_delta_ok p (ur_delta r) (valid_of_bytes uri_ok uri_parse b) /\
    patches_validated p b /\
    po_ty o = Update /\ po_suffix o = ur_did r.
Proof.
  intros p t ov b o H Hty.
  pose proof H as H0. rewrite parse_operation_validated_is_bytes in H0. rewrite validated_view_is_view_of_request in Hty.
  destruct (update_bytes_accept_implies_rules _ _ _ _ _ _ H0 Hty) as (r & Hr & Hdid & Hrev & Hsd & Hsr & Ht & Hdel & _ & _ & Hoty & Hsfx).
  exists r. rewrite validated_view_is_view_of_request.
  repeat (split; [assumption|]). split; [|split; assumption].
  apply (accepted_request_patches_validated p t ov b o H). rewrite Hoty. discriminate.
Qed.

(* a request with a refused patch is not accepted at intake as a create, update or recover.  (The statement leaves
   the deactivate case open; [decode_tree] gives a deactivate no delta, hence no decoded patch.) *)
Theorem refused_patch_rejects : forall p t ov b pt,
  In pt (dq_patches (decode_request b)) -> vpatch (json_of_patchv pt) = false ->
  forall o, parse_operation_validated uri_ok uri_parse p false t ov b = Some o -> po_ty o = Deactivate.
Proof.
  intros p t ov b pt Hin Hv o H.
  assert (E : po_ty o = Deactivate \/ po_ty o <> Deactivate) by (destruct (po_ty o); [right|right|right|left]; congruence).
  destruct E as [E|E]; [exact E|].
  destruct (accepted_request_patches_validated p t ov b o H E) as [_ Hall].
  rewrite Forall_forall in Hall. destruct (Hall pt Hin) as [Hv' _]. rewrite Hv in Hv'. discriminate Hv'.
Qed.

End Oracles.

(* Examples: real requests (a run of harness/cmd/gen_vlink, seed 1; P-256 key).  The two net/url oracles are
   ValidatorProofs.uri_ok_demo / uri_parse_demo, exact on the strings that occur as service endpoint here
   ("https://g.example"; no also-known-as URI occurs). *)

(* an update whose delta carries an add-services patch and an ietf-json-patch
   [{"op":"add","path":"/ok","value":{"a":[1,2]}},{"from":"/ok/a","op":"move","path":"/moved"}] *)
Definition ex_vl_request : bytes := unhex "7b2264656c7461223a7b22757064617465436f6d6d69746d656e74223a22456944376f73354331596f4b522d533934704a436d66786f746c50752d56666b453154734e6974484a42715a5f77222c2270617463686573223a5b7b22616374696f6e223a226164642d7365727669636573222c227365727669636573223a5b7b226964223a227367222c2273657276696365456e64706f696e74223a2268747470733a2f2f672e6578616d706c65222c2274797065223a2274227d5d7d2c7b22616374696f6e223a22696574662d6a736f6e2d7061746368222c2270617463686573223a5b7b226f70223a22616464222c2270617468223a222f6f6b222c2276616c7565223a7b2261223a5b312c325d7d7d2c7b2266726f6d223a222f6f6b2f61222c226f70223a226d6f7665222c2270617468223a222f6d6f766564227d5d7d5d7d2c22646964537566666978223a224569442d573232524a6f6f50786e5157496f6d577a6c62615158544e705a4a396b356275485564714778585f3141222c2272657665616c56616c7565223a224569414470747546677475576f6535634a326f612d6f30677731647a52592d4e7a6573743732697a66576f326151222c227369676e656444617461223a2265794a68624763694f694a46557a49314e694a392e65794a6b5a57783059556868633267694f694a466155524f61485a565257397562556c325a6a427a57575a6962444e61576c6c466145354d6332394b646b7477553342354e446c46637a4233526d5652496977696458426b5958526c53325635496a7037496d4e7964694936496c41744d6a55324969776961335235496a6f6952554d694c434a34496a6f696356465152334e4a615642664e546c584e486c305345644764556c4b4d4456566545645064454a77615849316455354a556e63354d6930344d434973496e6b694f69493553587043626d3148523052736432464e5a324a77575764346554527a5244597855554d3054445a3053335243633142524e586c7164546842496e31392e385f51506d7948717a353164566a6e774347724842644a6d464f5564547a4a3262727a41593832376876424a354b6a494e464b3651776e4275596a584c4f764a5070795570494b4d416a6e7239545249477445546377222c2274797065223a22757064617465227d".

(* the same request with the move aimed at the service section: "path":"/service/0" *)
Definition ex_vl_refused : bytes := unhex "7b2264656c7461223a7b22757064617465436f6d6d69746d656e74223a22456944376f73354331596f4b522d533934704a436d66786f746c50752d56666b453154734e6974484a42715a5f77222c2270617463686573223a5b7b22616374696f6e223a226164642d7365727669636573222c227365727669636573223a5b7b226964223a227367222c2273657276696365456e64706f696e74223a2268747470733a2f2f672e6578616d706c65222c2274797065223a2274227d5d7d2c7b22616374696f6e223a22696574662d6a736f6e2d7061746368222c2270617463686573223a5b7b226f70223a22616464222c2270617468223a222f6f6b222c2276616c7565223a7b2261223a5b312c325d7d7d2c7b2266726f6d223a222f6f6b2f61222c226f70223a226d6f7665222c2270617468223a222f736572766963652f30227d5d7d5d7d2c22646964537566666978223a224569442d573232524a6f6f50786e5157496f6d577a6c62615158544e705a4a396b356275485564714778585f3141222c2272657665616c56616c7565223a224569414470747546677475576f6535634a326f612d6f30677731647a52592d4e7a6573743732697a66576f326151222c227369676e656444617461223a2265794a68624763694f694a46557a49314e694a392e65794a6b5a57783059556868633267694f694a466155524f61485a565257397562556c325a6a427a57575a6962444e61576c6c466145354d6332394b646b7477553342354e446c46637a4233526d5652496977696458426b5958526c53325635496a7037496d4e7964694936496c41744d6a55324969776961335235496a6f6952554d694c434a34496a6f696356465152334e4a615642664e546c584e486c305345644764556c4b4d4456566545645064454a77615849316455354a556e63354d6930344d434973496e6b694f69493553587043626d3148523052736432464e5a324a77575764346554527a5244597855554d3054445a3053335243633142524e586c7164546842496e31392e385f51506d7948717a353164566a6e774347724842644a6d464f5564547a4a3262727a41593832376876424a354b6a494e464b3651776e4275596a584c4f764a5070795570494b4d416a6e7239545249477445546377222c2274797065223a22757064617465227d".

Definition ex_ov : option json -> bool := fun _ => true.

Example ex_vl_accepted :
  option_map (fun o => (po_ty o, po_suffix o))
    (parse_operation_validated uri_ok_demo uri_parse_demo ex_proto false true ex_ov ex_vl_request)
  = Some (Update, bytes_of_string "EiD-W22RJooPxnQWIomWzlbaQXTNpZJ9k5buHUdqGxX_1A").
Proof. vm_compute. reflexivity. Qed.

(* the verdicts are computed, patch by patch; actions as the validator model reads them *)
Example ex_vl_verdicts :
  (valid_of_bytes uri_ok_demo uri_parse_demo ex_vl_request, map patch_action (decoded_patches ex_vl_request))
  = ([true; true], [Some (bs "add-services"); Some (bs "ietf-json-patch")]).
Proof. vm_compute. reflexivity. Qed.

(* the hypotheses of [accepted_request_json_patch_protects] are satisfiable on it: its second patch is a JSON patch that
   the engine model applies to a document with both protected sections, which come out untouched *)
Definition ex_doc_members : list (bytes * json) :=
  [(bs "publicKey", JArr [JObj [(bs "id", JStr (bs "k1"))]]); (bs "service", JArr [JObj [(bs "id", JStr (bs "s1"))]])].

Example ex_vl_protects_nonvacuous :
  match nth_error (decoded_patches ex_vl_request) 1 with
  | Some j =>
    match patch_jsonpatch j with
    | Some ops =>
      SV.Doc.JsonPatchProofs.wf (JObj ex_doc_members)
      && match jp_apply ops (JObj ex_doc_members) with
         | Ok d' => json_eqb d' (JObj (ex_doc_members ++ [(bs "ok", JObj []); (bs "moved", JArr [JNum 0x3FF0000000000000; JNum 0x4000000000000000])]))
         | _ => false
         end
    | None => false
    end
  | None => false
  end = true.
Proof. vm_compute. reflexivity. Qed.

(* the refused variant: the validator model computes [true; false]; rejected at intake, still parsed in batch mode
   (where ValidateDelta does not run), exactly as the real parser does (case "signed:update:example-refused" of the
   generator) *)
Example ex_vl_refused_rejected :
  (valid_of_bytes uri_ok_demo uri_parse_demo ex_vl_refused,
   parse_operation_validated uri_ok_demo uri_parse_demo ex_proto false true ex_ov ex_vl_refused,
   option_map po_ty (parse_operation_validated uri_ok_demo uri_parse_demo ex_proto true true ex_ov ex_vl_refused))
  = ([true; false], None, Some Update).
Proof. vm_compute. reflexivity. Qed.

(* an endpoint the URI oracle refuses decides as well: with uri_ok = (fun _ => false) the first patch is refused *)
Example ex_vl_oracle_matters :
  (valid_of_bytes (fun _ => false) uri_parse_demo ex_vl_request,
   parse_operation_validated (fun _ => false) uri_parse_demo ex_proto false true ex_ov ex_vl_request) = ([false; true], None).
Proof. vm_compute. reflexivity. Qed.

(* the protocol decides: under a protocol that does not enable ietf-json-patch the same bytes are rejected although
   every patch satisfies the validator *)
Example ex_vl_action_disabled :
  parse_operation_validated uri_ok_demo uri_parse_demo
    (Build_pproto 6000 100 3000 16 7200 [18%N; 19%N] (pp_sig_algs ex_proto) (pp_key_algs ex_proto)
                  (map bytes_of_string ["replace"; "add-public-keys"; "add-services"]))
    false true ex_ov ex_vl_request = None.
Proof. vm_compute. reflexivity. Qed.

(* the request of ViewOfBytesProofs.v (gen_view, seed 1), where the verdict list [true] is a fact: here it is computed *)
Example ex_request_verdict_computed :
  (valid_of_bytes uri_ok_demo uri_parse_demo ex_request,
   option_map po_ty (parse_operation_validated uri_ok_demo uri_parse_demo ex_proto false true ex_ov ex_request))
  = ([true], Some Update).
Proof.
  rewrite parse_operation_validated_is_bytes. unfold parse_operation_bytes.
  on_view ex_request (valid_of_bytes uri_ok_demo uri_parse_demo ex_request) (origin_of_bytes ex_ov ex_request).
  vm_compute. reflexivity.
Qed.
