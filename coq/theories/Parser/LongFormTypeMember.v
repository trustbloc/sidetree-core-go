(* C08: "any alteration of the embedded initial state is rejected" is FALSE of the code and of the faithful model for one
   class of alteration (known finding F18): a top-level "type" member added to the embedded initial state.  The two views
   below are the genuine long-form DID of a generated create and the same DID with "type":"update" added to its initial
   state, exactly as the real decoders / re-encoder / parser produced them in a run of the C08 check (harness case file);
   the model resolves both, to the same short-form DID, although the DID strings (and hence the segments) differ.
   CreateRequest.Operation is tagged json:"type,omitempty": it survives the re-encoding check of parseInitialState and is
   then overwritten with "create".  The uniqueness theorems of LongFormBinding.v therefore carry the hypothesis
   [reencoded_assembled] (the re-encoded request consists of suffix data and delta only), which this pair violates:
   the two views carry the same [lf_request] and different [lf_reencoded] ([f18_r2], [f18_reenc]), so no function of
   canonical suffix data and canonical delta yields both. *)
From Coq Require Import List ZArith String.
Import ListNotations.
From SV Require Import Base.Bytes Base.BytesFacts Jws.Compact Parser.Accept Parser.LongForm Corr.Hash.
Local Open Scope list_scope.

Definition f18_genuine : lcase := (Build_lcase (Build_pproto 6000%Z 100%Z 3000%Z 16%Z 7200%Z [18%N; 19%N] [(unhex "4564445341"); (unhex "4553323536"); (unhex "4553333834"); (unhex "4553353132"); (unhex "45533235364b")] [(unhex "45643235353139"); (unhex "502d323536"); (unhex "502d333834"); (unhex "502d353231"); (unhex "736563703235366b31")] [(unhex "7265706c616365"); (unhex "6164642d7075626c69632d6b657973"); (unhex "72656d6f76652d7075626c69632d6b657973"); (unhex "6164642d7365727669636573"); (unhex "72656d6f76652d7365727669636573"); (unhex "696574662d6a736f6e2d7061746368")]) (Build_longform_view (unhex "6469643a73696465747265653a456943624778502d457a2d78644476794d39443648724e62673146616c434945376a475343626e6751656c596f413a65794a6b5a5778305953493665794a775958526a6147567a496a706265794a6859335270623234694f694a685a4751746348566962476c6a4c57746c65584d694c434a7764574a7361574e4c5a586c7a496a706265794a705a434936496d7378496977696348566962476c6a53325635536e6472496a7037496d4e7964694936496c41744d6a55324969776961335235496a6f6952554d694c434a34496a6f695546563562556c785a48524758334634595546785545464355336374517931766431517853316c5a55574a7a545574475453314d4f575a4b51534973496e6b694f694a7554546730616b52495130315056456455614639615a4568784e475243516d52764e466f315547744654316335616b4534656a684a6330646a496e3073496e4231636e42766332567a496a7062496d46316447686c626e52705932463061573975496c3073496e5235634755694f694a4b6332397556325669533256354d6a41794d434a39585831644c434a31634752686447564462323174615852745a573530496a6f6952576c43526c4579516b5244615852794e54567a62454a555a446734516b394462573956526c683054316c304f47785751564243646b646f534659775a794a394c434a7a64575a6d6158684559585268496a7037496d467559326876636b39796157647062694936496d397961576470626a45694c434a6b5a57783059556868633267694f694a466155465862454a57636d70346555316e5230705a5755557a4e4452345a47785a525574454e546b774e4535346356383059313944656d497861546c3349697769636d566a62335a6c636e6c4462323174615852745a573530496a6f6952576c42516e5a755a553157646b3531563231765a3078735357704b52554a334d46677952555a485a6d5a42535531516557647154484656517a5a4355534a396651") true true (unhex "7b2264656c7461223a7b2270617463686573223a5b7b22616374696f6e223a226164642d7075626c69632d6b657973222c227075626c69634b657973223a5b7b226964223a226b31222c227075626c69634b65794a776b223a7b22637276223a22502d323536222c226b7479223a224543222c2278223a225055796d49716474465f717861417150414253772d432d6f7754314b59595162734d4b464d2d4c39664a41222c2279223a226e4d38346a4448434d4f544754685f5a64487134644242646f345a35506b454f57396a41387a3849734763227d2c22707572706f736573223a5b2261757468656e7469636174696f6e225d2c2274797065223a224a736f6e5765624b657932303230227d5d7d5d2c22757064617465436f6d6d69746d656e74223a224569424651324244436974723535736c4254643838424f436d6f554658744f5974386c5641504276476848563067227d2c2273756666697844617461223a7b22616e63686f724f726967696e223a226f726967696e31222c2264656c746148617368223a22456941576c4256726a78794d67474a59594533343478646c59454b44353930344e78715f34635f437a6231693977222c227265636f76657279436f6d6d69746d656e74223a2245694142766e654d56764e75576d6f674c6c496a4a454277305832454647666641494d5079676a4c715543364251227d7d") (Build_req_view 530%Z true (unhex "637265617465") true (unhex "") (unhex "") (unhex "") (Build_signed_view (unhex "") (Build_hdr_facts false false B64Absent []) [] None false (Build_jwk_view false [] [] [] [] [] []) (unhex "") (unhex "") (unhex "") 0%Z 0%Z true) (Build_delta_view true [(Some (unhex "6164642d7075626c69632d6b657973"))] [true] (unhex "4569424651324244436974723535736c4254643838424f436d6f554658744f5974386c5641504276476848563067") (unhex "7b2270617463686573223a5b7b22616374696f6e223a226164642d7075626c69632d6b657973222c227075626c69634b657973223a5b7b226964223a226b31222c227075626c69634b65794a776b223a7b22637276223a22502d323536222c226b7479223a224543222c2278223a225055796d49716474465f717861417150414253772d432d6f7754314b59595162734d4b464d2d4c39664a41222c2279223a226e4d38346a4448434d4f544754685f5a64487134644242646f345a35506b454f57396a41387a3849734763227d2c22707572706f736573223a5b2261757468656e7469636174696f6e225d2c2274797065223a224a736f6e5765624b657932303230227d5d7d5d2c22757064617465436f6d6d69746d656e74223a224569424651324244436974723535736c4254643838424f436d6f554658744f5974386c5641504276476848563067227d")) (Build_suffix_view true (unhex "456941576c4256726a78794d67474a59594533343478646c59454b44353930344e78715f34635f437a6231693977") (unhex "45694142766e654d56764e75576d6f674c6c496a4a454277305832454647666641494d5079676a4c715543364251") (unhex "7b22616e63686f724f726967696e223a226f726967696e31222c2264656c746148617368223a22456941576c4256726a78794d67474a59594533343478646c59454b44353930344e78715f34635f437a6231693977222c227265636f76657279436f6d6d69746d656e74223a2245694142766e654d56764e75576d6f674c6c496a4a454277305832454647666641494d5079676a4c715543364251227d") true)) true) (LAccept (unhex "456943624778502d457a2d78644476794d39443648724e62673146616c434945376a475343626e6751656c596f41")) false).
Definition f18_with_type : lcase := (Build_lcase (Build_pproto 6000%Z 100%Z 3000%Z 16%Z 7200%Z [18%N; 19%N] [(unhex "4564445341"); (unhex "4553323536"); (unhex "4553333834"); (unhex "4553353132"); (unhex "45533235364b")] [(unhex "45643235353139"); (unhex "502d323536"); (unhex "502d333834"); (unhex "502d353231"); (unhex "736563703235366b31")] [(unhex "7265706c616365"); (unhex "6164642d7075626c69632d6b657973"); (unhex "72656d6f76652d7075626c69632d6b657973"); (unhex "6164642d7365727669636573"); (unhex "72656d6f76652d7365727669636573"); (unhex "696574662d6a736f6e2d7061746368")]) (Build_longform_view (unhex "6469643a73696465747265653a456943624778502d457a2d78644476794d39443648724e62673146616c434945376a475343626e6751656c596f413a65794a6b5a5778305953493665794a775958526a6147567a496a706265794a6859335270623234694f694a685a4751746348566962476c6a4c57746c65584d694c434a7764574a7361574e4c5a586c7a496a706265794a705a434936496d7378496977696348566962476c6a53325635536e6472496a7037496d4e7964694936496c41744d6a55324969776961335235496a6f6952554d694c434a34496a6f695546563562556c785a48524758334634595546785545464355336374517931766431517853316c5a55574a7a545574475453314d4f575a4b51534973496e6b694f694a7554546730616b52495130315056456455614639615a4568784e475243516d52764e466f315547744654316335616b4534656a684a6330646a496e3073496e4231636e42766332567a496a7062496d46316447686c626e52705932463061573975496c3073496e5235634755694f694a4b6332397556325669533256354d6a41794d434a39585831644c434a31634752686447564462323174615852745a573530496a6f6952576c43526c4579516b5244615852794e54567a62454a555a446734516b394462573956526c683054316c304f47785751564243646b646f534659775a794a394c434a7a64575a6d6158684559585268496a7037496d467559326876636b39796157647062694936496d397961576470626a45694c434a6b5a57783059556868633267694f694a466155465862454a57636d70346555316e5230705a5755557a4e4452345a47785a525574454e546b774e4535346356383059313944656d497861546c3349697769636d566a62335a6c636e6c4462323174615852745a573530496a6f6952576c42516e5a755a553157646b3531563231765a3078735357704b52554a334d46677952555a485a6d5a42535531516557647154484656517a5a4355534a394c434a306558426c496a6f696458426b5958526c496e30") true true (unhex "7b2264656c7461223a7b2270617463686573223a5b7b22616374696f6e223a226164642d7075626c69632d6b657973222c227075626c69634b657973223a5b7b226964223a226b31222c227075626c69634b65794a776b223a7b22637276223a22502d323536222c226b7479223a224543222c2278223a225055796d49716474465f717861417150414253772d432d6f7754314b59595162734d4b464d2d4c39664a41222c2279223a226e4d38346a4448434d4f544754685f5a64487134644242646f345a35506b454f57396a41387a3849734763227d2c22707572706f736573223a5b2261757468656e7469636174696f6e225d2c2274797065223a224a736f6e5765624b657932303230227d5d7d5d2c22757064617465436f6d6d69746d656e74223a224569424651324244436974723535736c4254643838424f436d6f554658744f5974386c5641504276476848563067227d2c2273756666697844617461223a7b22616e63686f724f726967696e223a226f726967696e31222c2264656c746148617368223a22456941576c4256726a78794d67474a59594533343478646c59454b44353930344e78715f34635f437a6231693977222c227265636f76657279436f6d6d69746d656e74223a2245694142766e654d56764e75576d6f674c6c496a4a454277305832454647666641494d5079676a4c715543364251227d2c2274797065223a22757064617465227d") (Build_req_view 530%Z true (unhex "637265617465") true (unhex "") (unhex "") (unhex "") (Build_signed_view (unhex "") (Build_hdr_facts false false B64Absent []) [] None false (Build_jwk_view false [] [] [] [] [] []) (unhex "") (unhex "") (unhex "") 0%Z 0%Z true) (Build_delta_view true [(Some (unhex "6164642d7075626c69632d6b657973"))] [true] (unhex "4569424651324244436974723535736c4254643838424f436d6f554658744f5974386c5641504276476848563067") (unhex "7b2270617463686573223a5b7b22616374696f6e223a226164642d7075626c69632d6b657973222c227075626c69634b657973223a5b7b226964223a226b31222c227075626c69634b65794a776b223a7b22637276223a22502d323536222c226b7479223a224543222c2278223a225055796d49716474465f717861417150414253772d432d6f7754314b59595162734d4b464d2d4c39664a41222c2279223a226e4d38346a4448434d4f544754685f5a64487134644242646f345a35506b454f57396a41387a3849734763227d2c22707572706f736573223a5b2261757468656e7469636174696f6e225d2c2274797065223a224a736f6e5765624b657932303230227d5d7d5d2c22757064617465436f6d6d69746d656e74223a224569424651324244436974723535736c4254643838424f436d6f554658744f5974386c5641504276476848563067227d")) (Build_suffix_view true (unhex "456941576c4256726a78794d67474a59594533343478646c59454b44353930344e78715f34635f437a6231693977") (unhex "45694142766e654d56764e75576d6f674c6c496a4a454277305832454647666641494d5079676a4c715543364251") (unhex "7b22616e63686f724f726967696e223a226f726967696e31222c2264656c746148617368223a22456941576c4256726a78794d67474a59594533343478646c59454b44353930344e78715f34635f437a6231693977222c227265636f76657279436f6d6d69746d656e74223a2245694142766e654d56764e75576d6f674c6c496a4a454277305832454647666641494d5079676a4c715543364251227d") true)) true) (LAccept (unhex "456943624778502d457a2d78644476794d39443648724e62673146616c434945376a475343626e6751656c596f41")) false).

(* the two views carry the same create request: it is parsed once *)
Definition f18_parsed : option parsed :=
  Eval vm_compute in parse_operation (lc_proto f18_genuine) false true (lf_request (lc_view f18_genuine)).

Lemma f18_parse : parse_operation (lc_proto f18_genuine) false true (lf_request (lc_view f18_genuine)) = f18_parsed.
Proof. vm_compute. reflexivity. Qed.

Definition f18_out : lf_outcome :=
  Eval vm_compute in resolve_long_form (lc_proto f18_genuine) (lc_view f18_genuine).

Lemma f18_r1 : resolve_long_form (lc_proto f18_genuine) (lc_view f18_genuine) = f18_out.
Proof. unfold resolve_long_form. rewrite f18_parse. vm_compute. reflexivity. Qed.

Lemma f18_r2 : resolve_long_form (lc_proto f18_genuine) (lc_view f18_with_type) = f18_out.
Proof.
  unfold resolve_long_form. change (lf_request (lc_view f18_with_type)) with (lf_request (lc_view f18_genuine)).
  rewrite f18_parse. vm_compute. reflexivity.
Qed.

Lemma f18_is_accept : exists s, f18_out = LAccept s.
Proof. unfold f18_out. eexists. reflexivity. Qed.

Lemma f18_dids : bytes_eqb (lf_did (lc_view f18_genuine)) (lf_did (lc_view f18_with_type)) = false.
Proof. vm_compute. reflexivity. Qed.

Lemma f18_reenc : bytes_eqb (lf_reencoded (lc_view f18_genuine)) (lf_reencoded (lc_view f18_with_type)) = false.
Proof. vm_compute. reflexivity. Qed.

Theorem alteration_rejected_refuted :
  exists p v v' s,
    lf_did v <> lf_did v' /\ lf_reencoded v <> lf_reencoded v' /\
    resolve_long_form p v = LAccept s /\ resolve_long_form p v' = LAccept s.
Proof.
  destruct f18_is_accept as [s Hs].
  exists (lc_proto f18_genuine), (lc_view f18_genuine), (lc_view f18_with_type), s.
  split; [|split; [|split]].
  - intro Heq. pose proof f18_dids as Hd. rewrite Heq in Hd. rewrite bytes_eqb_refl in Hd. discriminate.
  - intro Heq. pose proof f18_reenc as Hr. rewrite Heq in Hr. rewrite bytes_eqb_refl in Hr. discriminate.
  - rewrite f18_r1. exact Hs.
  - rewrite f18_r2. exact Hs.
Qed.
