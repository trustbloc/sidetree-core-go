(* C12: what the re-commit rule of Parser/Recommit.v accepts, and that it rejects nothing else. *)
From Coq Require Import ZArith Bool.
From SV Require Import Resolve.Op Parser.Recommit.
Local Open Scope Z_scope.

Lemma commit_eqb_spec a b : commit_eqb a b = true <-> ck a = ck b /\ ccode a = ccode b.
Proof. unfold commit_eqb. rewrite andb_true_iff, !Z.eqb_eq. tauto. Qed.

Lemma reuses_revealed_spec r n : reuses_revealed r n = true <-> ck n = r.
Proof. apply Z.eqb_eq. Qed.

(* acceptance, per type, as the negation of the two re-commit conditions *)
Lemma intake_accepts_iff t revealed next other :
  intake_accepts t revealed next other = true <->
  (t = Update \/ t = Recover -> ck next <> revealed) /\
  (t = Create \/ t = Recover -> ~ (ck other = ck next /\ ccode other = ccode next)).
Proof.
  rewrite <- reuses_revealed_spec, <- commit_eqb_spec.
  destruct t; cbn [intake_accepts]; rewrite ?andb_true_iff, ?negb_true_iff, <- ?not_true_iff_false; intuition congruence.
Qed.

Lemma intake_accepts_sound t revealed next other :
  intake_accepts t revealed next other = true ->
  (t = Update \/ t = Recover -> ck next <> revealed) /\
  (t = Create \/ t = Recover -> ~ (ck other = ck next /\ ccode other = ccode next)).
Proof. apply intake_accepts_iff. Qed.

Lemma intake_rejects_only_recommit t revealed next other :
  intake_accepts t revealed next other = false ->
  (t = Update /\ ck next = revealed) \/
  (t = Recover /\ (ck next = revealed \/ (ck other = ck next /\ ccode other = ccode next))) \/
  (t = Create /\ ck other = ck next /\ ccode other = ccode next).
Proof.
  rewrite <- reuses_revealed_spec, <- commit_eqb_spec.
  destruct t; cbn [intake_accepts]; rewrite ?andb_false_iff, ?negb_false_iff; intuition discriminate.
Qed.
