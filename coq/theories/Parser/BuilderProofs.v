(* C11: requests produced by the client builders are accepted by the parser of a protocol that
   enables the algorithms used, parse back to what the caller supplied, and carry the facts
   resolution needs (delta matches its hash, signature verifies, commitment = hash of reveal). *)
From Coq Require Import String List ZArith Bool.
From SV Require Import Base.Bytes Base.BytesFacts Hash.B64 Hash.Multihash Hash.MultihashProofs Jws.Compact Jws.CompactProofs
  Resolve.Op Parser.Accept Parser.AcceptProofs Parser.Builder.
Import ListNotations.
Local Open Scope string_scope.
Local Open Scope list_scope.
Local Open Scope Z_scope.

Lemma is_empty_false (b : bytes) : b <> [] -> is_empty b = false.
Proof. destruct b; [congruence | reflexivity]. Qed.

Lemma is_empty_false_inv (b : bytes) : is_empty b = false -> b <> [].
Proof. destruct b; [discriminate | congruence]. Qed.

Lemma compact_nonempty h pl sg : compact h pl sg <> [].
Proof. unfold compact. destruct (b64_encode h); cbn; congruence. Qed.

(* what "a protocol enabling that algorithm and key type" means *)
Definition protocol_enables (p : pproto) (code : N) (s : signer) (k : jwk_view) : Prop :=
  In code (pp_hash_algs p) /\
  (exists a, sg_alg s = Some a /\ In a (pp_sig_algs p)) /\
  In (jv_crv k) (pp_key_algs p) /\ validate_nonce p (jv_nonce k) = true.

(* the signer produced something: a header, and a non-empty signature over a non-empty payload *)
Definition signer_output_ok (s : signer) (payload : bytes) : Prop :=
  sg_header_json s <> [] /\ payload <> [] /\ sg_sig s <> [].

Lemma computed_hash_validates p c code dh :
  calculate_model_multihash c code = Some dh -> In code (pp_hash_algs p) -> blen dh <= pp_max_hash_len p ->
  validate_multihash p dh = true.
Proof.
  intros Hc Hin Hl. rewrite validate_multihash_eq, (proj2 (gtb_false_iff _ _) Hl). apply is_computed_using_iff.
  exists code. split; [|exact Hin].
  unfold calculate_model_multihash in Hc. destruct (compute_multihash code c) as [m|] eqn:Em; [|discriminate].
  inversion Hc; subst dh. destruct (get_multihash_compute _ _ _ Em) as (h & _ & Hg).
  unfold get_multihash_code. rewrite Hg. reflexivity.
Qed.

(* the five opening checks of the signed parsers pass on a view whose signed part is what sign_model produced with a
   validated signer and key; stated on the projections of the view, which the builders' records fill by computation *)
Lemma built_signed_prefix p s payload jws v :
  validate_signer s = true -> (exists a, sg_alg s = Some a /\ In a (pp_sig_algs p)) -> signer_output_ok s payload ->
  sign_model s payload = Some jws ->
  rv_struct_ok v = true -> is_empty (rv_did_suffix v) = false -> rv_signed_data v = jws ->
  validate_multihash p (rv_reveal v) = true ->
  sv_compact (rv_signed v) = jws -> sv_hdr (rv_signed v) = built_hdr s -> sv_hdr_names (rv_signed v) = sg_hdr_names s ->
  sv_alg (rv_signed v) = sg_alg s -> sv_model_ok (rv_signed v) = true ->
  jwk_validate (sv_key (rv_signed v)) = true -> In (jv_crv (sv_key (rv_signed v))) (pp_key_algs p) ->
  validate_nonce p (jv_nonce (sv_key (rv_signed v))) = true ->
  signed_prefix p v = true.
Proof.
  intros Hv (a & Ha & Hin) (Hh & Hp & Hs) Hj Hst Hsfx Hsd Hrm Hc Hhd Hn Hal Hm Hk Hcrv Hno.
  unfold sign_model in Hj. rewrite Ha in Hj.
  destruct (is_empty a) eqn:Ea; [discriminate|]. destruct (sg_sign_ok s); [|discriminate]. cbn [negb] in Hj.
  injection Hj as <-. unfold validate_signer in Hv. rewrite Ha, Ea, !andb_true_iff in Hv.
  unfold signed_prefix, validate_request_fields, parse_signed_data, validate_signing_key.
  unfold jwk_validate in Hk. rewrite Hst, Hsfx, Hsd, Hrm, Hc, Hhd, Hn, Hal, Ha, Hm, Hk, Hno, (proj2 (bmem_In _ _) Hcrv).
  rewrite (is_empty_false _ (compact_nonempty _ _ _)), compact_parses by (try assumption; reflexivity).
  rewrite Ea, (proj2 (proj2 Hv)), (proj2 (bmem_In _ _) Hin). reflexivity.
Qed.

Lemma size_ok (l m : Z) : l <= m -> (l >? m) = false.
Proof. apply gtb_false_iff. Qed.

Lemma builder_commitment_parser k code next :
  builder_validate_commitment k code next = true -> get_multihash_code next = Some code -> validate_commitment k next = true.
Proof. unfold builder_validate_commitment, validate_commitment. intros H Hc. rewrite Hc. exact H. Qed.

Theorem built_update_accepted p i v batch time_ok :
  build_update i = Some v ->
  protocol_enables p (ui_code i) (ui_signer i) (ui_key i) ->
  (* valid caller inputs *)
  reveal_matches (ui_key i) (ui_reveal i) = true -> validate_multihash p (ui_reveal i) = true ->
  validate_delta p (ui_delta i) = true ->
  get_multihash_code (dv_update_commitment (ui_delta i)) = Some (ui_code i) ->
  (forall dh, calculate_model_multihash (dv_canonical (ui_delta i)) (ui_code i) = Some dh -> blen dh <= pp_max_hash_len p) ->
  ui_len i <= pp_max_op_size p ->
  signer_output_ok (ui_signer i) (ui_payload i) ->
  (batch = true \/ time_ok = true) ->
  parse_operation p batch time_ok v = Some {| po_ty := Update; po_suffix := ui_suffix i; po_reveal := ui_reveal i |}
  /\ rv_delta v = ui_delta i /\ sv_key (rv_signed v) = ui_key i
  /\ sv_from (rv_signed v) = ui_from i /\ sv_until (rv_signed v) = ui_until i
  /\ is_valid_model_multihash (dv_canonical (rv_delta v)) (sv_delta_hash (rv_signed v)) = true.
Proof.
  intros Hb (Hcode & Halg & Hcrv & Hnonce) Hrev Hrmh Hdelta Hnc Hlen Hsize Hsig Hmode.
  unfold build_update in Hb.
  destruct (is_empty (ui_suffix i)) eqn:Es; [discriminate|].
  destruct (is_empty (ui_reveal i)) eqn:Er; [discriminate|].
  destruct (dv_actions (ui_delta i)) as [|a0 ar] eqn:Eacts; [discriminate|].
  destruct (jwk_validate (ui_key i)) eqn:Ek; [|discriminate].
  destruct (validate_signer (ui_signer i)) eqn:Evs; [|discriminate]. cbn [negb] in Hb.
  destruct (calculate_model_multihash (dv_canonical (ui_delta i)) (ui_code i)) as [dh|] eqn:Edh; [|discriminate].
  destruct (builder_validate_commitment (ui_key i) (ui_code i) (dv_update_commitment (ui_delta i))) eqn:Ebc; [|discriminate].
  cbn [negb] in Hb.
  destruct (sign_model (ui_signer i) (ui_payload i)) as [jws|] eqn:Ej; [|discriminate].
  inversion Hb; subst v; clear Hb. cbn [rv_delta rv_signed sv_key sv_from sv_until sv_delta_hash].
  split; [|repeat split; try reflexivity; eapply calculated_multihash_is_valid; exact Edh].
  rewrite parse_operation_update, parse_update_eq by reflexivity. cbn [rv_len rv_schema_ok]. rewrite (size_ok _ _ Hsize).
  rewrite (built_signed_prefix p _ _ _ _ Evs Halg Hsig Ej) by first [reflexivity | assumption].
  cbn [rv_signed rv_delta rv_reveal rv_did_suffix sv_key sv_delta_hash].
  rewrite (computed_hash_validates p _ _ _ Edh Hcode (Hlen _ eq_refl)).
  rewrite Hdelta, (builder_commitment_parser _ _ _ Ebc Hnc), Hrev.
  destruct Hmode as [-> | ->]; [reflexivity | destruct batch; reflexivity].
Qed.

Theorem built_recover_accepted p i v batch time_ok :
  build_recover i = Some v ->
  protocol_enables p (ri_code i) (ri_signer i) (ri_key i) ->
  reveal_matches (ri_key i) (ri_reveal i) = true -> validate_multihash p (ri_reveal i) = true ->
  validate_delta p (ri_delta i) = true ->
  validate_multihash p (ri_recovery_commitment i) = true ->
  get_multihash_code (ri_recovery_commitment i) = Some (ri_code i) ->
  dv_update_commitment (ri_delta i) <> ri_recovery_commitment i ->
  ri_origin_ok i = true ->
  (forall dh, calculate_model_multihash (dv_canonical (ri_delta i)) (ri_code i) = Some dh -> blen dh <= pp_max_hash_len p) ->
  ri_len i <= pp_max_op_size p ->
  signer_output_ok (ri_signer i) (ri_payload i) ->
  (batch = true \/ time_ok = true) ->
  parse_operation p batch time_ok v = Some {| po_ty := Recover; po_suffix := ri_suffix i; po_reveal := ri_reveal i |}
  /\ rv_delta v = ri_delta i /\ sv_key (rv_signed v) = ri_key i
  /\ sv_recovery_commitment (rv_signed v) = ri_recovery_commitment i
  /\ sv_from (rv_signed v) = ri_from i /\ sv_until (rv_signed v) = ri_until i
  /\ is_valid_model_multihash (dv_canonical (rv_delta v)) (sv_delta_hash (rv_signed v)) = true.
Proof.
  intros Hb (Hcode & Halg & Hcrv & Hnonce) Hrev Hrmh Hdelta Hrc Hrcc Hneq Horigin Hlen Hsize Hsig Hmode.
  unfold build_recover in Hb.
  destruct (is_empty (ri_suffix i)) eqn:Es; [discriminate|].
  destruct (is_empty (ri_reveal i)) eqn:Er; [discriminate|].
  destruct (patches_supplied (ri_patches i)); [|discriminate].
  destruct (validate_signer (ri_signer i)) eqn:Evs; [|discriminate].
  destruct (jwk_validate (ri_key i)) eqn:Ek; [|discriminate]. cbn [negb] in Hb.
  destruct (pi_opaque (ri_patches i) && negb (pi_from_doc_ok (ri_patches i))); [discriminate|].
  destruct (calculate_model_multihash (dv_canonical (ri_delta i)) (ri_code i)) as [dh|] eqn:Edh; [|discriminate].
  destruct (builder_validate_commitment (ri_key i) (ri_code i) (ri_recovery_commitment i)) eqn:Ebc; [|discriminate].
  cbn [negb] in Hb.
  destruct (sign_model (ri_signer i) (ri_payload i)) as [jws|] eqn:Ej; [|discriminate].
  inversion Hb; subst v; clear Hb. cbn [rv_delta rv_signed sv_key sv_from sv_until sv_delta_hash sv_recovery_commitment].
  split; [|repeat split; try reflexivity; eapply calculated_multihash_is_valid; exact Edh].
  rewrite parse_operation_recover, parse_recover_eq by reflexivity. cbn [rv_len rv_schema_ok]. rewrite (size_ok _ _ Hsize).
  rewrite (built_signed_prefix p _ _ _ _ Evs Halg Hsig Ej) by first [reflexivity | assumption].
  cbn [rv_signed rv_delta rv_reveal rv_did_suffix sv_key sv_delta_hash sv_recovery_commitment sv_origin_ok].
  rewrite Hrc, (computed_hash_validates p _ _ _ Edh Hcode (Hlen _ eq_refl)), (builder_commitment_parser _ _ _ Ebc Hrcc).
  rewrite Hdelta, Horigin, Hrev.
  assert (Hnb : bytes_eqb (dv_update_commitment (ri_delta i)) (ri_recovery_commitment i) = false).
  { apply bytes_eqb_neq. congruence. }
  rewrite Hnb. destruct Hmode as [-> | ->]; [reflexivity | destruct batch; reflexivity].
Qed.

Theorem built_deactivate_accepted p i v batch time_ok :
  build_deactivate i = Some v ->
  (exists a, sg_alg (di_signer i) = Some a /\ In a (pp_sig_algs p)) ->
  jwk_validate (di_key i) = true -> In (jv_crv (di_key i)) (pp_key_algs p) -> validate_nonce p (jv_nonce (di_key i)) = true ->
  reveal_matches (di_key i) (di_reveal i) = true -> validate_multihash p (di_reveal i) = true ->
  di_len i <= pp_max_op_size p ->
  signer_output_ok (di_signer i) (di_payload i) ->
  (batch = true \/ time_ok = true) ->
  parse_operation p batch time_ok v = Some {| po_ty := Deactivate; po_suffix := di_suffix i; po_reveal := di_reveal i |}
  /\ sv_key (rv_signed v) = di_key i /\ sv_did_suffix (rv_signed v) = di_suffix i
  /\ sv_from (rv_signed v) = di_from i /\ sv_until (rv_signed v) = di_until i.
Proof.
  intros Hb Halg Ek Hcrv Hnonce Hrev Hrmh Hsize Hsig Hmode.
  unfold build_deactivate in Hb.
  destruct (is_empty (di_suffix i)) eqn:Es; [discriminate|].
  destruct (is_empty (di_reveal i)) eqn:Er; [discriminate|].
  destruct (validate_signer (di_signer i)) eqn:Evs; [|discriminate]. cbn [negb] in Hb.
  destruct (sign_model (di_signer i) (di_payload i)) as [jws|] eqn:Ej; [|discriminate].
  inversion Hb; subst v; clear Hb. cbn [rv_signed sv_key sv_from sv_until sv_did_suffix].
  split; [|repeat split; reflexivity].
  rewrite parse_operation_deactivate, parse_deactivate_eq by reflexivity. cbn [rv_len rv_schema_ok]. rewrite (size_ok _ _ Hsize).
  rewrite (built_signed_prefix p _ _ _ _ Evs Halg Hsig Ej) by first [reflexivity | assumption].
  cbn [rv_signed rv_reveal rv_did_suffix sv_key sv_did_suffix]. rewrite bytes_eqb_refl, Hrev.
  destruct Hmode as [-> | ->]; [reflexivity | destruct batch; reflexivity].
Qed.

(* the hypothesis on [pp_hash_algs]: unique_suffix hashes with the HEAD of the protocol's algorithm list, so the
   builder's code has to come first *)
Theorem built_create_accepted p i v batch :
  build_create i = Some v ->
  pp_hash_algs p = [ci_code i] \/ (exists r, pp_hash_algs p = ci_code i :: r) ->
  validate_delta p (ci_delta i) = true ->
  blen (ci_recovery_commitment i) <= pp_max_hash_len p ->
  ci_origin_ok i = true ->
  (forall dh, calculate_model_multihash (dv_canonical (ci_delta i)) (ci_code i) = Some dh -> blen dh <= pp_max_hash_len p) ->
  ci_len i <= pp_max_op_size p ->
  exists dh sfx,
    calculate_model_multihash (dv_canonical (ci_delta i)) (ci_code i) = Some dh /\
    calculate_model_multihash (ci_suffix_canonical i dh) (ci_code i) = Some sfx /\
    parse_operation p batch true v = Some {| po_ty := Create; po_suffix := sfx; po_reveal := [] |}
    /\ rv_delta v = ci_delta i /\ sf_recovery_commitment (rv_suffix v) = ci_recovery_commitment i
    /\ is_valid_model_multihash (dv_canonical (rv_delta v)) (sf_delta_hash (rv_suffix v)) = true.
Proof.
  intros Hb Halgs Hdelta Hrl Horigin Hlen Hsize.
  assert (Hin : In (ci_code i) (pp_hash_algs p)).
  { destruct Halgs as [-> | (r & ->)]; left; reflexivity. }
  unfold build_create in Hb.
  destruct (patches_supplied (ci_patches i)); [|discriminate].
  destruct (ci_code_known i); [|discriminate]. cbn [negb] in Hb.
  destruct (is_computed_using (ci_recovery_commitment i) [ci_code i]) eqn:Erc; [|discriminate].
  destruct (is_computed_using (dv_update_commitment (ci_delta i)) [ci_code i]) eqn:Euc; [|discriminate]. cbn [negb] in Hb.
  destruct (bytes_eqb (ci_recovery_commitment i) (dv_update_commitment (ci_delta i))) eqn:Eeq; [discriminate|].
  destruct (pi_opaque (ci_patches i) && negb (pi_from_doc_ok (ci_patches i))); [discriminate|].
  destruct (calculate_model_multihash (dv_canonical (ci_delta i)) (ci_code i)) as [dh|] eqn:Edh; [|discriminate].
  inversion Hb; subst v; clear Hb.
  (* the suffix hash exists because the code is supported (it hashed the delta) *)
  assert (Hsfx : exists sfx, calculate_model_multihash (ci_suffix_canonical i dh) (ci_code i) = Some sfx).
  { unfold calculate_model_multihash, compute_multihash in *. destruct (hash_of_code (ci_code i)); [eexists; reflexivity | discriminate]. }
  destruct Hsfx as (sfx & Hsfx). exists dh, sfx. split; [reflexivity|]. split; [exact Hsfx|].
  cbn [rv_delta rv_suffix sf_recovery_commitment sf_delta_hash].
  split; [|repeat split; try reflexivity; eapply calculated_multihash_is_valid; exact Edh].
  rewrite parse_operation_create, parse_create_eq by reflexivity. cbn [rv_len rv_schema_ok rv_struct_ok rv_suffix rv_delta].
  rewrite (size_ok _ _ Hsize). unfold validate_suffix_data. cbn [sf_present sf_recovery_commitment sf_delta_hash sf_origin_ok sf_canonical].
  assert (Hrcv : validate_multihash p (ci_recovery_commitment i) = true).
  { rewrite validate_multihash_eq, (size_ok _ _ Hrl). apply is_computed_using_iff.
    apply is_computed_using_iff in Erc. destruct Erc as (c & Hc & [<-|[]]). eauto. }
  rewrite Hrcv, (computed_hash_validates p _ _ _ Edh Hin (Hlen _ eq_refl)), Horigin, Hdelta, (calculated_multihash_is_valid _ _ _ Edh).
  assert (Hne : bytes_eqb (dv_update_commitment (ci_delta i)) (ci_recovery_commitment i) = false).
  { rewrite bytes_eqb_sym. exact Eeq. }
  rewrite Hne, orb_true_r. cbn [negb andb].
  unfold unique_suffix. destruct Halgs as [-> | (r & ->)]; rewrite Hsfx; reflexivity.
Qed.

(* the reveal value a caller derives from the signing key commits to the key's commitment *)
Theorem built_reveal_links_commitment k code rv :
  get_reveal_value (jv_canonical k) code = Some rv ->
  reveal_matches k rv = true /\ commitment_from_reveal rv = get_commitment (jv_canonical k) code.
Proof.
  intros H. split.
  - unfold reveal_matches. eapply calculated_multihash_is_valid. exact H.
  - apply commitment_is_hash_of_reveal. exact H.
Qed.

(* the compact JWS a builder emits verifies under the key it was signed with, as soon as the
   primitive accepts the signature over the signing input ([crypto_ok] = true) *)
Theorem built_signature_verifies s payload jws k :
  validate_signer s = true -> signer_output_ok s payload -> sign_model s payload = Some jws ->
  jwk_decodes k = true ->
  (eqs (k_kty k) "EC" = true /\ exists n, ec_key_size (k_crv k) = Some n /\ Z.of_nat (length (sg_sig s)) = 2 * n)
  \/ (eqs (k_kty k) "EC" = false /\ eqs (k_kty k) "OKP" = true) ->
  verify_jws jws (built_hdr s) k true = true.
Proof.
  intros Hv (Hh & Hp & Hs) Hj Hd Hk. unfold sign_model in Hj.
  destruct (sg_alg s) as [a|]; [|discriminate]. destruct (is_empty a); [discriminate|].
  destruct (sg_sign_ok s); [|discriminate]. cbn [negb] in Hj. inversion Hj; subst jws.
  eapply sign_then_verify; try eassumption; try reflexivity.
Qed.
