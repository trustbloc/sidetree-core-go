(* C10: the limits of the operation parser (Parser/Accept.v) are inclusive and exact.
   Each numeric guard as an iff: validate_multihash (MaxOperationHashLength), the request size gate of
   ParseOperation (MaxOperationSize), validateNonce (NonceSize), the size part of ValidateDelta (MaxDeltaSize).
   Parameter independence: two protocols that differ only in ONE numeric parameter X, and whose X-guard gives the
   same verdict on this request, parse the request to the same result (one theorem per X, all instances of
   [agree_parse_operation]).
   What acceptance says about the guards that are evaluated for the request's type and mode ([accepted_checks_passed]).
   Monotonicity and thresholds: a request accepted under limit L is accepted, with the same result, under every
   larger L ([parse_operation_mono]) and refused as soon as L is below the actual size
   ([parse_operation_threshold] and its four instances); NonceSize is an equality guard ([nonce_size_exact]).
   Examples at the end.  The definitions below only name parts of the model. *)
From Coq Require Import String List ZArith Bool Lia.
From Coq.Strings Require Import Byte.
From SV Require Import Base.Bytes Hash.B64 Hash.Varint Hash.Multihash Jws.Compact
  Parser.Accept Parser.AcceptProofs.
Import ListNotations.
Local Open Scope string_scope.
Local Open Scope list_scope.
Local Open Scope Z_scope.

(* validateMultihash: length at most MaxOperationHashLength (inclusive) and an allowed algorithm *)
Theorem validate_multihash_iff p mh :
  validate_multihash p mh = true <-> blen mh <= pp_max_hash_len p /\ is_computed_using mh (pp_hash_algs p) = true.
Proof. rewrite validate_multihash_eq, andb_true_iff, negb_true_iff, gtb_false_iff. reflexivity. Qed.

(* exactly at the limit the length plays no role; one byte more is refused *)
Corollary validate_multihash_at_limit p mh :
  blen mh = pp_max_hash_len p -> validate_multihash p mh = is_computed_using mh (pp_hash_algs p).
Proof. intros H. rewrite validate_multihash_eq, (proj2 (gtb_false_iff _ _)) by lia. reflexivity. Qed.

Corollary validate_multihash_above_limit p mh : blen mh = pp_max_hash_len p + 1 -> validate_multihash p mh = false.
Proof. intros H. apply over_long_hash_rejected. lia. Qed.

(* ParseOperation: what comes after the size gate *)
Definition parse_after_gate (p : pproto) (batch time_ok : bool) (v : req_view) : option parsed :=
  if negb (rv_schema_ok v) then None
  else if eqs (rv_type v) "create" then parse_create p batch v
  else if eqs (rv_type v) "update" then parse_update p batch time_ok v
  else if eqs (rv_type v) "deactivate" then parse_deactivate p batch time_ok v
  else if eqs (rv_type v) "recover" then parse_recover p batch time_ok v
  else None.

Theorem size_gate_exact p b t v :
  parse_operation p b t v = if rv_len v >? pp_max_op_size p then None else parse_after_gate p b t v.
Proof. reflexivity. Qed.

(* the request size gate: at most MaxOperationSize bytes (inclusive), and nothing else depends on the size *)
Theorem size_gate_iff p b t v o :
  parse_operation p b t v = Some o <-> rv_len v <= pp_max_op_size p /\ parse_after_gate p b t v = Some o.
Proof.
  rewrite size_gate_exact, <- gtb_false_iff. destruct (rv_len v >? pp_max_op_size p).
  - split; [discriminate | intros [H _]; discriminate H].
  - tauto.
Qed.

Corollary size_gate_at_limit p b t v :
  rv_len v = pp_max_op_size p -> parse_operation p b t v = parse_after_gate p b t v.
Proof. intros H. rewrite size_gate_exact, (proj2 (gtb_false_iff _ _)) by lia. reflexivity. Qed.

Corollary size_gate_above_limit p b t v : rv_len v = pp_max_op_size p + 1 -> parse_operation p b t v = None.
Proof. intros H. apply oversize_request_rejected. lia. Qed.

(* validateNonce: absent, or base64url of exactly NonceSize bytes *)
Theorem validate_nonce_iff p n :
  validate_nonce p n = true <-> n = [] \/ exists b, b64_decode n = Some b /\ blen b = pp_nonce_size p.
Proof. exact (validate_nonce_ok p n). Qed.

(* ValidateDelta: its size part is "canonical form at most MaxDeltaSize bytes" (inclusive); the rest does
   not depend on MaxDeltaSize *)
Definition validate_delta_nosize (p : pproto) (d : delta_view) : bool :=
  dv_present d && negb (match dv_actions d with [] => true | _ => false end)
  && patches_ok p (dv_actions d) (dv_patch_valid d) && validate_multihash p (dv_update_commitment d).

Theorem validate_delta_iff p d :
  validate_delta p d = true <-> blen (dv_canonical d) <= pp_max_delta_size p /\ validate_delta_nosize p d = true.
Proof.
  rewrite validate_delta_eq. fold (validate_delta_nosize p d). rewrite andb_true_iff, negb_true_iff, gtb_false_iff. tauto.
Qed.

Corollary validate_delta_at_limit p d :
  blen (dv_canonical d) = pp_max_delta_size p -> validate_delta p d = validate_delta_nosize p d.
Proof.
  intros H. rewrite validate_delta_eq, (proj2 (gtb_false_iff _ _)) by lia. fold (validate_delta_nosize p d). apply andb_true_r.
Qed.

Corollary validate_delta_above_limit p d : blen (dv_canonical d) = pp_max_delta_size p + 1 -> validate_delta p d = false.
Proof. intros H. apply oversize_delta_rejected. lia. Qed.

(* all hash strings of a request *)
Definition hash_fields (v : req_view) : list bytes :=
  [rv_reveal v; sv_delta_hash (rv_signed v); sv_recovery_commitment (rv_signed v);
   dv_update_commitment (rv_delta v); sf_recovery_commitment (rv_suffix v); sf_delta_hash (rv_suffix v)].

(* the hash strings validateMultihash is applied to, by request type and mode: the delta (and with it
   delta.updateCommitment) is validated by the parser at intake only - in batch mode ValidateDelta is
   left to the applier - and never for a deactivate *)
Definition delta_checked (batch : bool) (v : req_view) : list bytes :=
  if batch then [] else [dv_update_commitment (rv_delta v)].

(* dispatch on the request type, in the order of ParseOperation *)
Definition type_case {A : Type} (v : req_view) (c u d r other : A) : A :=
  if eqs (rv_type v) "create" then c
  else if eqs (rv_type v) "update" then u
  else if eqs (rv_type v) "deactivate" then d
  else if eqs (rv_type v) "recover" then r
  else other.

Definition checked_hash_fields (batch : bool) (v : req_view) : list bytes :=
  type_case v
    ([sf_recovery_commitment (rv_suffix v); sf_delta_hash (rv_suffix v)] ++ delta_checked batch v)
    ([rv_reveal v; sv_delta_hash (rv_signed v)] ++ delta_checked batch v)
    [rv_reveal v]
    ([rv_reveal v; sv_recovery_commitment (rv_signed v); sv_delta_hash (rv_signed v)] ++ delta_checked batch v)
    [].

(* ValidateDelta (hence the MaxDeltaSize guard) is run by the parser / validateNonce is run *)
Definition delta_size_checked (batch : bool) (v : req_view) : bool := negb batch && type_case v true true false true false.
Definition nonce_checked (v : req_view) : bool := type_case v false true true true false.

(* the non-numeric configuration is the same *)
Definition same_algs (p q : pproto) : Prop :=
  pp_hash_algs p = pp_hash_algs q /\ pp_sig_algs p = pp_sig_algs q /\ pp_key_algs p = pp_key_algs q /\
  pp_patches p = pp_patches q.

(* the verdict of each numeric guard on this request: the three size guards are true when the limit is EXCEEDED (the
   Go condition that returns the error), [nonce_guard] is true when the check PASSES *)
Definition op_size_guard (p : pproto) (v : req_view) : bool := rv_len v >? pp_max_op_size p.
Definition hash_len_guard (p : pproto) (h : bytes) : bool := blen h >? pp_max_hash_len p.
Definition delta_size_guard (p : pproto) (v : req_view) : bool := blen (dv_canonical (rv_delta v)) >? pp_max_delta_size p.
Definition nonce_guard (p : pproto) (v : req_view) : bool := validate_nonce p (jv_nonce (sv_key (rv_signed v))).

(* p and q agree on this request: same algorithms, and every numeric guard that is evaluated gives the same
   verdict.  (MaxOperationTimeDelta is not read by parse_operation: the time validator's verdict is its
   argument.)  [agree_body] is the part that concerns what comes after the size gate. *)
Definition agree_body (b : bool) (p q : pproto) (v : req_view) : Prop :=
  same_algs p q /\
  Forall (fun h => hash_len_guard p h = hash_len_guard q h) (checked_hash_fields b v) /\
  (delta_size_checked b v = true -> delta_size_guard p v = delta_size_guard q v) /\
  (nonce_checked v = true -> nonce_guard p v = nonce_guard q v).

Definition agree (b : bool) (p q : pproto) (v : req_view) : Prop :=
  op_size_guard p v = op_size_guard q v /\ agree_body b p q v.

Lemma validate_multihash_congr p q h :
  pp_hash_algs p = pp_hash_algs q -> hash_len_guard p h = hash_len_guard q h ->
  validate_multihash p h = validate_multihash q h.
Proof. unfold validate_multihash, hash_len_guard. intros -> ->. reflexivity. Qed.

Lemma patches_ok_congr p q acts : pp_patches p = pp_patches q ->
  forall valid, patches_ok p acts valid = patches_ok q acts valid.
Proof.
  intros Hp. induction acts as [|a r IH]; intros valid; cbn [patches_ok]; [reflexivity|].
  destruct valid as [|x t]; [reflexivity|]. rewrite IH. unfold action_enabled. rewrite Hp. reflexivity.
Qed.

Lemma validate_delta_congr p q v :
  same_algs p q -> hash_len_guard p (dv_update_commitment (rv_delta v)) = hash_len_guard q (dv_update_commitment (rv_delta v)) ->
  delta_size_guard p v = delta_size_guard q v -> validate_delta p (rv_delta v) = validate_delta q (rv_delta v).
Proof.
  intros (Hh & _ & _ & Hp) Hg Hd. unfold delta_size_guard in Hd.
  rewrite !validate_delta_eq, (validate_multihash_congr p q _ Hh Hg), (patches_ok_congr p q _ Hp), Hd. reflexivity.
Qed.

Lemma signing_key_congr p q v :
  same_algs p q -> nonce_guard p v = nonce_guard q v ->
  validate_signing_key p (sv_key (rv_signed v)) = validate_signing_key q (sv_key (rv_signed v)).
Proof. intros (_ & _ & Hk & _) Hn. unfold validate_signing_key. unfold nonce_guard in Hn. rewrite Hn, Hk. reflexivity. Qed.

Lemma signed_data_congr p q s : same_algs p q -> parse_signed_data p s = parse_signed_data q s.
Proof. intros (_ & Hs & _). unfold parse_signed_data. rewrite Hs. reflexivity. Qed.

Lemma signed_prefix_congr p q v :
  same_algs p q -> hash_len_guard p (rv_reveal v) = hash_len_guard q (rv_reveal v) -> nonce_guard p v = nonce_guard q v ->
  signed_prefix p v = signed_prefix q v.
Proof.
  intros Ha Hg Hn. unfold signed_prefix, validate_request_fields.
  rewrite (validate_multihash_congr p q _ (proj1 Ha) Hg), (signed_data_congr p q _ Ha), (signing_key_congr p q v Ha Hn). reflexivity.
Qed.

Definition is_some_b {A : Type} (o : option A) : bool := match o with Some _ => true | None => false end.

Lemma agree_after_gate p q v b t : agree_body b p q v -> parse_after_gate p b t v = parse_after_gate q b t v.
Proof.
  intros (Ha & Hf & Hd & Hn). pose proof Ha as (Hh & _). rewrite Forall_forall in Hf.
  assert (Hvm : forall h, In h (checked_hash_fields b v) -> validate_multihash p h = validate_multihash q h)
    by (intros h Hin; apply (validate_multihash_congr p q h Hh), Hf, Hin).
  unfold parse_after_gate. unfold checked_hash_fields, delta_size_checked, nonce_checked, type_case in *.
  destruct (rv_schema_ok v); cbn [negb]; [|reflexivity].
  destruct (eqs (rv_type v) "create").
  { rewrite !parse_create_eq. unfold validate_suffix_data. rewrite !Hvm, Hh by (cbn [In app]; auto).
    destruct b; [reflexivity|]. rewrite (validate_delta_congr p q v Ha (Hf _ ltac:(cbn; auto)) (Hd eq_refl)). reflexivity. }
  destruct (eqs (rv_type v) "update").
  { rewrite !parse_update_eq, (signed_prefix_congr p q v Ha (Hf _ (or_introl eq_refl)) (Hn eq_refl)), !Hvm by (cbn [In app]; auto).
    destruct b; [reflexivity|]. rewrite (validate_delta_congr p q v Ha (Hf _ ltac:(cbn; auto)) (Hd eq_refl)). reflexivity. }
  destruct (eqs (rv_type v) "deactivate").
  { rewrite !parse_deactivate_eq, (signed_prefix_congr p q v Ha (Hf _ (or_introl eq_refl)) (Hn eq_refl)). reflexivity. }
  destruct (eqs (rv_type v) "recover"); [|reflexivity].
  rewrite !parse_recover_eq, (signed_prefix_congr p q v Ha (Hf _ (or_introl eq_refl)) (Hn eq_refl)), !Hvm by (cbn [In app]; auto).
  destruct b; [reflexivity|]. rewrite (validate_delta_congr p q v Ha (Hf _ ltac:(cbn; auto)) (Hd eq_refl)). reflexivity.
Qed.

(* the result depends on the numeric parameters only through the verdicts of the guards that
   are evaluated for this request type and mode *)
Theorem agree_parse_operation p q v b t : agree b p q v -> parse_operation p b t v = parse_operation q b t v.
Proof.
  intros [Hs Hb]. rewrite !size_gate_exact, (agree_after_gate p q v b t Hb). unfold op_size_guard in Hs. rewrite Hs. reflexivity.
Qed.

(* "p and q differ only in parameter X": every other field is equal (pp_time_delta may differ too: the
   parser does not read it) *)
Definition differ_only_op_size (p q : pproto) : Prop :=
  same_algs p q /\ pp_max_hash_len p = pp_max_hash_len q /\ pp_max_delta_size p = pp_max_delta_size q /\ pp_nonce_size p = pp_nonce_size q.
Definition differ_only_hash_len (p q : pproto) : Prop :=
  same_algs p q /\ pp_max_op_size p = pp_max_op_size q /\ pp_max_delta_size p = pp_max_delta_size q /\ pp_nonce_size p = pp_nonce_size q.
Definition differ_only_delta_size (p q : pproto) : Prop :=
  same_algs p q /\ pp_max_op_size p = pp_max_op_size q /\ pp_max_hash_len p = pp_max_hash_len q /\ pp_nonce_size p = pp_nonce_size q.
Definition differ_only_nonce_size (p q : pproto) : Prop :=
  same_algs p q /\ pp_max_op_size p = pp_max_op_size q /\ pp_max_hash_len p = pp_max_hash_len q /\ pp_max_delta_size p = pp_max_delta_size q.

Lemma same_hash_guards p q l : pp_max_hash_len p = pp_max_hash_len q ->
  Forall (fun h => hash_len_guard p h = hash_len_guard q h) l.
Proof. intros H. apply Forall_forall. intros h _. unfold hash_len_guard. rewrite H. reflexivity. Qed.

Lemma same_op_guard p q v : pp_max_op_size p = pp_max_op_size q -> op_size_guard p v = op_size_guard q v.
Proof. intros H. unfold op_size_guard. rewrite H. reflexivity. Qed.
Lemma same_delta_guard p q v : pp_max_delta_size p = pp_max_delta_size q -> delta_size_guard p v = delta_size_guard q v.
Proof. intros H. unfold delta_size_guard. rewrite H. reflexivity. Qed.
Lemma same_nonce_guard p q v : pp_nonce_size p = pp_nonce_size q -> nonce_guard p v = nonce_guard q v.
Proof. intros H. unfold nonce_guard, validate_nonce. rewrite H. reflexivity. Qed.

(* equal parameters give equal guards; [auto with guards] assembles [agree] from them and from the hypothesis on X *)
Local Hint Resolve same_hash_guards same_op_guard same_delta_guard same_nonce_guard : guards.
Local Hint Unfold agree agree_body : guards.

(* every checked field is a hash field of the request *)
Lemma checked_incl b v : incl (checked_hash_fields b v) (hash_fields v).
Proof.
  unfold checked_hash_fields, type_case, hash_fields, delta_checked. intros h Hin.
  destruct (eqs (rv_type v) "create"); [destruct b; cbn [app In] in *; intuition|].
  destruct (eqs (rv_type v) "update"); [destruct b; cbn [app In] in *; intuition|].
  destruct (eqs (rv_type v) "deactivate"); [cbn [app In] in *; intuition|].
  destruct (eqs (rv_type v) "recover"); [destruct b; cbn [app In] in *; intuition | destruct Hin].
Qed.

(* X = MaxOperationSize *)
Theorem max_op_size_independence p q b t v :
  differ_only_op_size p q -> op_size_guard p v = op_size_guard q v ->
  parse_operation p b t v = parse_operation q b t v.
Proof. intros (Ha & Hh & Hd & Hn) Hg. apply agree_parse_operation. auto 8 with guards. Qed.

(* X = MaxOperationHashLength: the guard is evaluated on the checked hash fields of the request *)
Theorem max_hash_len_independence p q b t v :
  differ_only_hash_len p q -> Forall (fun h => hash_len_guard p h = hash_len_guard q h) (checked_hash_fields b v) ->
  parse_operation p b t v = parse_operation q b t v.
Proof. intros (Ha & Hs & Hd & Hn) Hg. apply agree_parse_operation. auto 8 with guards. Qed.

Corollary max_hash_len_independence_all_fields p q b t v :
  differ_only_hash_len p q -> Forall (fun h => hash_len_guard p h = hash_len_guard q h) (hash_fields v) ->
  parse_operation p b t v = parse_operation q b t v.
Proof.
  intros Hd Hg. apply max_hash_len_independence; [exact Hd|]. rewrite Forall_forall in *. intros h Hh. apply Hg, (checked_incl b v), Hh.
Qed.

(* X = MaxDeltaSize: when the parser does not run ValidateDelta (batch mode, deactivate) it does not matter at all *)
Theorem max_delta_size_independence p q b t v :
  differ_only_delta_size p q -> (delta_size_checked b v = true -> delta_size_guard p v = delta_size_guard q v) ->
  parse_operation p b t v = parse_operation q b t v.
Proof. intros (Ha & Hs & Hh & Hn) Hg. apply agree_parse_operation. auto 8 with guards. Qed.

(* X = NonceSize: irrelevant for a create *)
Theorem nonce_size_independence p q b t v :
  differ_only_nonce_size p q -> (nonce_checked v = true -> nonce_guard p v = nonce_guard q v) ->
  parse_operation p b t v = parse_operation q b t v.
Proof. intros (Ha & Hs & Hh & Hd) Hg. apply agree_parse_operation. auto 8 with guards. Qed.

(* MaxOperationTimeDelta plays no role in parse_operation at all *)
Theorem time_delta_independence p q b t v :
  same_algs p q -> pp_max_op_size p = pp_max_op_size q -> pp_max_hash_len p = pp_max_hash_len q ->
  pp_max_delta_size p = pp_max_delta_size q -> pp_nonce_size p = pp_nonce_size q ->
  parse_operation p b t v = parse_operation q b t v.
Proof. intros Ha Hs Hh Hd Hn. apply agree_parse_operation. auto 8 with guards. Qed.

Lemma validate_delta_commitment p d : validate_delta p d = true -> validate_multihash p (dv_update_commitment d) = true.
Proof. rewrite validate_delta_eq, !andb_true_iff. tauto. Qed.

Lemma signed_prefix_guards p v :
  signed_prefix p v = true -> validate_multihash p (rv_reveal v) = true /\ nonce_guard p v = true.
Proof. unfold signed_prefix, validate_request_fields, validate_signing_key, nonce_guard. rewrite !andb_true_iff. tauto. Qed.

(* the intake-only block [b || c] of a parser whose c contains ValidateDelta: what it adds to the checked fields.
   [negb b && true] is [delta_size_checked b v] once [type_case] has taken the branch of a type that has a delta. *)
Lemma intake_checks p b c v l (P : Prop) :
  b || c = true -> (c = true -> validate_delta p (rv_delta v) = true) ->
  Forall (fun h => validate_multihash p h = true) l -> P ->
  Forall (fun h => validate_multihash p h = true) (l ++ delta_checked b v) /\
  (negb b && true = true -> validate_delta p (rv_delta v) = true) /\ P.
Proof.
  intros Hi Hc Hl HP. destruct b; cbn [delta_checked negb andb orb] in *; [rewrite app_nil_r; split; [exact Hl | split; [discriminate | exact HP]]|].
  specialize (Hc Hi). split; [|split; [intros _; exact Hc | exact HP]].
  apply Forall_app. split; [exact Hl|]. constructor; [apply validate_delta_commitment, Hc | constructor].
Qed.

(* acceptance means that every guard that is evaluated for this type and mode passed *)
Theorem accepted_checks_passed p b t v o :
  parse_operation p b t v = Some o ->
  Forall (fun h => validate_multihash p h = true) (checked_hash_fields b v) /\
  (delta_size_checked b v = true -> validate_delta p (rv_delta v) = true) /\
  (nonce_checked v = true -> nonce_guard p v = true).
Proof.
  intros H. apply size_gate_iff in H. destruct H as [_ H]. unfold parse_after_gate in H.
  unfold checked_hash_fields, delta_size_checked, nonce_checked, type_case.
  destruct (rv_schema_ok v); cbn [negb] in H; [|discriminate].
  destruct (eqs (rv_type v) "create").
  { rewrite parse_create_eq in H. apply if_some_iff in H as [H _]. unfold validate_suffix_data in H. rewrite !andb_true_iff in H.
    destruct H as ((_ & (_ & Hrc) & Hdh) & Hi).
    apply (intake_checks _ _ _ _ _ _ Hi); [rewrite !andb_true_iff; tauto | repeat constructor; assumption | discriminate]. }
  destruct (eqs (rv_type v) "update").
  { rewrite parse_update_eq in H. apply if_some_iff in H as [H _]. rewrite !andb_true_iff in H. destruct H as (((Hpre & Hdh) & Hi) & _).
    destruct (signed_prefix_guards _ _ Hpre) as [Hr Hn].
    apply (intake_checks _ _ _ _ _ _ Hi); [rewrite !andb_true_iff; tauto | repeat constructor; assumption | auto]. }
  destruct (eqs (rv_type v) "deactivate").
  { rewrite parse_deactivate_eq in H. apply if_some_iff in H as [H _]. rewrite !andb_true_iff in H. destruct H as (((Hpre & _) & _) & _).
    destruct (signed_prefix_guards _ _ Hpre) as [Hr Hn]. rewrite andb_false_r. split; [repeat constructor; exact Hr|]. split; [discriminate | auto]. }
  destruct (eqs (rv_type v) "recover"); [|discriminate].
  rewrite parse_recover_eq in H. apply if_some_iff in H as [H _]. rewrite !andb_true_iff in H. destruct H as (((((Hpre & Hrc) & Hdh) & _) & Hi) & _).
  destruct (signed_prefix_guards _ _ Hpre) as [Hr Hn].
  apply (intake_checks _ _ _ _ _ _ Hi); [rewrite !andb_true_iff; tauto | repeat constructor; assumption | auto].
Qed.

Lemma validate_multihash_guard p h : validate_multihash p h = true -> hash_len_guard p h = false.
Proof. intros H. apply validate_multihash_iff in H. apply gtb_false_iff. apply H. Qed.

Lemma validate_delta_guard p v : validate_delta p (rv_delta v) = true -> delta_size_guard p v = false.
Proof. intros H. apply validate_delta_iff in H. apply gtb_false_iff. apply H. Qed.

(* all four guards in the form the threshold theorems test them *)
Lemma accepted_guards p b t v o :
  parse_operation p b t v = Some o ->
  op_size_guard p v = false /\ existsb (hash_len_guard p) (checked_hash_fields b v) = false /\
  delta_size_checked b v && delta_size_guard p v = false /\ nonce_checked v && negb (nonce_guard p v) = false.
Proof.
  intros H. destruct (accepted_checks_passed _ _ _ _ _ H) as (Hf & Hd & Hn). apply size_gate_iff in H.
  split; [apply gtb_false_iff, H|]. split; [|split].
  - apply not_true_iff_false. intros E. apply existsb_exists in E. destruct E as (h & Hin & Hg).
    rewrite Forall_forall in Hf. rewrite (validate_multihash_guard _ _ (Hf h Hin)) in Hg. discriminate.
  - destruct (delta_size_checked b v); [|reflexivity]. apply validate_delta_guard, Hd. reflexivity.
  - destruct (nonce_checked v); [|reflexivity]. rewrite Hn; reflexivity.
Qed.

(* q allows at least what p allows: same algorithms and nonce size, each limit at least as large *)
Definition more_permissive (p q : pproto) : Prop :=
  same_algs p q /\ pp_nonce_size p = pp_nonce_size q /\
  pp_max_op_size p <= pp_max_op_size q /\ pp_max_hash_len p <= pp_max_hash_len q /\
  pp_max_delta_size p <= pp_max_delta_size q.

Lemma gtb_false_le x a b : a <= b -> (x >? a) = false -> (x >? b) = false.
Proof. rewrite !gtb_false_iff. lia. Qed.

(* whatever is accepted stays accepted, with the same result, when limits grow.
   Every guard that was evaluated passed under p, so it passes under q: p and q agree on the request. *)
Theorem parse_operation_mono p q b t v o :
  more_permissive p q -> parse_operation p b t v = Some o -> parse_operation q b t v = Some o.
Proof.
  intros (Ha & Hn & Hs & Hh & Hd) H. rewrite <- H. symmetry. apply agree_parse_operation.
  destruct (accepted_checks_passed _ _ _ _ _ H) as (Hf & Hdl & _). apply accepted_guards in H. destruct H as (Hl & _).
  split; [|split; [exact Ha|split; [|split]]].
  - unfold op_size_guard in *. rewrite Hl, (gtb_false_le _ _ _ Hs Hl). reflexivity.
  - eapply Forall_impl; [|exact Hf]. intros h Hv. apply validate_multihash_guard in Hv.
    unfold hash_len_guard in *. rewrite Hv, (gtb_false_le _ _ _ Hh Hv). reflexivity.
  - intros Hc. pose proof (validate_delta_guard _ _ (Hdl Hc)) as Hg.
    unfold delta_size_guard in *. rewrite Hg, (gtb_false_le _ _ _ Hd Hg). reflexivity.
  - intros _. apply same_nonce_guard. exact Hn.
Qed.

(* one theorem per limit: accepted under L, accepted under every larger L *)
Theorem max_op_size_monotone p q b t v o :
  differ_only_op_size p q -> pp_max_op_size p <= pp_max_op_size q ->
  parse_operation p b t v = Some o -> parse_operation q b t v = Some o.
Proof. intros (Ha & Hh & Hd & Hn) Hle. apply parse_operation_mono. unfold more_permissive. repeat split; try apply Ha; lia. Qed.

Theorem max_hash_len_monotone p q b t v o :
  differ_only_hash_len p q -> pp_max_hash_len p <= pp_max_hash_len q ->
  parse_operation p b t v = Some o -> parse_operation q b t v = Some o.
Proof. intros (Ha & Hs & Hd & Hn) Hle. apply parse_operation_mono. unfold more_permissive. repeat split; try apply Ha; lia. Qed.

Theorem max_delta_size_monotone p q b t v o :
  differ_only_delta_size p q -> pp_max_delta_size p <= pp_max_delta_size q ->
  parse_operation p b t v = Some o -> parse_operation q b t v = Some o.
Proof. intros (Ha & Hs & Hh & Hn) Hle. apply parse_operation_mono. unfold more_permissive. repeat split; try apply Ha; lia. Qed.

Lemma existsb_false_In {A} (f : A -> bool) l x : existsb f l = false -> In x l -> f x = false.
Proof.
  intros E Hin. apply not_true_iff_false. intros Hx. apply not_true_iff_false in E. apply E, existsb_exists. eauto.
Qed.

(* a request accepted under p is accepted under q, with the same result, exactly when every guard that is evaluated
   for its type and mode passes under q *)
Theorem parse_operation_threshold p q b t v o :
  same_algs p q -> parse_operation p b t v = Some o ->
  parse_operation q b t v =
  if op_size_guard q v || existsb (hash_len_guard q) (checked_hash_fields b v)
     || delta_size_checked b v && delta_size_guard q v || nonce_checked v && negb (nonce_guard q v)
  then None else Some o.
Proof.
  intros Ha H. match goal with |- _ = if ?c then _ else _ => destruct c eqn:E end.
  - destruct (parse_operation q b t v) as [o'|] eqn:Eq; [|reflexivity].
    destruct (accepted_guards _ _ _ _ _ Eq) as (G1 & G2 & G3 & G4). rewrite G1, G2, G3, G4 in E. discriminate E.
  - rewrite <- H. symmetry. apply agree_parse_operation. rewrite !orb_false_iff in E. destruct E as (((E1 & E2) & E3) & E4).
    destruct (accepted_guards _ _ _ _ _ H) as (G1 & G2 & G3 & G4).
    split; [congruence|]. split; [exact Ha|]. split; [|split].
    + apply Forall_forall. intros h Hin. rewrite (existsb_false_In _ _ _ G2 Hin), (existsb_false_In _ _ _ E2 Hin). reflexivity.
    + intros Hc. rewrite Hc in G3, E3. cbn [andb] in G3, E3. congruence.
    + intros Hc. rewrite Hc in G4, E4. cbn [andb] in G4, E4. apply negb_false_iff in G4, E4. congruence.
Qed.

(* the four instances: when only X differs, the guards of the other parameters give under q the verdict they gave
   under p, which was "pass" *)

(* the request size: accepted under L exactly when its length is at most L - the limit is inclusive and nothing
   else about L matters *)
Theorem max_op_size_threshold p q b t v o :
  differ_only_op_size p q -> parse_operation p b t v = Some o ->
  parse_operation q b t v = if op_size_guard q v then None else Some o.
Proof.
  intros (Ha & Hh & Hd & Hn) H. rewrite (parse_operation_threshold p q _ _ _ _ Ha H).
  destruct (accepted_guards _ _ _ _ _ H) as (_ & G2 & G3 & G4).
  rewrite <- (same_delta_guard p q v Hd), <- (same_nonce_guard p q v Hn), G3, G4.
  unfold hash_len_guard in *. rewrite <- Hh, G2, !orb_false_r. reflexivity.
Qed.

(* the hash length: accepted under L exactly when every hash string that is checked for its type and mode has at
   most L characters *)
Theorem max_hash_len_threshold p q b t v o :
  differ_only_hash_len p q -> parse_operation p b t v = Some o ->
  parse_operation q b t v = if existsb (hash_len_guard q) (checked_hash_fields b v) then None else Some o.
Proof.
  intros (Ha & Hs & Hd & Hn) H. rewrite (parse_operation_threshold p q _ _ _ _ Ha H).
  destruct (accepted_guards _ _ _ _ _ H) as (G1 & _ & G3 & G4).
  rewrite <- (same_op_guard p q v Hs), <- (same_delta_guard p q v Hd), <- (same_nonce_guard p q v Hn), G1, G3, G4, !orb_false_r.
  reflexivity.
Qed.

(* the delta size (where the parser validates the delta: intake mode, not a deactivate) *)
Theorem max_delta_size_threshold p q b t v o :
  differ_only_delta_size p q -> parse_operation p b t v = Some o ->
  parse_operation q b t v = if delta_size_checked b v && delta_size_guard q v then None else Some o.
Proof.
  intros (Ha & Hs & Hh & Hn) H. rewrite (parse_operation_threshold p q _ _ _ _ Ha H).
  destruct (accepted_guards _ _ _ _ _ H) as (G1 & G2 & _ & G4).
  rewrite <- (same_op_guard p q v Hs), <- (same_nonce_guard p q v Hn), G1, G4.
  unfold hash_len_guard in *. rewrite <- Hh, G2, !orb_false_r. reflexivity.
Qed.

(* NonceSize is an equality guard *)
Theorem nonce_size_threshold p q b t v o :
  differ_only_nonce_size p q -> parse_operation p b t v = Some o ->
  parse_operation q b t v = if nonce_checked v && negb (nonce_guard q v) then None else Some o.
Proof.
  intros (Ha & Hs & Hh & Hd) H. rewrite (parse_operation_threshold p q _ _ _ _ Ha H).
  destruct (accepted_guards _ _ _ _ _ H) as (G1 & G2 & G3 & _).
  rewrite <- (same_op_guard p q v Hs), <- (same_delta_guard p q v Hd), G1, G3.
  unfold hash_len_guard in *. rewrite <- Hh, G2. reflexivity.
Qed.

(* a non-empty nonce accepted under one NonceSize is refused under every other *)
Theorem nonce_size_exact p q n :
  n <> [] -> validate_nonce p n = true -> pp_nonce_size q <> pp_nonce_size p -> validate_nonce q n = false.
Proof.
  intros Hne Hp Hq. destruct (validate_nonce q n) eqn:E; [|reflexivity]. exfalso.
  apply validate_nonce_iff in Hp, E.
  destruct Hp as [Hp|(b1 & Hb1 & Hl1)]; [contradiction|]. destruct E as [E|(b2 & Hb2 & Hl2)]; [contradiction|].
  rewrite Hb1 in Hb2. inversion Hb2; subst b2. congruence.
Qed.

Definition ex_p (op hash delta nonce : Z) : pproto :=
  {| pp_max_op_size := op; pp_max_hash_len := hash; pp_max_delta_size := delta; pp_nonce_size := nonce; pp_time_delta := 7200;
     pp_hash_algs := [18%N]; pp_sig_algs := [bytes_of_string "EdDSA"]; pp_key_algs := [bytes_of_string "Ed25519"];
     pp_patches := [bytes_of_string "replace"] |}.

(* base64url(multihash(sha2-256, 32 zero bytes)): 46 characters *)
Definition ex_mh : bytes := b64_encode (mh_encode 18%N (repeat x00 32)).

Definition ex_mh2 : bytes := b64_encode (mh_encode 18%N (repeat x01 32)).
Definition ex_delta_canonical : bytes := repeat x61 50.
Definition ex_delta_hash : bytes := match calculate_model_multihash ex_delta_canonical 18%N with Some h => h | None => [] end.

Example ex_mh_len : (blen ex_mh, blen ex_mh2, blen ex_delta_hash) = (46, 46, 46). Proof. vm_compute. reflexivity. Qed.

(* inclusive and exact: accepted at 46, refused at 45 *)
Example ex_multihash_limit :
  (validate_multihash (ex_p 100 46 100 16) ex_mh, validate_multihash (ex_p 100 45 100 16) ex_mh) = (true, false).
Proof. vm_compute. reflexivity. Qed.

Definition ex_create (len : Z) : req_view :=
  {| rv_len := len; rv_schema_ok := true; rv_type := bytes_of_string "create"; rv_struct_ok := true;
     rv_did_suffix := []; rv_reveal := []; rv_signed_data := [];
     rv_signed := {| sv_compact := []; sv_hdr := {| h_json_ok := false; h_has_alg := false; h_b64 := B64Absent; h_marshal := [] |};
                     sv_hdr_names := []; sv_alg := None; sv_model_ok := false;
                     sv_key := {| jv_present := false; jv_kty := []; jv_crv := []; jv_x := []; jv_y := []; jv_nonce := []; jv_canonical := [] |};
                     sv_delta_hash := []; sv_recovery_commitment := []; sv_did_suffix := []; sv_from := 0; sv_until := 0; sv_origin_ok := true |};
     rv_delta := {| dv_present := true; dv_actions := [Some (bytes_of_string "replace")]; dv_patch_valid := [true];
                    dv_update_commitment := ex_mh; dv_canonical := ex_delta_canonical |};
     rv_suffix := {| sf_present := true; sf_delta_hash := ex_delta_hash; sf_recovery_commitment := ex_mh2;
                     sf_canonical := bytes_of_string "{}"; sf_origin_ok := true |} |}.

(* the size gate: a 100-byte request under limits 100 / 99; the delta (50 bytes canonical) under limits 50 / 49
   in batch mode, where only the size gate applies *)
Example ex_size_gate :
  (is_some_b (parse_operation (ex_p 100 46 50 16) true true (ex_create 100)),
   is_some_b (parse_operation (ex_p 99 46 50 16) true true (ex_create 100)),
   is_some_b (parse_operation (ex_p 100 46 49 16) true true (ex_create 100)),
   validate_delta (ex_p 100 46 50 16) (rv_delta (ex_create 100)),
   validate_delta (ex_p 100 46 49 16) (rv_delta (ex_create 100)))
  = (true, false, true, true, false).
Proof. vm_compute. reflexivity. Qed.

(* the hypotheses of the threshold / independence theorems hold for these protocols *)
Example ex_differ :
  differ_only_op_size (ex_p 100 46 50 16) (ex_p 99 46 50 16) /\ differ_only_hash_len (ex_p 100 46 50 16) (ex_p 100 45 50 16) /\
  differ_only_delta_size (ex_p 100 46 50 16) (ex_p 100 46 49 16) /\ differ_only_nonce_size (ex_p 100 46 50 16) (ex_p 100 46 50 8).
Proof. unfold differ_only_op_size, differ_only_hash_len, differ_only_delta_size, differ_only_nonce_size, same_algs. cbn. tauto. Qed.

(* at intake the delta size and the hash length of delta.updateCommitment are guarded too: inclusive and exact *)
Example ex_intake_limits :
  (is_some_b (parse_operation (ex_p 100 46 50 16) false true (ex_create 100)),
   is_some_b (parse_operation (ex_p 100 46 49 16) false true (ex_create 100)),
   is_some_b (parse_operation (ex_p 100 45 50 16) false true (ex_create 100)),
   existsb (hash_len_guard (ex_p 100 45 50 16)) (checked_hash_fields false (ex_create 100)),
   delta_size_checked false (ex_create 100) && delta_size_guard (ex_p 100 46 49 16) (ex_create 100))
  = (true, false, false, true, true).
Proof. vm_compute. reflexivity. Qed.
