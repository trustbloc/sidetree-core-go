(* Proofs about the anchoring-time window (C05). *)
From Coq Require Import ZArith Bool Lia.
From SV Require Import Parser.Window.
Local Open Scope Z_scope.

Lemma in_window_spec d f u a :
  in_window d f u a = true <-> (f = 0 /\ u = 0) \/ (f <= a /\ a <= eff_until d f u).
Proof.
  unfold in_window.
  destruct (f =? 0) eqn:Hf; destruct (u =? 0) eqn:Hu; cbn [andb];
    try (split; [intros _; left; lia | reflexivity]).
  all: destruct (f >? a) eqn:Hfa; [split; [discriminate | intros [[? ?]|[? ?]]; lia] |].
  all: destruct (eff_until d f u <? a) eqn:He; [split; [discriminate | intros [[? ?]|[? ?]]; lia] |].
  all: split; [intros _; right; lia | reflexivity].
Qed.

Lemma eff_until_default d f : f <> 0 -> eff_until d f 0 = f + d.
Proof. intros Hf. unfold eff_until. destruct (f =? 0) eqn:E; [lia | reflexivity]. Qed.

Lemma eff_until_explicit d f u : u <> 0 -> eff_until d f u = u.
Proof. intros Hu. unfold eff_until. destruct (u =? 0) eqn:E; [lia |]. rewrite andb_false_r. reflexivity. Qed.

Lemma eff_until_no_from d u : eff_until d 0 u = u.
Proof. reflexivity. Qed.

Lemma in_window_none d a : in_window d 0 0 a = true.
Proof. reflexivity. Qed.

Lemma in_window_default d f a :
  f <> 0 -> (in_window d f 0 a = true <-> f <= a <= f + d).
Proof.
  intros Hf. rewrite in_window_spec, eff_until_default by assumption. lia.
Qed.

Lemma in_window_explicit d f u a :
  u <> 0 -> (in_window d f u a = true <-> f <= a <= u).
Proof.
  intros Hu. rewrite in_window_spec, eff_until_explicit by assumption. lia.
Qed.
