(* C08 - "any alteration of a long-form DID is rejected", at the level of the whole DID string.

   LongFormProofs.v shows what acceptance of ONE long-form DID means and that two accepted deltas under
   one delta hash collide.  Here:

   - longform_suffix_collision           the suffix-data analogue: two resolving long-form DIDs with the same
                                         suffix carry suffix data with the same SHA-2 digest
   - longform_same_did_suffix_collision  the same, read off the two DID strings
   - longform_same_suffix_cases          (no hypothesis on the views) case analysis for one suffix
   - longform_initial_state_unique       for one DID suffix at most ONE initial-state segment resolves - or a
                                         SHA-2 collision is exhibited, on the suffix data or on the delta
   - longform_did_unique                 ... hence at most one long-form DID string per short-form DID
   - altered_initial_state_rejected      the contrapositive

   The views of Parser/LongForm.v carry [lf_reencoded] (JCS form of the decoded create request),
   [sf_canonical] (JCS form of its suffix data), [dv_canonical] (JCS form of its delta) and
   [sf_delta_hash] (the deltaHash member of the suffix data) as SEPARATE facts.  The last three theorems need
   what connects them; this is stated as two explicit, named hypotheses about the canonicalizer
   ([reencoded_assembled], [delta_hash_in_suffix_data]) and NOT assumed silently.  Both hold for the concrete
   views in the examples at the end of the file; the first one does NOT hold of every view the code produces
   (finding F18, Parser/LongFormTypeMember.v), and without it the conclusion fails. *)
From Coq Require Import String List ZArith.
From SV Require Import Base.Bytes Hash.B64 Hash.Sha2 Hash.Multihash Hash.MultihashProofs Jws.Compact Resolve.Op
  Parser.Accept Parser.AcceptProofs Parser.LongForm Parser.LongFormProofs.
Import ListNotations.
Local Open Scope string_scope.
Local Open Scope list_scope.

(* abbreviations for the facts of the create request embedded in a long-form DID *)
Definition lf_sfc (v : longform_view) : bytes := sf_canonical (rv_suffix (lf_request v)).   (* canonical suffix data *)
Definition lf_dvc (v : longform_view) : bytes := dv_canonical (rv_delta (lf_request v)).    (* canonical delta *)
Definition lf_dhash (v : longform_view) : bytes := sf_delta_hash (rv_suffix (lf_request v)). (* suffixData.deltaHash *)
Definition lf_is_create (v : longform_view) : Prop := eqs (rv_type (lf_request v)) "create" = true.

(* two DIFFERENT byte strings with the same SHA-256 or the same SHA-512 digest *)
Definition sha2_collision (a b : bytes) : Prop :=
  a <> b /\ exists h : bytes -> bytes, (h = sha256 \/ h = sha512) /\ h a = h b.

(* the string is what stands left and right of its last colon *)
Lemma split_last_colon_app l a b : split_last_colon_go l = Some (a, b) -> l = a ++ colon :: b.
Proof.
  revert a b. induction l as [|c r IH]; intros a b; cbn [split_last_colon_go]; [discriminate|].
  destruct (split_last_colon_go r) as [[a0 b0]|] eqn:Er.
  - intros H; inversion H; subst. cbn [app]. f_equal. apply IH. reflexivity.
  - destruct (Byte.eqb c colon) eqn:Ec; [|discriminate]. intros H; inversion H; subst.
    apply Byte.byte_dec_bl in Ec. subst c. reflexivity.
Qed.

Lemma unique_suffix_valid c algs sfx : unique_suffix c algs = Some sfx -> is_valid_model_multihash c sfx = true.
Proof.
  unfold unique_suffix. destruct algs as [|a r]; [discriminate|]. apply calculated_multihash_is_valid.
Qed.

(* suffix-data analogue of longform_delta_collision.  The two DIDs may even be resolved under different
   protocol parameters (e.g. different hash algorithm lists): the multihash names its algorithm. *)
Theorem longform_suffix_collision p p' v v' sfx :
  resolve_long_form p v = LAccept sfx -> resolve_long_form p' v' = LAccept sfx ->
  lf_is_create v -> lf_is_create v' ->
  exists h : bytes -> bytes, (h = sha256 \/ h = sha512) /\ h (lf_sfc v) = h (lf_sfc v').
Proof.
  intros H1 H2 T1 T2.
  destruct (longform_binds_content _ _ _ H1 T1) as [U1 _]. destruct (longform_binds_content _ _ _ H2 T2) as [U2 _].
  eapply valid_binds_content; eapply unique_suffix_valid; eassumption.
Qed.

(* the same, read off the DID strings: same suffix part (text after the last ':' of the short form) *)
Theorem longform_same_did_suffix_collision p p' v v' sfx sfx' did seg did' seg' :
  resolve_long_form p v = LAccept sfx -> resolve_long_form p' v' = LAccept sfx' ->
  split_last_colon_go (lf_did v) = Some (did, seg) -> split_last_colon_go (lf_did v') = Some (did', seg') ->
  short_suffix did = short_suffix did' ->
  lf_is_create v -> lf_is_create v' ->
  sfx = sfx' /\ exists h : bytes -> bytes, (h = sha256 \/ h = sha512) /\ h (lf_sfc v) = h (lf_sfc v').
Proof.
  intros H1 H2 S1 S2 Hs T1 T2.
  destruct (longform_accept_characterised _ _ _ H1) as (d1 & g1 & o1 & E1 & _ & _ & _ & K1).
  destruct (longform_accept_characterised _ _ _ H2) as (d2 & g2 & o2 & E2 & _ & _ & _ & K2).
  rewrite S1 in E1. injection E1 as Ed1 _. rewrite S2 in E2. injection E2 as Ed2 _.
  assert (E : sfx = sfx') by (rewrite <- K1, <- K2, <- Ed1, <- Ed2; exact Hs).
  split; [exact E|]. rewrite <- E in H2.
  eapply longform_suffix_collision; eassumption.
Qed.

(* One suffix, two resolving long-form DIDs: what can differ.  No hypothesis connecting the facts of a
   view is used; the second case is the one such a hypothesis has to exclude. *)
Theorem longform_same_suffix_cases p p' v v' sfx :
  resolve_long_form p v = LAccept sfx -> resolve_long_form p' v' = LAccept sfx ->
  lf_is_create v -> lf_is_create v' ->
  sha2_collision (lf_sfc v) (lf_sfc v')
  \/ (lf_sfc v = lf_sfc v' /\ lf_dhash v <> lf_dhash v')          (* inconsistent views only *)
  \/ (lf_sfc v = lf_sfc v' /\ lf_dhash v = lf_dhash v' /\ sha2_collision (lf_dvc v) (lf_dvc v'))
  \/ (lf_sfc v = lf_sfc v' /\ lf_dhash v = lf_dhash v' /\ lf_dvc v = lf_dvc v').
Proof.
  intros H1 H2 T1 T2.
  destruct (list_eq_dec Byte.byte_eq_dec (lf_sfc v) (lf_sfc v')) as [Es|Ns].
  - right. destruct (list_eq_dec Byte.byte_eq_dec (lf_dhash v) (lf_dhash v')) as [Eh|Nh]; [|left; auto].
    right. destruct (list_eq_dec Byte.byte_eq_dec (lf_dvc v) (lf_dvc v')) as [Ed|Nd]; [right; auto|].
    left. split; [exact Es|]. split; [exact Eh|]. split; [exact Nd|].
    destruct (longform_binds_content _ _ _ H1 T1) as [_ V1]. destruct (longform_binds_content _ _ _ H2 T2) as [_ V2].
    fold (lf_dvc v) (lf_dhash v) in V1. fold (lf_dvc v') (lf_dhash v') in V2. rewrite <- Eh in V2.
    eapply valid_binds_content; eassumption.
  - left. split; [exact Ns|]. eapply longform_suffix_collision; eassumption.
Qed.

Section Canonicalizer.
  (* ORACLE (behaviour of pkg/canonicalizer on the CreateRequest struct, not part of the view model):
     the JCS form of a create request {"delta": D, "suffixData": S} is a function of the JCS forms of
     its two members.  JCS is compositional (an object is printed as its sorted members, each printed
     canonically), so the intended instance is [jcs_create_request] below; the theorems hold for ANY
     function, nothing is assumed about it. *)
  Variable assemble : bytes (* canonical suffix data *) -> bytes (* canonical delta *) -> bytes.

  (* HYPOTHESIS 1 about the canonicalizer, per view: the re-encoded request is assembled from the
     canonical suffix data and the canonical delta the view carries, and from nothing else.  That is so
     when the decoded CreateRequest has its "delta" and "suffixData" members only: print_canonical
     (Json/GoJson.v's [canonical_of], used by Parser/ViewOfBytes.v for sf_canonical and dv_canonical) of
     that object is [jcs_create_request (canonical_of suffix) (canonical_of delta)].  It is NOT implied by
     acceptance: the struct has a third field, Operation (json:"type,omitempty"), which a "type" member
     of the initial state fills and the re-encoding keeps.  Parser/LongFormTypeMember.v (finding F18) has
     two views taken from a run of the code that carry the same [lf_request] (hence agree on [lf_sfc],
     [lf_dvc], [lf_dhash]), differ in [lf_did] and [lf_reencoded], and resolve to the same suffix
     ([alteration_rejected_refuted]): whatever [assemble] is, one of them violates the hypothesis, and
     for this pair the conclusions of the theorems below are false. *)
  Definition reencoded_assembled (v : longform_view) : Prop :=
    lf_reencoded v = assemble (lf_sfc v) (lf_dvc v).

  (* HYPOTHESIS 2, per pair of views: deltaHash is a member of the suffix data, so equal canonical
     suffix data carry equal delta hashes.  Dischargeable from GoJson.v as well: sf_canonical is
     [canonical_of (suffix_json x)] with [sm_delta_hash x] a member of [suffix_json x], and
     GoJsonProofs.decode_canonical_text recovers the (normalised) value from its canonical text. *)
  Definition delta_hash_in_suffix_data (v v' : longform_view) : Prop :=
    lf_sfc v = lf_sfc v' -> lf_dhash v = lf_dhash v'.

  (* If two long-form DIDs with the same suffix part both resolve, their initial-state segments are
     EQUAL, or a SHA-2 collision is exhibited (on the canonical suffix data or on the canonical delta). *)
  Theorem longform_initial_state_unique p p' v v' sfx sfx' did seg did' seg' :
    resolve_long_form p v = LAccept sfx -> resolve_long_form p' v' = LAccept sfx' ->
    split_last_colon_go (lf_did v) = Some (did, seg) -> split_last_colon_go (lf_did v') = Some (did', seg') ->
    short_suffix did = short_suffix did' ->
    lf_is_create v -> lf_is_create v' ->
    reencoded_assembled v -> reencoded_assembled v' -> delta_hash_in_suffix_data v v' ->
    seg = seg' \/ sha2_collision (lf_sfc v) (lf_sfc v') \/ sha2_collision (lf_dvc v) (lf_dvc v').
  Proof.
    intros H1 H2 S1 S2 Hs T1 T2 A1 A2 Hdh.
    destruct (longform_same_did_suffix_collision _ _ _ _ _ _ _ _ _ _ H1 H2 S1 S2 Hs T1 T2) as [<- _].
    destruct (longform_accept_characterised _ _ _ H1) as (d1 & g1 & o1 & E1 & G1 & _).
    destruct (longform_accept_characterised _ _ _ H2) as (d2 & g2 & o2 & E2 & G2 & _).
    rewrite S1 in E1. injection E1 as _ Eg1. rewrite S2 in E2. injection E2 as _ Eg2.
    rewrite <- Eg1 in G1. rewrite <- Eg2 in G2.
    destruct (longform_same_suffix_cases _ _ _ _ _ H1 H2 T1 T2) as [C|[[Es Nh]|[(Es & Eh & C)|(Es & Eh & Ed)]]].
    - right. left. exact C.
    - exfalso. apply Nh. apply Hdh. exact Es.
    - right. right. exact C.
    - left. rewrite G1, G2. unfold reencoded_assembled in A1, A2. rewrite A1, A2, Es, Ed. reflexivity.
  Qed.

  (* same short-form DID: the whole long-form DID strings are equal, up to collisions *)
  Corollary longform_did_unique p p' v v' sfx sfx' did seg seg' :
    resolve_long_form p v = LAccept sfx -> resolve_long_form p' v' = LAccept sfx' ->
    split_last_colon_go (lf_did v) = Some (did, seg) -> split_last_colon_go (lf_did v') = Some (did, seg') ->
    lf_is_create v -> lf_is_create v' ->
    reencoded_assembled v -> reencoded_assembled v' -> delta_hash_in_suffix_data v v' ->
    lf_did v = lf_did v' \/ sha2_collision (lf_sfc v) (lf_sfc v') \/ sha2_collision (lf_dvc v) (lf_dvc v').
  Proof.
    intros H1 H2 S1 S2 T1 T2 A1 A2 Hdh.
    destruct (longform_initial_state_unique _ _ _ _ _ _ _ _ _ _ H1 H2 S1 S2 eq_refl T1 T2 A1 A2 Hdh) as [E|C]; [|right; exact C].
    left. rewrite (split_last_colon_app _ _ _ S1), (split_last_colon_app _ _ _ S2), E. reflexivity.
  Qed.

  (* contrapositive reading ("any alteration is rejected"): given one resolving long-form DID, a DID
     with the same short form and ANOTHER initial-state segment does not resolve - unless it exhibits a
     collision with the first one *)
  Corollary altered_initial_state_rejected p p' v v' sfx did seg seg' :
    resolve_long_form p v = LAccept sfx ->
    split_last_colon_go (lf_did v) = Some (did, seg) -> split_last_colon_go (lf_did v') = Some (did, seg') ->
    seg <> seg' ->
    lf_is_create v -> lf_is_create v' ->
    reencoded_assembled v -> reencoded_assembled v' -> delta_hash_in_suffix_data v v' ->
    ~ sha2_collision (lf_sfc v) (lf_sfc v') -> ~ sha2_collision (lf_dvc v) (lf_dvc v') ->
    forall sfx', resolve_long_form p' v' <> LAccept sfx'.
  Proof.
    intros H1 S1 S2 Hne T1 T2 A1 A2 Hdh NC1 NC2 sfx' H2.
    destruct (longform_initial_state_unique _ _ _ _ _ _ _ _ _ _ H1 H2 S1 S2 eq_refl T1 T2 A1 A2 Hdh) as [E|[C|C]]; auto.
  Qed.
End Canonicalizer.

(* Examples: concrete long-form DIDs, hashes computed inside Coq.
   JCS form of {"delta": D, "suffixData": S} from the JCS forms of D and S *)
Definition jcs_create_request (sd dl : bytes) : bytes :=
  bytes_of_string "{""delta"":" ++ dl ++ bytes_of_string ",""suffixData"":" ++ sd ++ bytes_of_string "}".

Definition ex_proto : pproto :=
  {| pp_max_op_size := 2000; pp_max_hash_len := 100; pp_max_delta_size := 1000; pp_nonce_size := 16; pp_time_delta := 7200;
     pp_hash_algs := [SHA2_256]; pp_sig_algs := [bytes_of_string "EdDSA"]; pp_key_algs := [bytes_of_string "Ed25519"];
     pp_patches := [bytes_of_string "replace"] |}.

Definition mh_of (s : String.string) : bytes :=
  match calculate_model_multihash (bytes_of_string s) SHA2_256 with Some m => m | None => [] end.

(* canonical delta with the given content marker *)
Definition ex_delta (marker : String.string) : bytes :=
  bytes_of_string "{""patches"":[{""action"":""replace"",""document"":{""x"":""" ++ bytes_of_string marker
  ++ bytes_of_string """}}],""updateCommitment"":""" ++ mh_of "update-key" ++ bytes_of_string """}".

Definition ex_dhash (dl : bytes) : bytes :=
  match calculate_model_multihash dl SHA2_256 with Some m => m | None => [] end.

Definition ex_suffix_data (dl : bytes) : bytes :=
  bytes_of_string "{""deltaHash"":""" ++ ex_dhash dl ++ bytes_of_string """,""recoveryCommitment"":""" ++ mh_of "recovery-key"
  ++ bytes_of_string """}".

Definition ex_suffix (dl : bytes) : bytes :=
  match unique_suffix (ex_suffix_data dl) [SHA2_256] with Some s => s | None => [] end.

Definition no_jwk : jwk_view := Build_jwk_view false [] [] [] [] [] [].
Definition no_signed : signed_view :=
  {| sv_compact := []; sv_hdr := {| h_json_ok := false; h_has_alg := false; h_b64 := B64Absent; h_marshal := [] |};
     sv_hdr_names := []; sv_alg := None; sv_model_ok := false; sv_key := no_jwk; sv_delta_hash := [];
     sv_recovery_commitment := []; sv_did_suffix := []; sv_from := 0; sv_until := 0; sv_origin_ok := false |}.

(* the view of the create request with delta [dl] *)
Definition ex_request (dl : bytes) : req_view :=
  {| rv_len := Z.of_nat (length (jcs_create_request (ex_suffix_data dl) dl)) + 16; rv_schema_ok := true;
     rv_type := bytes_of_string "create"; rv_struct_ok := true; rv_did_suffix := []; rv_reveal := []; rv_signed_data := [];
     rv_signed := no_signed;
     rv_delta := {| dv_present := true; dv_actions := [Some (bytes_of_string "replace")]; dv_patch_valid := [true];
                    dv_update_commitment := mh_of "update-key"; dv_canonical := dl |};
     rv_suffix := {| sf_present := true; sf_delta_hash := ex_dhash dl; sf_recovery_commitment := mh_of "recovery-key";
                     sf_canonical := ex_suffix_data dl; sf_origin_ok := true |} |}.

(* long-form DID  did:sidetree:<suffix of sfx_of>:<initial state with delta dl>  and the view of it *)
Definition ex_longform (sfx_of dl : bytes) : longform_view :=
  {| lf_did := bytes_of_string "did:sidetree:" ++ ex_suffix sfx_of ++ [colon]
               ++ b64_encode (jcs_create_request (ex_suffix_data dl) dl);
     lf_has_state := true; lf_json_ok := true;
     lf_reencoded := jcs_create_request (ex_suffix_data dl) dl;
     lf_request := ex_request dl; lf_create_applies := true |}.

Definition d1 : bytes := ex_delta "one".
Definition d2 : bytes := ex_delta "two".

(* The six SHA-256 values the examples rest on, each computed once, and the strings built from them.  Everything
   below rewrites with these equations before it evaluates (d1 and d2 first, the hashes are stated on their values);
   the two hash checks of the parser are discharged by calculated_multihash_is_valid and ex_suffix_calc, without
   hashing again. *)
Definition mh_update_key : bytes := Eval vm_compute in mh_of "update-key".
Definition mh_recovery_key : bytes := Eval vm_compute in mh_of "recovery-key".
Definition delta1 : bytes := Eval vm_compute in d1.
Definition delta2 : bytes := Eval vm_compute in d2.
Definition dhash1 : bytes := Eval vm_compute in ex_dhash d1.
Definition dhash2 : bytes := Eval vm_compute in ex_dhash d2.
Definition sdata1 : bytes := Eval vm_compute in ex_suffix_data d1.
Definition sdata2 : bytes := Eval vm_compute in ex_suffix_data d2.
Definition suffix1 : bytes := Eval vm_compute in ex_suffix d1.
Definition suffix2 : bytes := Eval vm_compute in ex_suffix d2.

Lemma mh_update_key_eq : mh_of "update-key" = mh_update_key. Proof. vm_compute. reflexivity. Qed.
Lemma mh_recovery_key_eq : mh_of "recovery-key" = mh_recovery_key. Proof. vm_compute. reflexivity. Qed.
Lemma delta1_eq : d1 = delta1. Proof. unfold d1, ex_delta. rewrite mh_update_key_eq. reflexivity. Qed.
Lemma delta2_eq : d2 = delta2. Proof. unfold d2, ex_delta. rewrite mh_update_key_eq. reflexivity. Qed.
Lemma dhash1_eq : ex_dhash delta1 = dhash1. Proof. vm_compute. reflexivity. Qed.
Lemma dhash2_eq : ex_dhash delta2 = dhash2. Proof. vm_compute. reflexivity. Qed.
Lemma sdata1_eq : ex_suffix_data delta1 = sdata1.
Proof. unfold ex_suffix_data. rewrite dhash1_eq, mh_recovery_key_eq. reflexivity. Qed.
Lemma sdata2_eq : ex_suffix_data delta2 = sdata2.
Proof. unfold ex_suffix_data. rewrite dhash2_eq, mh_recovery_key_eq. reflexivity. Qed.
Lemma suffix1_eq : ex_suffix delta1 = suffix1. Proof. unfold ex_suffix. rewrite sdata1_eq. vm_compute. reflexivity. Qed.
Lemma suffix2_eq : ex_suffix delta2 = suffix2. Proof. unfold ex_suffix. rewrite sdata2_eq. vm_compute. reflexivity. Qed.

Local Hint Rewrite suffix1_eq suffix2_eq sdata1_eq sdata2_eq dhash1_eq dhash2_eq mh_recovery_key_eq mh_update_key_eq
  delta1_eq delta2_eq : ex_values.

Lemma ex_suffix_calc dl : unique_suffix (ex_suffix_data dl) [SHA2_256] = Some (ex_suffix dl).
Proof.
  unfold ex_suffix. destruct (unique_suffix (ex_suffix_data dl) [SHA2_256]) as [s|] eqn:E; [reflexivity | discriminate E].
Qed.

(* the create request of the examples parses as soon as its three computable checks pass *)
Lemma ex_parse dl :
  validate_suffix_data ex_proto (rv_suffix (ex_request dl)) = true -> validate_delta ex_proto (rv_delta (ex_request dl)) = true ->
  (rv_len (ex_request dl) >? 2000)%Z = false ->
  parse_operation ex_proto false true (ex_request dl) = Some {| po_ty := Create; po_suffix := ex_suffix dl; po_reveal := [] |}.
Proof.
  intros Hs Hd Hl. rewrite parse_operation_create, parse_create_eq by reflexivity.
  change (pp_max_op_size ex_proto) with 2000%Z. rewrite Hl, Hs, Hd.
  cbn [rv_schema_ok rv_struct_ok ex_request rv_suffix rv_delta sf_origin_ok dv_canonical sf_delta_hash sf_canonical
       dv_update_commitment sf_recovery_commitment negb andb orb].
  rewrite (calculated_multihash_is_valid dl SHA2_256 (ex_dhash dl) eq_refl).
  change (pp_hash_algs ex_proto) with [SHA2_256]. rewrite ex_suffix_calc, mh_update_key_eq, mh_recovery_key_eq. reflexivity.
Qed.

Lemma ex_parse_d1 :
  parse_operation ex_proto false true (ex_request d1) = Some {| po_ty := Create; po_suffix := ex_suffix d1; po_reveal := [] |}.
Proof. apply ex_parse; cbn [ex_request rv_suffix rv_delta rv_len]; autorewrite with ex_values; vm_compute; reflexivity. Qed.

Lemma ex_parse_d2 :
  parse_operation ex_proto false true (ex_request d2) = Some {| po_ty := Create; po_suffix := ex_suffix d2; po_reveal := [] |}.
Proof. apply ex_parse; cbn [ex_request rv_suffix rv_delta rv_len]; autorewrite with ex_values; vm_compute; reflexivity. Qed.

(* a genuine long-form DID resolves, to the suffix computed from its suffix data *)
Example genuine_resolves : resolve_long_form ex_proto (ex_longform d1 d1) = LAccept (ex_suffix d1).
Proof.
  unfold resolve_long_form, initial_state_ok. cbn [ex_longform lf_has_state lf_did lf_request lf_create_applies lf_json_ok lf_reencoded].
  rewrite ex_parse_d1. cbn [po_suffix]. autorewrite with ex_values. vm_compute. reflexivity.
Qed.

Example genuine_resolves_2 :
  resolve_long_form ex_proto (ex_longform d2 d2) = LAccept (ex_suffix d2) /\ ex_suffix d1 <> ex_suffix d2.
Proof.
  split; [|rewrite delta1_eq, delta2_eq, suffix1_eq, suffix2_eq; discriminate].
  unfold resolve_long_form, initial_state_ok. cbn [ex_longform lf_has_state lf_did lf_request lf_create_applies lf_json_ok lf_reencoded].
  rewrite ex_parse_d2. cbn [po_suffix]. autorewrite with ex_values. vm_compute. reflexivity.
Qed.

(* the altered DID: suffix of the first, initial state of the second (canonically encoded, self-consistent) *)
Example altered_rejected : resolve_long_form ex_proto (ex_longform d1 d2) = LReject.
Proof.
  unfold resolve_long_form, initial_state_ok. cbn [ex_longform lf_has_state lf_did lf_request lf_create_applies lf_json_ok lf_reencoded].
  rewrite ex_parse_d2. cbn [po_suffix]. autorewrite with ex_values. vm_compute. reflexivity.
Qed.

(* all hypotheses of longform_initial_state_unique hold for the genuine DID (taken twice, and against the
   second genuine one as far as the per-view / per-pair hypotheses are concerned) *)
Example hypotheses_hold :
  let v := ex_longform d1 d1 in let v' := ex_longform d2 d2 in
  lf_is_create v /\ lf_is_create v' /\
  reencoded_assembled jcs_create_request v /\ reencoded_assembled jcs_create_request v' /\
  delta_hash_in_suffix_data v v /\ delta_hash_in_suffix_data v v' /\
  exists did seg, split_last_colon_go (lf_did v) = Some (did, seg) /\ short_suffix did = ex_suffix d1.
Proof.
  cbn zeta. split; [reflexivity|]. split; [reflexivity|].
  split; [reflexivity|]. split; [reflexivity|]. split; [intros _; reflexivity|].
  split; [unfold delta_hash_in_suffix_data, lf_sfc; cbn [ex_longform lf_request ex_request rv_suffix sf_canonical]; autorewrite with ex_values;
          intros H; exfalso; revert H; vm_compute; discriminate|].
  cbn [ex_longform lf_did]. autorewrite with ex_values. eexists. eexists. split; vm_compute; reflexivity.
Qed.

Print Assumptions split_last_colon_app.
Print Assumptions longform_suffix_collision.
Print Assumptions longform_same_did_suffix_collision.
Print Assumptions longform_same_suffix_cases.
Print Assumptions longform_initial_state_unique.
Print Assumptions longform_did_unique.
Print Assumptions altered_initial_state_rejected.
