(* C08: a long-form DID resolves only if its initial state is canonically encoded, its suffix is the
   hash of the embedded suffix data and the embedded delta matches the delta hash. *)
From Coq Require Import String List ZArith Bool.
From SV Require Import Base.Bytes Base.BytesFacts Hash.B64 Hash.Multihash Hash.MultihashProofs Jws.Compact
  Parser.Accept Parser.AcceptProofs Parser.LongForm.
Import ListNotations.
Local Open Scope string_scope.
Local Open Scope list_scope.

Theorem longform_accept_characterised p v sfx :
  resolve_long_form p v = LAccept sfx ->
  exists did seg o,
    split_last_colon_go (lf_did v) = Some (did, seg) /\
    (* canonically encoded *)
    seg = b64_encode (lf_reencoded v) /\
    parse_operation p false true (lf_request v) = Some o /\ po_suffix o = sfx /\
    (* suffix of the DID = suffix derived from the embedded suffix data *)
    short_suffix did = sfx.
Proof.
  unfold resolve_long_form. destruct (lf_has_state v); cbn [negb]; [|discriminate].
  destruct (split_last_colon_go (lf_did v)) as [[did seg]|] eqn:Es; [|discriminate].
  destruct (initial_state_ok seg v) eqn:Ei; cbn [negb]; [|discriminate].
  destruct (bytes_eqb (short_suffix did) []); [discriminate|].
  destruct (parse_operation p false true (lf_request v)) as [o|] eqn:Ep; [|discriminate].
  destruct (bytes_eqb (short_suffix did) (po_suffix o)) eqn:Eq; cbn [negb]; [|discriminate].
  destruct (lf_create_applies v); cbn [negb]; [|discriminate].
  intros H; inversion H; subst. exists did, seg, o. split; [reflexivity|].
  unfold initial_state_ok in Ei. destruct (b64_decode seg); [|discriminate].
  apply andb_true_iff in Ei. destruct Ei as [_ Ee]. apply bytes_eqb_eq in Ee. apply bytes_eqb_eq in Eq. auto.
Qed.

(* when the embedded request is a create: suffix and delta hash bind the content *)
Theorem longform_binds_content p v sfx :
  resolve_long_form p v = LAccept sfx -> eqs (rv_type (lf_request v)) "create" = true ->
  unique_suffix (sf_canonical (rv_suffix (lf_request v))) (pp_hash_algs p) = Some sfx /\
  is_valid_model_multihash (dv_canonical (rv_delta (lf_request v))) (sf_delta_hash (rv_suffix (lf_request v))) = true.
Proof.
  intros H Hty. destruct (longform_accept_characterised _ _ _ H) as (did & seg & o & _ & _ & Hp & Hs & _).
  unfold parse_operation in Hp. destruct (rv_len (lf_request v) >? pp_max_op_size p)%Z; [discriminate|].
  destruct (rv_schema_ok (lf_request v)); [|discriminate]. cbn [negb] in Hp. rewrite Hty in Hp.
  destruct (create_accept_implies_rules _ _ _ Hp) as (_ & _ & _ & _ & _ & Hh & _ & _ & Hu). subst. auto.
Qed.

(* a non-canonical encoding of the initial state is rejected *)
Theorem non_canonical_initial_state_rejected p v did seg :
  lf_has_state v = true -> split_last_colon_go (lf_did v) = Some (did, seg) ->
  seg <> b64_encode (lf_reencoded v) -> resolve_long_form p v = LReject.
Proof.
  intros Hs Hsp Hne. unfold resolve_long_form. rewrite Hs, Hsp. cbn [negb].
  unfold initial_state_ok. destruct (b64_decode seg); [|reflexivity].
  destruct (bytes_eqb (b64_encode (lf_reencoded v)) seg) eqn:E; [apply bytes_eqb_eq in E; congruence|].
  rewrite andb_false_r. reflexivity.
Qed.

(* two delta contents accepted under the same delta hash have the same digest: a collision when they differ *)
Theorem longform_delta_collision p v v' sfx sfx' :
  resolve_long_form p v = LAccept sfx -> resolve_long_form p v' = LAccept sfx' ->
  eqs (rv_type (lf_request v)) "create" = true -> eqs (rv_type (lf_request v')) "create" = true ->
  sf_delta_hash (rv_suffix (lf_request v)) = sf_delta_hash (rv_suffix (lf_request v')) ->
  exists h, (h = Sha2.sha256 \/ h = Sha2.sha512) /\
            h (dv_canonical (rv_delta (lf_request v))) = h (dv_canonical (rv_delta (lf_request v'))).
Proof.
  intros H1 H2 T1 T2 He.
  destruct (longform_binds_content _ _ _ H1 T1) as [_ V1]. destruct (longform_binds_content _ _ _ H2 T2) as [_ V2].
  rewrite <- He in V2. exact (valid_binds_content _ _ _ V1 V2).
Qed.
