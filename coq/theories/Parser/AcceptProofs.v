(* C10 / C12: what acceptance by the operation parser implies. *)
From Coq Require Import String List ZArith Bool Lia.
From SV Require Import Base.Bytes Base.BytesFacts Hash.B64 Hash.Multihash Hash.MultihashProofs Jws.Compact Resolve.Op
  Parser.Accept.
Import ListNotations.
Local Open Scope string_scope.
Local Open Scope list_scope.
Local Open Scope Z_scope.

Lemma bmem_In x l : bmem x l = true <-> In x l.
Proof. apply existsb_bytes_eqb. Qed.

Lemma gtb_false_iff a b : (a >? b) = false <-> a <= b.
Proof. rewrite Z.gtb_ltb, Z.ltb_ge. reflexivity. Qed.

(* the checks of validateMultihash and ValidateDelta as conjunctions *)
Lemma validate_multihash_eq p mh :
  validate_multihash p mh = negb (blen mh >? pp_max_hash_len p) && is_computed_using mh (pp_hash_algs p).
Proof. unfold validate_multihash. destruct (blen mh >? pp_max_hash_len p); reflexivity. Qed.

Lemma validate_delta_eq p d :
  validate_delta p d =
  dv_present d && negb (match dv_actions d with [] => true | _ => false end)
  && patches_ok p (dv_actions d) (dv_patch_valid d) && validate_multihash p (dv_update_commitment d)
  && negb (blen (dv_canonical d) >? pp_max_delta_size p).
Proof. unfold validate_delta. destruct (dv_present d); [|reflexivity]. destruct (dv_actions d); reflexivity. Qed.

Lemma is_computed_using_iff s algs :
  is_computed_using s algs = true <-> exists c, get_multihash_code s = Some c /\ In c algs.
Proof.
  unfold is_computed_using. destruct (get_multihash_code s) as [c|].
  - rewrite existsb_exists. split.
    + intros (c' & Hin & He). apply N.eqb_eq in He. subst c'. eauto.
    + intros (c' & [= <-] & Hin). exists c. split; [exact Hin | apply N.eqb_refl].
  - split; [discriminate | intros (c & Hc & _); discriminate].
Qed.

(* a hash field that passed validation: within the length limit, well-formed multihash of an
   allowed algorithm *)
Definition hash_field_ok (p : pproto) (mh : bytes) : Prop :=
  blen mh <= pp_max_hash_len p /\
  exists code digest, get_multihash mh = Some (code, digest) /\ In code (pp_hash_algs p).

Lemma validate_multihash_ok p mh : validate_multihash p mh = true -> hash_field_ok p mh.
Proof.
  rewrite validate_multihash_eq, andb_true_iff, negb_true_iff, gtb_false_iff, is_computed_using_iff.
  intros (Hl & c & Hc & Hin). split; [exact Hl|]. unfold get_multihash_code in Hc.
  destruct (get_multihash mh) as [[code digest]|]; [|discriminate]. inversion Hc; subst. eauto.
Qed.

Lemma validate_multihash_limit_exact p mh :
  validate_multihash p mh = true -> blen mh <= pp_max_hash_len p.
Proof. intros H. apply validate_multihash_ok in H. apply H. Qed.

Lemma over_long_hash_rejected p mh : blen mh > pp_max_hash_len p -> validate_multihash p mh = false.
Proof. intros H. rewrite validate_multihash_eq. apply Z.gtb_gt in H. rewrite H. reflexivity. Qed.

(* a delta that passed validation *)
Definition delta_ok (p : pproto) (d : delta_view) : Prop :=
  dv_present d = true /\ dv_actions d <> [] /\
  blen (dv_canonical d) <= pp_max_delta_size p /\
  hash_field_ok p (dv_update_commitment d) /\
  Forall (fun a => exists x, a = Some x /\ In x (pp_patches p)) (dv_actions d) /\
  (length (dv_actions d) <= length (dv_patch_valid d))%nat /\
  Forall (fun b => b = true) (firstn (length (dv_actions d)) (dv_patch_valid d)).

Lemma patches_ok_spec p acts : forall valid,
  patches_ok p acts valid = true ->
  Forall (fun a => exists x, a = Some x /\ In x (pp_patches p)) acts /\
  (length acts <= length valid)%nat /\ Forall (fun b => b = true) (firstn (length acts) valid).
Proof.
  induction acts as [|a r IH]; intros valid H; cbn [patches_ok] in H.
  - repeat split; [constructor | cbn; lia | constructor].
  - destruct valid as [|v vr]; [discriminate|].
    apply andb_true_iff in H. destruct H as [H Hr]. apply andb_true_iff in H. destruct H as [Ha Hv].
    destruct (IH vr Hr) as (H1 & H2 & H3). repeat split.
    + constructor; [|exact H1]. unfold action_enabled in Ha. destruct a as [x|]; [|discriminate].
      exists x. split; [reflexivity | apply bmem_In; exact Ha].
    + cbn. lia.
    + cbn [length firstn]. constructor; assumption.
Qed.

Lemma validate_delta_ok p d : validate_delta p d = true -> delta_ok p d.
Proof.
  rewrite validate_delta_eq, !andb_true_iff, !negb_true_iff, gtb_false_iff. intros ((((Hpr & Ha) & Hp) & Hm) & Hs).
  destruct (patches_ok_spec _ _ _ Hp) as (H1 & H2 & H3).
  split; [exact Hpr|]. split; [destruct (dv_actions d); discriminate|]. split; [exact Hs|].
  split; [apply validate_multihash_ok; exact Hm|]. auto.
Qed.

Lemma oversize_delta_rejected p d : blen (dv_canonical d) > pp_max_delta_size p -> validate_delta p d = false.
Proof. intros H. rewrite validate_delta_eq. apply Z.gtb_gt in H. rewrite H. apply andb_false_r. Qed.

(* signing key and protected header rules *)
Definition nonce_ok (p : pproto) (nonce : bytes) : Prop :=
  nonce = [] \/ exists b, b64_decode nonce = Some b /\ blen b = pp_nonce_size p.

Definition key_ok (p : pproto) (k : jwk_view) : Prop :=
  jv_present k = true /\ jv_crv k <> [] /\ jv_kty k <> [] /\ jv_x k <> [] /\
  In (jv_crv k) (pp_key_algs p) /\ nonce_ok p (jv_nonce k).

Lemma validate_nonce_ok p n : validate_nonce p n = true <-> nonce_ok p n.
Proof.
  unfold validate_nonce, nonce_ok. destruct n as [|x r]; cbn [is_empty]; [split; auto|].
  destruct (b64_decode (x :: r)) as [b|].
  - rewrite Z.eqb_eq. split; [eauto | intros [H|(b' & [= <-] & Hl)]; [discriminate H | exact Hl]].
  - split; [discriminate | intros [H|(b' & Hb & _)]; discriminate].
Qed.

Lemma validate_signing_key_ok p k : validate_signing_key p k = true -> key_ok p k.
Proof.
  unfold validate_signing_key, key_ok. rewrite !andb_true_iff, !negb_true_iff, bmem_In, validate_nonce_ok.
  intros (((((Hp & Hc) & Hk) & Hx) & Hm) & Hn). repeat split; try assumption; intros E; rewrite E in *; discriminate.
Qed.

Definition signed_header_ok (p : pproto) (s : signed_view) : Prop :=
  sv_compact s <> [] /\ parse_compact (sv_compact s) (sv_hdr s) <> None /\
  exists a, sv_alg s = Some a /\ a <> [] /\ In a (pp_sig_algs p) /\
            Forall (fun n => allowed_header n = true) (sv_hdr_names s).

Lemma parse_signed_data_ok p s : parse_signed_data p s = true -> signed_header_ok p s.
Proof.
  unfold parse_signed_data, signed_header_ok. destruct (sv_compact s) as [|c0 cr] eqn:Ec; [discriminate|]. cbn [is_empty].
  destruct (parse_compact (c0 :: cr) (sv_hdr s)) as [x|]; [|discriminate].
  destruct (sv_alg s) as [a|]; [|discriminate]. intros H.
  apply andb_true_iff in H. destruct H as [H Hm]. apply andb_true_iff in H. destruct H as [He Hf].
  split; [discriminate|]. split; [discriminate|]. exists a. repeat split.
  - destruct a; [discriminate | discriminate].
  - apply bmem_In. exact Hm.
  - apply Forall_forall. apply forallb_forall. exact Hf.
Qed.

(* the reveal value is the hash of the signing key *)
Lemma reveal_matches_spec k reveal :
  reveal_matches k reveal = true ->
  exists code, get_multihash_code reveal = Some code /\ calculate_model_multihash (jv_canonical k) code = Some reveal.
Proof. unfold reveal_matches. apply valid_iff_is_hash. Qed.

(* no re-commit to the revealed key *)
Lemma validate_commitment_spec k next :
  validate_commitment k next = true ->
  exists code c, get_multihash_code next = Some code /\ get_commitment (jv_canonical k) code = Some c /\ c <> next.
Proof.
  unfold validate_commitment. destruct (get_multihash_code next) as [code|]; [|discriminate].
  destruct (get_commitment (jv_canonical k) code) as [c|] eqn:Ec; [|discriminate]. intros H.
  exists code, c. split; [reflexivity|]. split; [exact Ec|]. intros Heq. subst. rewrite bytes_eqb_refl in H. discriminate.
Qed.

(* acceptance at intake implies every rule and limit *)
Definition signed_rules (p : pproto) (v : req_view) : Prop :=
  rv_did_suffix v <> [] /\ hash_field_ok p (rv_reveal v) /\
  signed_header_ok p (rv_signed v) /\ sv_model_ok (rv_signed v) = true /\
  key_ok p (sv_key (rv_signed v)) /\
  exists code, get_multihash_code (rv_reveal v) = Some code /\
               calculate_model_multihash (jv_canonical (sv_key (rv_signed v))) code = Some (rv_reveal v).

Lemma request_fields_ok p v : validate_request_fields p v = true -> rv_did_suffix v <> [] /\ hash_field_ok p (rv_reveal v).
Proof.
  unfold validate_request_fields. intros H. apply andb_true_iff in H. destruct H as [H Hm].
  apply andb_true_iff in H. destruct H as [Hd _]. split; [destruct (rv_did_suffix v); discriminate | apply validate_multihash_ok; exact Hm].
Qed.

(* the five checks that the three signed parsers begin with *)
Definition signed_prefix (p : pproto) (v : req_view) : bool :=
  rv_struct_ok v && validate_request_fields p v && parse_signed_data p (rv_signed v)
  && sv_model_ok (rv_signed v) && validate_signing_key p (sv_key (rv_signed v)).

Lemma if_negb {A} (c : bool) (x : option A) : (if negb c then None else x) = if c then x else None.
Proof. destruct c; reflexivity. Qed.

Lemma if_and {A} (c d : bool) (x : option A) : (if c then if d then x else None else None) = if c && d then x else None.
Proof. destruct c; reflexivity. Qed.

Lemma if_some_iff {A} (c : bool) (x : option A) o : (if c then x else None) = Some o <-> c = true /\ x = Some o.
Proof. destruct c; split; [auto | intros [_ H]; exact H | discriminate | intros [H _]; discriminate H]. Qed.

(* the intake-only checks are skipped in batch mode: [negb b && negb c] is [negb (b || c)] *)
Lemma parse_create_eq p b v :
  parse_create p b v =
  if rv_struct_ok v && validate_suffix_data p (rv_suffix v)
     && (b || sf_origin_ok (rv_suffix v) && validate_delta p (rv_delta v)
              && is_valid_model_multihash (dv_canonical (rv_delta v)) (sf_delta_hash (rv_suffix v))
              && negb (bytes_eqb (dv_update_commitment (rv_delta v)) (sf_recovery_commitment (rv_suffix v))))
  then match unique_suffix (sf_canonical (rv_suffix v)) (pp_hash_algs p) with
       | Some s => Some {| po_ty := Create; po_suffix := s; po_reveal := [] |}
       | None => None
       end
  else None.
Proof. unfold parse_create. rewrite <- negb_orb, !if_negb, !if_and. reflexivity. Qed.

Lemma parse_update_eq p b t v :
  parse_update p b t v =
  if signed_prefix p v && validate_multihash p (sv_delta_hash (rv_signed v))
     && (b || t && validate_delta p (rv_delta v)
              && validate_commitment (sv_key (rv_signed v)) (dv_update_commitment (rv_delta v)))
     && reveal_matches (sv_key (rv_signed v)) (rv_reveal v)
  then Some {| po_ty := Update; po_suffix := rv_did_suffix v; po_reveal := rv_reveal v |} else None.
Proof. unfold parse_update, signed_prefix. rewrite <- negb_orb, !if_negb, !if_and. reflexivity. Qed.

Lemma parse_recover_eq p b t v :
  parse_recover p b t v =
  if signed_prefix p v && validate_multihash p (sv_recovery_commitment (rv_signed v))
     && validate_multihash p (sv_delta_hash (rv_signed v))
     && validate_commitment (sv_key (rv_signed v)) (sv_recovery_commitment (rv_signed v))
     && (b || sv_origin_ok (rv_signed v) && t && validate_delta p (rv_delta v)
              && negb (bytes_eqb (dv_update_commitment (rv_delta v)) (sv_recovery_commitment (rv_signed v))))
     && reveal_matches (sv_key (rv_signed v)) (rv_reveal v)
  then Some {| po_ty := Recover; po_suffix := rv_did_suffix v; po_reveal := rv_reveal v |} else None.
Proof. unfold parse_recover, signed_prefix. rewrite <- negb_orb, !if_negb, !if_and. reflexivity. Qed.

Lemma parse_deactivate_eq p b t v :
  parse_deactivate p b t v =
  if signed_prefix p v && bytes_eqb (sv_did_suffix (rv_signed v)) (rv_did_suffix v)
     && reveal_matches (sv_key (rv_signed v)) (rv_reveal v) && (b || t)
  then Some {| po_ty := Deactivate; po_suffix := rv_did_suffix v; po_reveal := rv_reveal v |} else None.
Proof. unfold parse_deactivate, signed_prefix. rewrite <- negb_orb, !if_negb, !if_and. reflexivity. Qed.

Lemma signed_prefix_rules p v :
  signed_prefix p v = true -> reveal_matches (sv_key (rv_signed v)) (rv_reveal v) = true -> signed_rules p v.
Proof.
  unfold signed_prefix. rewrite !andb_true_iff. intros ((((_ & Hf) & Hs) & Hm) & Hk) Hr.
  destruct (request_fields_ok _ _ Hf) as [Hsfx Hrev].
  split; [exact Hsfx|]. split; [exact Hrev|]. split; [apply parse_signed_data_ok, Hs|]. split; [exact Hm|].
  split; [apply validate_signing_key_ok, Hk | apply reveal_matches_spec, Hr].
Qed.

Theorem update_accept_implies_rules p t v o :
  parse_update p false t v = Some o ->
  signed_rules p v /\ t = true /\ delta_ok p (rv_delta v) /\ hash_field_ok p (sv_delta_hash (rv_signed v)) /\
  (exists code c, get_multihash_code (dv_update_commitment (rv_delta v)) = Some code /\
                  get_commitment (jv_canonical (sv_key (rv_signed v))) code = Some c /\
                  c <> dv_update_commitment (rv_delta v)) /\
  po_ty o = Update /\ po_suffix o = rv_did_suffix v.
Proof.
  rewrite parse_update_eq, if_some_iff. cbn [orb]. rewrite !andb_true_iff.
  intros [(((Hpre & Hdh) & (Ht & Hd) & Hc) & Hr) [= <-]].
  split; [exact (signed_prefix_rules _ _ Hpre Hr)|]. split; [exact Ht|]. split; [apply validate_delta_ok, Hd|].
  split; [apply validate_multihash_ok, Hdh|]. split; [apply validate_commitment_spec, Hc | auto].
Qed.

Theorem recover_accept_implies_rules p t v o :
  parse_recover p false t v = Some o ->
  signed_rules p v /\ t = true /\ sv_origin_ok (rv_signed v) = true /\ delta_ok p (rv_delta v) /\
  hash_field_ok p (sv_delta_hash (rv_signed v)) /\ hash_field_ok p (sv_recovery_commitment (rv_signed v)) /\
  (exists code c, get_multihash_code (sv_recovery_commitment (rv_signed v)) = Some code /\
                  get_commitment (jv_canonical (sv_key (rv_signed v))) code = Some c /\
                  c <> sv_recovery_commitment (rv_signed v)) /\
  dv_update_commitment (rv_delta v) <> sv_recovery_commitment (rv_signed v) /\
  po_ty o = Recover /\ po_suffix o = rv_did_suffix v.
Proof.
  rewrite parse_recover_eq, if_some_iff. cbn [orb]. rewrite !andb_true_iff, negb_true_iff, bytes_eqb_neq.
  intros [(((((Hpre & Hrc) & Hdh) & Hc) & ((Ho & Ht) & Hd) & Hne) & Hr) [= <-]].
  split; [exact (signed_prefix_rules _ _ Hpre Hr)|]. split; [exact Ht|]. split; [exact Ho|].
  split; [apply validate_delta_ok, Hd|]. split; [apply validate_multihash_ok, Hdh|].
  split; [apply validate_multihash_ok, Hrc|]. split; [apply validate_commitment_spec, Hc | auto].
Qed.

Theorem deactivate_accept_implies_rules p t v o :
  parse_deactivate p false t v = Some o ->
  signed_rules p v /\ t = true /\ sv_did_suffix (rv_signed v) = rv_did_suffix v /\
  po_ty o = Deactivate /\ po_suffix o = rv_did_suffix v.
Proof.
  rewrite parse_deactivate_eq, if_some_iff. cbn [orb]. rewrite !andb_true_iff, bytes_eqb_eq.
  intros [(((Hpre & He) & Hr) & Ht) [= <-]]. split; [exact (signed_prefix_rules _ _ Hpre Hr) | auto].
Qed.

Theorem create_accept_implies_rules p v o :
  parse_create p false v = Some o ->
  sf_present (rv_suffix v) = true /\ hash_field_ok p (sf_recovery_commitment (rv_suffix v)) /\
  hash_field_ok p (sf_delta_hash (rv_suffix v)) /\ sf_origin_ok (rv_suffix v) = true /\
  delta_ok p (rv_delta v) /\
  is_valid_model_multihash (dv_canonical (rv_delta v)) (sf_delta_hash (rv_suffix v)) = true /\
  dv_update_commitment (rv_delta v) <> sf_recovery_commitment (rv_suffix v) /\
  po_ty o = Create /\ unique_suffix (sf_canonical (rv_suffix v)) (pp_hash_algs p) = Some (po_suffix o).
Proof.
  rewrite parse_create_eq, if_some_iff. unfold validate_suffix_data. cbn [orb]. rewrite !andb_true_iff, negb_true_iff, bytes_eqb_neq.
  intros [((_ & (Hp & Hrc) & Hdh) & ((Ho & Hd) & Hh) & Hne) Hu].
  destruct (unique_suffix (sf_canonical (rv_suffix v)) (pp_hash_algs p)) as [s|]; [injection Hu as <- | discriminate].
  split; [exact Hp|]. split; [apply validate_multihash_ok, Hrc|]. split; [apply validate_multihash_ok, Hdh|].
  split; [exact Ho|]. split; [apply validate_delta_ok, Hd | auto].
Qed.

(* the size gate comes first, for every type and every mode *)
Theorem oversize_request_rejected p b t v : rv_len v > pp_max_op_size p -> parse_operation p b t v = None.
Proof. intros H. unfold parse_operation. apply Z.gtb_gt in H. rewrite H. reflexivity. Qed.

Theorem accepted_request_within_size p b t v o : parse_operation p b t v = Some o -> rv_len v <= pp_max_op_size p.
Proof.
  unfold parse_operation. destruct (rv_len v >? pp_max_op_size p) eqn:E; [discriminate|]. intros _. apply gtb_false_iff, E.
Qed.

(* a request of known type: the size gate, the schema check, then the parser of that type *)
Lemma parse_operation_create p b t v :
  rv_type v = bytes_of_string "create" ->
  parse_operation p b t v = if negb (rv_len v >? pp_max_op_size p) && rv_schema_ok v then parse_create p b v else None.
Proof. intros E. unfold parse_operation. rewrite E. destruct (_ >? _), (rv_schema_ok v); reflexivity. Qed.

Lemma parse_operation_update p b t v :
  rv_type v = bytes_of_string "update" ->
  parse_operation p b t v = if negb (rv_len v >? pp_max_op_size p) && rv_schema_ok v then parse_update p b t v else None.
Proof. intros E. unfold parse_operation. rewrite E. destruct (_ >? _), (rv_schema_ok v); reflexivity. Qed.

Lemma parse_operation_deactivate p b t v :
  rv_type v = bytes_of_string "deactivate" ->
  parse_operation p b t v = if negb (rv_len v >? pp_max_op_size p) && rv_schema_ok v then parse_deactivate p b t v else None.
Proof. intros E. unfold parse_operation. rewrite E. destruct (_ >? _), (rv_schema_ok v); reflexivity. Qed.

Lemma parse_operation_recover p b t v :
  rv_type v = bytes_of_string "recover" ->
  parse_operation p b t v = if negb (rv_len v >? pp_max_op_size p) && rv_schema_ok v then parse_recover p b t v else None.
Proof. intros E. unfold parse_operation. rewrite E. destruct (_ >? _), (rv_schema_ok v); reflexivity. Qed.

Theorem parse_operation_dispatch p b t v o :
  parse_operation p b t v = Some o ->
  rv_schema_ok v = true /\
  ((eqs (rv_type v) "create" = true /\ parse_create p b v = Some o) \/
   (eqs (rv_type v) "update" = true /\ parse_update p b t v = Some o) \/
   (eqs (rv_type v) "deactivate" = true /\ parse_deactivate p b t v = Some o) \/
   (eqs (rv_type v) "recover" = true /\ parse_recover p b t v = Some o)).
Proof.
  unfold parse_operation. destruct (rv_len v >? pp_max_op_size p); [discriminate|].
  destruct (rv_schema_ok v); cbn [negb]; [|discriminate]. intros H. split; [reflexivity|].
  destruct (eqs (rv_type v) "create"); [left; auto|].
  destruct (eqs (rv_type v) "update"); [right; left; auto|].
  destruct (eqs (rv_type v) "deactivate"); [right; right; left; auto|].
  destruct (eqs (rv_type v) "recover"); [right; right; right; auto | discriminate].
Qed.

(* every per-type parser checks the struct decoding first *)
Lemma accepted_struct_ok p b t v o : parse_operation p b t v = Some o -> rv_struct_ok v = true.
Proof.
  intros H. destruct (parse_operation_dispatch _ _ _ _ _ H) as [_ [[_ P]|[[_ P]|[[_ P]|[_ P]]]]];
    [unfold parse_create in P | unfold parse_update in P | unfold parse_deactivate in P | unfold parse_recover in P];
    destruct (rv_struct_ok v); (reflexivity || discriminate).
Qed.
