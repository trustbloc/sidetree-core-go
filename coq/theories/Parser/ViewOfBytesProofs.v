(* Theorems about the view computed from the request bytes (Parser/ViewOfBytes.v): the parser model run on BYTES.
   The view is a function of the length of the buffer and of the syntax tree; for a buffer that is the JCS text of a
   value it is a function of that value.  Acceptance of a byte string implies the rules of Parser/AcceptProofs.v,
   stated on what the bytes decode to.  Examples on a real update request at the end. *)
From Coq Require Import String List ZArith Bool Lia.
From Coq.Strings Require Import Byte.
From SV Require Import Base.Bytes Base.BytesFacts Hash.B64 Hash.Multihash Json.Ast Json.Jcs Json.JcsProofs Json.GoJson
  Json.GoJsonProofs Jws.Compact Resolve.Op Parser.Accept Parser.AcceptProofs Parser.ViewOfBytes.
Import ListNotations.
Local Open Scope string_scope.
Local Open Scope list_scope.
Local Open Scope Z_scope.

Theorem view_depends_on_tree : forall b1 b2 valid origin,
  std_parse b1 = std_parse b2 -> length b1 = length b2 ->
  view_of_request b1 valid origin = view_of_request b2 valid origin.
Proof. intros b1 b2 valid origin Ht Hl. unfold view_of_request, decode_request. now rewrite Ht, Hl. Qed.

(* a buffer that is the canonical (JCS) text of a value, white space after it allowed: the view is the view of the
   tree [ec v] of the normalised value *)
Theorem canonical_request_view : forall v ws valid origin,
  gwfb v = true -> top_shapeb v = true -> (jdepth v <=? 10000)%N = true -> all_space ws = true ->
  view_of_request (print_canonical v ++ ws) valid origin
  = view_of_dreq (decode_tree (Z.of_nat (length (print_canonical v ++ ws))) (Some (ec v))) valid origin.
Proof.
  intros v ws valid origin H1 H2 H3 H4. unfold view_of_request, decode_request. f_equal. f_equal.
  pose proof (gwfb_sound _ H1) as Hw. unfold std_parse, go_parse.
  assert (Hrt : forall x, gwf x -> rt x) by (apply rt_all).
  pose proof (fsize_le_g v Hw) as Hf.
  assert (Hfuel : (fsize v <= go_fuel (print_canonical v ++ ws))%nat) by (unfold go_fuel; rewrite app_length; lia).
  assert (Hd : depth_fits std_limit 0 v) by (cbn [std_limit depth_fits]; apply N.leb_le in H3; lia).
  assert (E : pvalue (go_fuel (print_canonical v ++ ws)) std_limit 0 (print_canonical v ++ ws) = Some (ec v, ws)).
  { destruct (top_shapeb_sound _ H2) as [[l ->]|[m ->]].
    - pose proof Hw as Hw'. apply gwf_arr in Hw'. apply rt_arr; try assumption.
      rewrite Forall_forall in *. intros x Hx. apply Hrt. now apply Hw'.
    - pose proof Hw as Hw'. apply gwf_obj in Hw'. destruct Hw' as [_ Hall]. apply rt_obj; try assumption.
      rewrite Forall_forall in *. intros x Hx. apply Hrt. now apply Hall. }
  rewrite E. now rewrite (skip_ws_all_space _ H4).
Qed.

(* values with the same normal form have the SAME canonical text (JcsProofs.print_cnorm): what varies between the two
   buffers is the white space after it *)
Corollary same_value_same_view : forall v1 v2 ws1 ws2 valid origin,
  gwfb v1 = true -> top_shapeb v1 = true -> (jdepth v1 <=? 10000)%N = true -> all_space ws1 = true ->
  gwfb v2 = true -> top_shapeb v2 = true -> (jdepth v2 <=? 10000)%N = true -> all_space ws2 = true ->
  cnorm v1 = cnorm v2 -> length (print_canonical v1 ++ ws1) = length (print_canonical v2 ++ ws2) ->
  view_of_request (print_canonical v1 ++ ws1) valid origin = view_of_request (print_canonical v2 ++ ws2) valid origin.
Proof.
  intros v1 v2 ws1 ws2 valid origin A1 A2 A3 A4 B1 B2 B3 B4 Hc Hl.
  rewrite !canonical_request_view by assumption. unfold ec. now rewrite Hc, Hl.
Qed.

Lemma eqs_eq : forall a s, eqs a s = true -> a = bytes_of_string s.
Proof. intros a s H. unfold eqs in H. now apply bytes_eqb_eq in H. Qed.

(* the first decoding *)
Lemma view_schema : forall b valid origin,
  let v := view_of_request b valid origin in
  rv_len v = Z.of_nat (length b) /\ rv_type v = fst (schema_of (std_parse b)) /\ rv_schema_ok v = snd (schema_of (std_parse b)).
Proof.
  intros b valid origin. unfold view_of_request, decode_request, decode_tree.
  destruct (schema_of (std_parse b)) as [ty ok]. cbn [fst snd].
  destruct (negb ok); [repeat split|].
  destruct (eqs ty "create"). { destruct (unmarshal_tree create_member create_zero (std_parse b)); repeat split. }
  destruct (eqs ty "update"). { destruct (unmarshal_tree update_member update_zero (std_parse b)); repeat split. }
  destruct (eqs ty "recover"). { destruct (unmarshal_tree update_member update_zero (std_parse b)); repeat split. }
  destruct (eqs ty "deactivate"). { destruct (unmarshal_tree deact_member deact_zero (std_parse b)); repeat split. }
  repeat split.
Qed.

Lemma schema_members_ty_nonempty_obj : forall t, fst (schema_of t) <> [] -> exists m, t = Some (GObj m).
Proof.
  intros [[| | | | |m]|] H; cbn in H; try congruence. now exists m.
Qed.

Lemma accepted_dispatch p batch t v o :
  parse_operation p batch t v = Some o ->
  rv_len v <= pp_max_op_size p /\ rv_type v <> [] /\ rv_schema_ok v = true /\ rv_struct_ok v = true /\
  ((rv_type v = bytes_of_string "create" /\ parse_create p batch v = Some o) \/
   (rv_type v = bytes_of_string "update" /\ parse_update p batch t v = Some o) \/
   (rv_type v = bytes_of_string "deactivate" /\ parse_deactivate p batch t v = Some o) \/
   (rv_type v = bytes_of_string "recover" /\ parse_recover p batch t v = Some o)).
Proof.
  intros H. split; [exact (accepted_request_within_size _ _ _ _ _ H)|].
  destruct (parse_operation_dispatch _ _ _ _ _ H) as [Hs [[E P]|[[E P]|[[E P]|[E P]]]]]; apply eqs_eq in E;
    (split; [rewrite E; discriminate|]); (split; [exact Hs|]); (split; [exact (accepted_struct_ok _ _ _ _ _ H) | auto]).
Qed.

(* all types, both modes: an accepted byte string is within the size limit, is one JSON object of the
   encoding/json grammar, decodes without error twice, and is dispatched on its "type" member *)
Theorem accepted_bytes_dispatch : forall p batch t b valid origin o,
  parse_operation_bytes p batch t b valid origin = Some o ->
  let v := view_of_request b valid origin in
  Z.of_nat (length b) <= pp_max_op_size p /\
  (exists m, std_parse b = Some (GObj m)) /\
  rv_schema_ok v = true /\ rv_struct_ok v = true /\
  ((rv_type v = bytes_of_string "create" /\ parse_create p batch v = Some o) \/
   (rv_type v = bytes_of_string "update" /\ parse_update p batch t v = Some o) \/
   (rv_type v = bytes_of_string "deactivate" /\ parse_deactivate p batch t v = Some o) \/
   (rv_type v = bytes_of_string "recover" /\ parse_recover p batch t v = Some o)).
Proof.
  intros p batch t b valid origin o H v. unfold parse_operation_bytes in H. fold v in H.
  destruct (accepted_dispatch _ _ _ _ _ H) as (Hsz & Hne & Hs & Hst & Hd).
  destruct (view_schema b valid origin) as (Hlen & Hty & _). fold v in Hlen, Hty. rewrite Hlen in Hsz. rewrite Hty in Hne.
  split; [exact Hsz|]. split; [apply schema_members_ty_nonempty_obj, Hne|]. auto.
Qed.

Lemma eqs_refl_s : forall s, eqs (bytes_of_string s) s = true.
Proof. intro s. unfold eqs. apply bytes_eqb_refl. Qed.

(* what the view of an update / recover / deactivate / create request is, in terms of the decoded structs: the type is
   read off the first decoding (view_schema), so [decode_tree] takes the branch of that type by computation on the
   type strings *)
Lemma update_view_shape : forall b valid origin,
  let v := view_of_request b valid origin in
  rv_type v = bytes_of_string "update" -> rv_struct_ok v = true ->
  exists r, unmarshal update_member update_zero b = Some r /\
    rv_did_suffix v = ur_did r /\ rv_reveal v = ur_reveal r /\ rv_signed_data v = ur_signed r /\
    rv_delta v = delta_view_of (ur_delta r) valid /\
    rv_signed v = signed_view_of (ur_signed r) (decode_signed (ur_signed r) (bytes_of_string "update")) origin.
Proof.
  intros b valid origin v Hty Hst. destruct (view_schema b valid origin) as (_ & Hty' & _). fold v in Hty'.
  rewrite Hty in Hty'. clear Hty. subst v. unfold view_of_request, decode_request, decode_tree, unmarshal in *.
  destruct (schema_of (std_parse b)) as [ty ok]. cbn [fst] in Hty'. subst ty. destruct (negb ok); [discriminate Hst|].
  change (eqs (bytes_of_string "update") "create") with false in *.
  change (eqs (bytes_of_string "update") "update") with true in *. cbv iota in *.
  destruct (unmarshal_tree update_member update_zero (std_parse b)) as [r|]; [|discriminate Hst]. exists r. repeat split.
Qed.

Lemma recover_view_shape : forall b valid origin,
  let v := view_of_request b valid origin in
  rv_type v = bytes_of_string "recover" -> rv_struct_ok v = true ->
  exists r, unmarshal update_member update_zero b = Some r /\
    rv_did_suffix v = ur_did r /\ rv_reveal v = ur_reveal r /\ rv_signed_data v = ur_signed r /\
    rv_delta v = delta_view_of (ur_delta r) valid /\
    rv_signed v = signed_view_of (ur_signed r) (decode_signed (ur_signed r) (bytes_of_string "recover")) origin.
Proof.
  intros b valid origin v Hty Hst. destruct (view_schema b valid origin) as (_ & Hty' & _). fold v in Hty'.
  rewrite Hty in Hty'. clear Hty. subst v. unfold view_of_request, decode_request, decode_tree, unmarshal in *.
  destruct (schema_of (std_parse b)) as [ty ok]. cbn [fst] in Hty'. subst ty. destruct (negb ok); [discriminate Hst|].
  change (eqs (bytes_of_string "recover") "create") with false in *.
  change (eqs (bytes_of_string "recover") "update") with false in *.
  change (eqs (bytes_of_string "recover") "recover") with true in *. cbv iota in *.
  destruct (unmarshal_tree update_member update_zero (std_parse b)) as [r|]; [|discriminate Hst]. exists r. repeat split.
Qed.

Lemma deactivate_view_shape : forall b valid origin,
  let v := view_of_request b valid origin in
  rv_type v = bytes_of_string "deactivate" -> rv_struct_ok v = true ->
  exists r, unmarshal deact_member deact_zero b = Some r /\
    rv_did_suffix v = de_did r /\ rv_reveal v = de_reveal r /\ rv_signed_data v = de_signed r /\
    rv_signed v = signed_view_of (de_signed r) (decode_signed (de_signed r) (bytes_of_string "deactivate")) origin.
Proof.
  intros b valid origin v Hty Hst. destruct (view_schema b valid origin) as (_ & Hty' & _). fold v in Hty'.
  rewrite Hty in Hty'. clear Hty. subst v. unfold view_of_request, decode_request, decode_tree, unmarshal in *.
  destruct (schema_of (std_parse b)) as [ty ok]. cbn [fst] in Hty'. subst ty. destruct (negb ok); [discriminate Hst|].
  change (eqs (bytes_of_string "deactivate") "create") with false in *.
  change (eqs (bytes_of_string "deactivate") "update") with false in *.
  change (eqs (bytes_of_string "deactivate") "recover") with false in *.
  change (eqs (bytes_of_string "deactivate") "deactivate") with true in *. cbv iota in *.
  destruct (unmarshal_tree deact_member deact_zero (std_parse b)) as [r|]; [|discriminate Hst]. exists r. repeat split.
Qed.

Lemma create_view_shape : forall b valid origin,
  let v := view_of_request b valid origin in
  rv_type v = bytes_of_string "create" -> rv_struct_ok v = true ->
  exists r, unmarshal create_member create_zero b = Some r /\
    rv_delta v = delta_view_of (cr_delta r) valid /\ rv_suffix v = suffix_view_of (cr_suffix r) origin.
Proof.
  intros b valid origin v Hty Hst. destruct (view_schema b valid origin) as (_ & Hty' & _). fold v in Hty'.
  rewrite Hty in Hty'. clear Hty. subst v. unfold view_of_request, decode_request, decode_tree, unmarshal in *.
  destruct (schema_of (std_parse b)) as [ty ok]. cbn [fst] in Hty'. subst ty. destruct (negb ok); [discriminate Hst|].
  change (eqs (bytes_of_string "create") "create") with true in *. cbv iota in *.
  destruct (unmarshal_tree create_member create_zero (std_parse b)) as [r|]; [|discriminate Hst]. exists r. repeat split.
Qed.

Lemma sv_compact_signed_view c g origin : sv_compact (signed_view_of c g origin) = c.
Proof. unfold signed_view_of. destruct (dg_model g); reflexivity. Qed.

(* under type "recover" the payload decodes into the recover model or not at all *)
Lemma recover_signed_model c :
  match dg_model (decode_signed c (bytes_of_string "recover")) with SMUpdate _ | SMDeactivate _ => False | _ => True end.
Proof.
  unfold decode_signed. destruct (split_dots c) as [|h [|pp [|g [|? ?]]]]; cbn [dg_model]; try exact I.
  destruct (hdr_of_part h) as [[hf nm] al]. cbn [dg_model]. destruct (b64_decode pp) as [pl|]; [|exact I].
  unfold signed_model_of. change (eqs (bytes_of_string "recover") "update") with false.
  change (eqs (bytes_of_string "recover") "recover") with true. cbv iota.
  destruct (unmarshal rec_signed_member rec_signed_zero pl); exact I.
Qed.

(* a validated delta, in terms of the decoded DeltaModel and the verdict facts *)
Definition decoded_delta_ok (p : pproto) (d : option delta_m) (valid : list bool) : Prop :=
  exists x, d = Some x /\ dm_patches x <> [] /\
    blen (canonical_of (delta_json x)) <= pp_max_delta_size p /\
    hash_field_ok p (dm_upd x) /\
    Forall (fun pt => exists a, action_of pt = Some a /\ In a (pp_patches p)) (dm_patches x) /\
    (length (dm_patches x) <= length valid)%nat /\
    Forall (fun ok => ok = true) (firstn (length (dm_patches x)) valid).     (* every decoded patch passed the validator *)

Lemma delta_ok_decoded : forall p d valid, delta_ok p (delta_view_of d valid) -> decoded_delta_ok p d valid.
Proof.
  intros p d valid H. unfold delta_ok in H. destruct d as [x|]; cbn [delta_view_of dv_present] in H; [|destruct H; discriminate].
  cbn [dv_actions dv_patch_valid dv_update_commitment dv_canonical] in H.
  destruct H as (_ & Hne & Hsz & Hh & Hact & Hlen & Hval).
  exists x. split; [reflexivity|]. split; [intro E; apply Hne; now rewrite E|]. split; [exact Hsz|]. split; [exact Hh|].
  rewrite map_length in Hlen, Hval. rewrite firstn_length in Hlen.
  split; [|split; [lia|]].
  - apply Forall_forall. intros pt Hin. rewrite Forall_forall in Hact. apply (Hact (action_of pt)). now apply in_map.
  - rewrite firstn_firstn, Nat.min_id in Hval. exact Hval.
Qed.

(* an update request accepted at intake, as bytes; then the same for the other three types *)
Theorem update_bytes_accept_implies_rules : forall p t b valid origin o,
  parse_operation_bytes p false t b valid origin = Some o ->
  let v := view_of_request b valid origin in
  rv_type v = bytes_of_string "update" ->
  exists r,
    unmarshal update_member update_zero b = Some r /\                       (* the bytes decode into UpdateRequest r *)
    ur_did r <> [] /\ hash_field_ok p (ur_reveal r) /\ ur_signed r <> [] /\
    signed_rules p v /\ t = true /\
    decoded_delta_ok p (ur_delta r) valid /\
    hash_field_ok p (sv_delta_hash (rv_signed v)) /\
    (exists code c, get_multihash_code (dv_update_commitment (rv_delta v)) = Some code /\
                    get_commitment (jv_canonical (sv_key (rv_signed v))) code = Some c /\
                    c <> dv_update_commitment (rv_delta v)) /\
    po_ty o = Update /\ po_suffix o = ur_did r.
Proof.
  intros p t b valid origin o H v Hty.
  pose proof (accepted_struct_ok _ _ _ _ _ H) as Hst. pose proof H as Hp. unfold parse_operation_bytes in Hp.
  rewrite (parse_operation_update _ _ _ _ Hty), if_some_iff in Hp. destruct Hp as [_ Hp].
  destruct (update_view_shape b valid origin Hty Hst) as (r & Hr & Hdid & Hrev & Hsd & Hdv & _). fold v in Hdid, Hrev, Hsd, Hdv.
  destruct (update_accept_implies_rules _ _ _ _ Hp) as (Hsr & Ht & Hdel & Hdh & Hc & Hoty & Hosfx).
  pose proof Hsr as (Hs1 & Hs2 & (Hc0 & _) & _). rewrite Hdid in Hs1, Hosfx. rewrite Hrev in Hs2.
  unfold v, view_of_request, view_of_dreq in Hc0. cbn [rv_signed] in Hc0. rewrite sv_compact_signed_view in Hc0.
  change (rv_signed_data v <> []) in Hc0. rewrite Hsd in Hc0. rewrite Hdv in Hdel. apply delta_ok_decoded in Hdel.
  exists r. auto 15.
Qed.

Theorem recover_bytes_accept_implies_rules : forall p t b valid origin o,
  parse_operation_bytes p false t b valid origin = Some o ->
  let v := view_of_request b valid origin in
  rv_type v = bytes_of_string "recover" ->
  exists r,
    unmarshal update_member update_zero b = Some r /\
    ur_did r <> [] /\ hash_field_ok p (ur_reveal r) /\
    signed_rules p v /\ t = true /\ origin = true /\                            (* the origin plug-in accepted *)
    decoded_delta_ok p (ur_delta r) valid /\
    hash_field_ok p (sv_delta_hash (rv_signed v)) /\ hash_field_ok p (sv_recovery_commitment (rv_signed v)) /\
    (exists code c, get_multihash_code (sv_recovery_commitment (rv_signed v)) = Some code /\
                    get_commitment (jv_canonical (sv_key (rv_signed v))) code = Some c /\
                    c <> sv_recovery_commitment (rv_signed v)) /\
    dv_update_commitment (rv_delta v) <> sv_recovery_commitment (rv_signed v) /\
    po_ty o = Recover /\ po_suffix o = ur_did r.
Proof.
  intros p t b valid origin o H v Hty.
  pose proof (accepted_struct_ok _ _ _ _ _ H) as Hst. pose proof H as Hp. unfold parse_operation_bytes in Hp.
  rewrite (parse_operation_recover _ _ _ _ Hty), if_some_iff in Hp. destruct Hp as [_ Hp].
  destruct (recover_view_shape b valid origin Hty Hst) as (r & Hr & Hdid & Hrev & Hsd & Hdv & Hsv). fold v in Hdid, Hrev, Hsd, Hdv, Hsv.
  destruct (recover_accept_implies_rules _ _ _ _ Hp) as (Hsr & Ht & Ho & Hdel & Hdh & Hrc & Hc & Hne & Hoty & Hosfx).
  pose proof Hsr as (Hs1 & Hs2 & _ & Hmodel & _). rewrite Hdid in Hs1, Hosfx. rewrite Hrev in Hs2.
  rewrite Hdv in Hdel. apply delta_ok_decoded in Hdel.
  assert (Horg : origin = true).
  { (* sv_model_ok = true under type recover means the payload decoded into RecoverSignedDataModel: the verdict is the fact *)
    rewrite Hsv in Ho, Hmodel. unfold signed_view_of in Ho, Hmodel.
    pose proof (recover_signed_model (ur_signed r)) as Hm.
    destruct (dg_model (decode_signed (ur_signed r) (bytes_of_string "recover"))) as [|m|m|m]; cbn [sv_origin_ok sv_model_ok] in Ho, Hmodel;
      [discriminate Hmodel | destruct Hm | exact Ho | destruct Hm]. }
  exists r. auto 20.
Qed.

Theorem deactivate_bytes_accept_implies_rules : forall p t b valid origin o,
  parse_operation_bytes p false t b valid origin = Some o ->
  let v := view_of_request b valid origin in
  rv_type v = bytes_of_string "deactivate" ->
  exists r,
    unmarshal deact_member deact_zero b = Some r /\
    de_did r <> [] /\ hash_field_ok p (de_reveal r) /\
    signed_rules p v /\ t = true /\ sv_did_suffix (rv_signed v) = de_did r /\
    po_ty o = Deactivate /\ po_suffix o = de_did r.
Proof.
  intros p t b valid origin o H v Hty.
  pose proof (accepted_struct_ok _ _ _ _ _ H) as Hst. pose proof H as Hp. unfold parse_operation_bytes in Hp.
  rewrite (parse_operation_deactivate _ _ _ _ Hty), if_some_iff in Hp. destruct Hp as [_ Hp].
  destruct (deactivate_view_shape b valid origin Hty Hst) as (r & Hr & Hdid & Hrev & Hsd & _). fold v in Hdid, Hrev, Hsd.
  destruct (deactivate_accept_implies_rules _ _ _ _ Hp) as (Hsr & Ht & Hsfx & Hoty & Hosfx).
  pose proof Hsr as (Hs1 & Hs2 & _). rewrite Hdid in Hs1, Hsfx, Hosfx. rewrite Hrev in Hs2. exists r. auto 12.
Qed.

Theorem create_bytes_accept_implies_rules : forall p t b valid origin o,
  parse_operation_bytes p false t b valid origin = Some o ->
  let v := view_of_request b valid origin in
  rv_type v = bytes_of_string "create" ->
  exists r s,
    unmarshal create_member create_zero b = Some r /\ cr_suffix r = Some s /\
    hash_field_ok p (sm_rec s) /\ hash_field_ok p (sm_delta_hash s) /\ origin = true /\
    decoded_delta_ok p (cr_delta r) valid /\
    is_valid_model_multihash (dv_canonical (rv_delta v)) (sm_delta_hash s) = true /\   (* suffix data commits to the delta *)
    dv_update_commitment (rv_delta v) <> sm_rec s /\
    po_ty o = Create /\ unique_suffix (canonical_of (suffix_json s)) (pp_hash_algs p) = Some (po_suffix o).
Proof.
  intros p t b valid origin o H v Hty.
  pose proof (accepted_struct_ok _ _ _ _ _ H) as Hst. pose proof H as Hp. unfold parse_operation_bytes in Hp.
  rewrite (parse_operation_create _ _ _ _ Hty), if_some_iff in Hp. destruct Hp as [_ Hp].
  destruct (create_view_shape b valid origin Hty Hst) as (r & Hr & Hdv & Hsv). fold v in Hdv, Hsv.
  destruct (create_accept_implies_rules _ _ _ Hp) as (Hpres & Hrc & Hdh & Ho & Hdel & Hmh & Hne & Hoty & Hsfx).
  rewrite Hsv in Hpres, Hrc, Hdh, Ho, Hmh, Hne, Hsfx. destruct (cr_suffix r) as [s|] eqn:Es; [|discriminate Hpres].
  cbn [suffix_view_of sf_recovery_commitment sf_delta_hash sf_origin_ok sf_canonical] in *.
  rewrite Hdv in Hdel. apply delta_ok_decoded in Hdel. exists r, s. auto 15.
Qed.

(* the size gate on bytes *)
Theorem oversize_bytes_rejected : forall p batch t b valid origin,
  Z.of_nat (length b) > pp_max_op_size p -> parse_operation_bytes p batch t b valid origin = None.
Proof.
  intros p batch t b valid origin H. unfold parse_operation_bytes. apply oversize_request_rejected.
  destruct (view_schema b valid origin) as [Hlen _]. now rewrite Hlen.
Qed.

(* bytes that are not JSON for encoding/json are rejected, whatever the facts *)
Theorem invalid_json_bytes_rejected : forall p batch t b valid origin,
  std_parse b = None -> parse_operation_bytes p batch t b valid origin = None.
Proof.
  intros p batch t b valid origin H. unfold parse_operation_bytes, parse_operation.
  destruct (view_schema b valid origin) as [_ [_ Hok]]. rewrite H in Hok. cbn [schema_of snd] in Hok.
  destruct (rv_len _ >? pp_max_op_size p); [reflexivity|]. now rewrite Hok.
Qed.

(* Examples: a real update request (taken from a run of harness/cmd/gen_view, seed 1; Ed25519 key, anchorFrom) *)

Definition ex_proto : pproto :=
  Build_pproto 6000 100 3000 16 7200 [18%N; 19%N]
    (map bytes_of_string ["EdDSA"; "ES256"; "ES384"; "ES512"; "ES256K"])
    (map bytes_of_string ["Ed25519"; "P-256"; "P-384"; "P-521"; "secp256k1"])
    (map bytes_of_string ["replace"; "add-public-keys"; "remove-public-keys"; "add-services"; "remove-services"; "ietf-json-patch";
                          "add-also-known-as"; "remove-also-known-as"]).

Definition ex_request : bytes := unhex "7b2264656c7461223a7b22757064617465436f6d6d69746d656e74223a22456942524e3154784d514f576435496f5551376853327743736f66514235417333437a54667671687430432d5177222c2270617463686573223a5b7b22616374696f6e223a226164642d7075626c69632d6b657973222c227075626c69634b657973223a5b7b226964223a226b32222c227075626c69634b65794a776b223a7b22637276223a22502d323536222c226b7479223a224543222c2278223a225055796d49716474465f717861417150414253772d432d6f7754314b59595162734d4b464d2d4c39664a41222c2279223a226e4d38346a4448434d4f544754685f5a64487134644242646f345a35506b454f57396a41387a3849734763227d2c22707572706f736573223a5b2261757468656e7469636174696f6e225d2c2274797065223a224a736f6e5765624b657932303230227d5d7d5d7d2c22646964537566666978223a22456943477a64565379416c4b36554f355447564642696f436a656c424c515563306451307675476d7551766b6651222c2272657665616c56616c7565223a224569435631764c39667349614d776662785f776e37564a625f6b6f674c58324444516176354d427130654c5f5967222c227369676e656444617461223a2265794a68624763694f694a465a45525451534a392e65794a68626d4e6f62334a47636d3974496a6f7a4e544d7a4f5441774d6a4d73496d526c624852685347467a61434936496b567051323149616d566b5a6d3432583039785a584a786545524f554563324e6d3930545639704c584675656d7030624646524d6a467a5658685a5a5545694c434a31634752686447564c5a586b694f6e736959334a32496a6f69525751794e5455784f534973496d743065534936496b394c55434973496e67694f694a616355517764546c494d7a4a4c637a4a58576e563657556472596b3957626d4a71625330346544526a4e57566c4f484257576d5a4b4e586842496977696553493649694a3966512e592d4a6756494e586c624253372d3967776969575932374e456d74424e72366d37634569654f656b52312d7143656f5a495239706573394b59315a32776d717a7956687555724731486b7556466d5a33733065414477222c2274797065223a22757064617465227d".

Definition ex_view : req_view := Eval vm_compute in view_of_request ex_request [true] true.

Lemma ex_view_eq : view_of_request ex_request [true] true = ex_view.
Proof. vm_compute. reflexivity. Qed.

(* the key, the reveal value and the next commitment are the same in every variant of the request below: the SHA-256
   runs behind reveal_matches and validate_commitment are made once *)
Lemma ex_reveal_matches k r :
  k = sv_key (rv_signed ex_view) -> r = rv_reveal ex_view -> reveal_matches k r = true.
Proof. intros -> ->. vm_compute. reflexivity. Qed.

Lemma ex_commitment_ok k c :
  k = sv_key (rv_signed ex_view) -> c = dv_update_commitment (rv_delta ex_view) -> validate_commitment k c = true.
Proof. intros -> ->. vm_compute. reflexivity. Qed.

(* [on_view b l o] names the value of [view_of_request b l o] (a local definition: the record is large), dispatches to
   parse_update on it and takes the two verdicts from the lemmas above when the view has the fields of ex_view *)
Ltac on_view b l o :=
  let v := eval vm_compute in (view_of_request b l o) in
  let x := fresh "v" in pose (x := v); replace (view_of_request b l o) with x by (vm_compute; reflexivity);
  rewrite ?(parse_operation_update ex_proto false true x), ?(parse_operation_update ex_proto true true x) by reflexivity;
  rewrite ?(parse_update_eq ex_proto false true x), ?(parse_update_eq ex_proto true true x);
  rewrite ?(ex_reveal_matches (sv_key (rv_signed x)) (rv_reveal x)),
          ?(ex_commitment_ok (sv_key (rv_signed x)) (dv_update_commitment (rv_delta x))) by reflexivity.

Example ex_accepted :
  option_map (fun o => (po_ty o, po_suffix o)) (parse_operation_bytes ex_proto false true ex_request [true] true)
  = Some (Update, bytes_of_string "EiCGzdVSyAlK6UO5TGVFBioCjelBLQUc0dQ0vuGmuQvkfQ").
Proof. unfold parse_operation_bytes. on_view ex_request [true] true. vm_compute. reflexivity. Qed.

Example ex_type : rv_type (view_of_request ex_request [true] true) = bytes_of_string "update".
Proof. rewrite ex_view_eq. reflexivity. Qed.

Example ex_window :
  let s := rv_signed (view_of_request ex_request [true] true) in (sv_from s, sv_until s, sv_alg s) = (353390023, 0, Some (bytes_of_string "EdDSA")).
Proof. rewrite ex_view_eq. reflexivity. Qed.

(* the validator fact matters: with verdict false the same bytes are rejected at intake, accepted in batch mode *)
Example ex_refused_patch :
  (parse_operation_bytes ex_proto false true ex_request [false] true,
   option_map po_ty (parse_operation_bytes ex_proto true true ex_request [false] true)) = (None, Some Update).
Proof. unfold parse_operation_bytes. on_view ex_request [false] true. vm_compute. reflexivity. Qed.

(* the decoded delta satisfies the side conditions of the round-trip theorem (GoJsonProofs.decode_canonical_text_std) *)
Example ex_canonical_roundtrip :
  match dq_delta (decode_request ex_request) with
  | Some d => gwfb (delta_json d) && top_shapeb (delta_json d)
  | None => false
  end = true.
Proof. vm_compute. reflexivity. Qed.

(* the request as a value, and its canonical (JCS) text: the hypotheses of [canonical_request_view] hold, and the
   canonical text is accepted with the same result *)
Definition ex_value : json :=
  match std_parse ex_request with
  | Some t => match to_iface t with Some j => j | None => JNull end
  | None => JNull
  end.

Example ex_value_ok : gwfb ex_value && top_shapeb ex_value && (jdepth ex_value <=? 10000)%N = true.
Proof. vm_compute. reflexivity. Qed.

Example ex_canonical_text_accepted :
  option_map (fun o => (po_ty o, po_suffix o)) (parse_operation_bytes ex_proto false true (print_canonical ex_value) [true] true)
  = Some (Update, bytes_of_string "EiCGzdVSyAlK6UO5TGVFBioCjelBLQUc0dQ0vuGmuQvkfQ").
Proof. unfold parse_operation_bytes. on_view (print_canonical ex_value) [true] true. vm_compute. reflexivity. Qed.

(* decoder semantics on the same request, with an extra member put in FRONT of the others: an unknown member with an
   out-of-range number, "type":null and a member "Type" before the real "type" change nothing; "DELTA" is the member
   "delta" (names match case-insensitively), and the real "delta" that follows decodes INTO the struct that "DELTA":{}
   or "delta":null left; a non-string "signedData" is an error although the real one follows *)
Definition ex_with_extra (extra : String.string) : bytes :=
  match ex_request with
  | _ :: r => x7b :: bytes_of_string extra ++ r          (* "{" extra rest *)
  | [] => []
  end.

Example ex_delta_merge :
  map (fun e => option_map po_ty (parse_operation_bytes ex_proto false true (ex_with_extra e) [true] true))
      ["""x"":1e400,"; """DELTA"":{},"; """type"":null,"; """delta"":null,"; """Type"":""create"","; """signedData"":1,"]
  = [Some Update; Some Update; Some Update; Some Update; Some Update; None].
Proof.
  unfold parse_operation_bytes. cbn [map].
  on_view (ex_with_extra """x"":1e400,") [true] true. on_view (ex_with_extra """DELTA"":{},") [true] true.
  on_view (ex_with_extra """type"":null,") [true] true. on_view (ex_with_extra """delta"":null,") [true] true.
  on_view (ex_with_extra """Type"":""create"",") [true] true. on_view (ex_with_extra """signedData"":1,") [true] true.
  vm_compute. reflexivity.
Qed.

(* "delta":null AFTER the real member drops the patches *)
Example ex_delta_overwritten :
  option_map po_ty (parse_operation_bytes ex_proto false true
    (match rev ex_request with _ :: r => rev r ++ bytes_of_string ",""delta"":null}" | [] => [] end) [] true) = None.
Proof.
  unfold parse_operation_bytes.
  on_view (match rev ex_request with _ :: r => rev r ++ bytes_of_string ",""delta"":null}" | [] => [] end) (@nil bool) true.
  vm_compute. reflexivity.
Qed.
