(* The request view with the patch-validator verdicts COMPUTED: the C18 model of patchvalidator.Validate
   (Doc/Validator.v) is run on the patches that Parser/ViewOfBytes.v decodes from the request bytes, so that the
   list [valid] (dv_patch_valid) is not a fact supplied by the harness.  Definitions and three examples.

   How a decoded patch reaches the validator in the code
     operationparser.ValidateDelta ranges over delta.Patches ([]patch.Patch, patch.Patch = map[Key]interface{}) as
     encoding/json left them: every value is nil / bool / float64 / string / []interface{} / map[string]interface{}.
     patchvalidator.Validate works on these values by type assertion only -
       Patch.GetAction, Patch.GetValue        map lookups; a nil map (patch written as null) has no "action"
       getRequiredArray, getRequiredMap       entry.([]interface{}) / entry.(map[string]interface{})
       document.ParsePublicKeys/ParseServices, document.StringArray, ReplaceDocumentFromJSONLDObject
                                              type assertions, elements of another kind are skipped
     - with ONE exception: the ietf-json-patch validator re-marshals the value (json.Marshal of the []interface{})
     and decodes the text again with jsonpatch.DecodePatch into []map[string]*json.RawMessage, then json.Unmarshal of
     "path" / "from" into a string.  On values that come out of encoding/json this round trip is the identity for
     everything the validator looks at: numbers are finite doubles (Marshal cannot fail), strings are valid UTF-8
     (the decoder already coerced them; HTML/U+2028 escaping is undone by the second decoding), maps have no
     duplicate names, null elements become nil maps ("path not found"), a null "path" becomes a nil *RawMessage
     ("invalid path"), nesting only gets shallower.  Doc/Validator.v [jsonpatch_paths_out] is that decoding of the
     re-marshalled operations, as a function of the value.
   Hence the value handed to the validator model is the decoded map as a JSON object ([json_of_patchv]); member
   lookup by LAST occurrence ([jlast] of Doc/JsonPatch.v, used by Doc/Validator.v) and by FIRST occurrence ([jget],
   action_of in ViewOfBytes.v) agree on it because the decoder ([patch_members], jset) never produces a duplicate
   name (ViewValidatedProofs.decoded_patches_wf).

   Oracles (Section variables, as in Doc/Validator.v; behaviour of net/url, not modelled):
     uri_ok s    = true  iff  url.ParseRequestURI(s) succeeds
     uri_parse s = Some t iff url.Parse(s) succeeds and t = its String()
   The anchor-origin plug-in stays a function [ov] of the decoded anchorOrigin value. *)
From Coq Require Import String List.
From SV Require Import Base.Bytes Json.Ast Json.GoJson Doc.Validator Parser.Accept Parser.ViewOfBytes.
Import ListNotations.

(* patch.Patch as the value the validator model takes: nil map = null (no members), otherwise the object *)
Definition json_of_patchv (p : patchv) : json :=
  match p with
  | Some m => JObj m
  | None => JNull
  end.

(* the patches of the decoded delta, in order, as validator inputs *)
Definition decoded_patches (b : bytes) : list json := map json_of_patchv (dq_patches (decode_request b)).

Section Oracles.
Variable uri_ok : bytes -> bool.               (* url.ParseRequestURI succeeds *)
Variable uri_parse : bytes -> option bytes.    (* url.Parse + String() *)

(* patchvalidator.Validate(p) == nil on a decoded patch *)
Definition patch_validator (p : patchv) : bool := validate_patch uri_ok uri_parse (json_of_patchv p).

(* the verdict list, computed *)
Definition valid_of_bytes (b : bytes) : list bool := map (validate_patch uri_ok uri_parse) (decoded_patches b).

(* the view with the validator model plugged in *)
Definition validated_view (ov : option json -> bool) (b : bytes) : req_view :=
  view_of_request_with patch_validator ov b.

(* the verdict of the origin plug-in for this request (true when it is not called) *)
Definition origin_of_bytes (ov : option json -> bool) (b : bytes) : bool :=
  match dq_origin_arg (decode_request b) with Some a => ov a | None => true end.

(* the parser model on request bytes, validator included *)
Definition parse_operation_validated (p : pproto) (batch time_ok : bool) (ov : option json -> bool) (b : bytes)
  : option parsed :=
  parse_operation p batch time_ok (validated_view ov b).

(* the loop of ValidateDelta over the decoded patches, as the C18 model states it (action known, enabled, Validate) *)
Definition delta_patches_validated (p : pproto) (b : bytes) : bool :=
  validate_delta_patches uri_ok uri_parse (pp_patches p) (decoded_patches b).

End Oracles.

Local Open Scope string_scope.

(* a nil patch has no action: rejected by Validate, and GetAction fails *)
Example nil_patch_rejected :
  (patch_validator (fun _ => true) (fun u => Some u) None, action_of None) = (false, None).
Proof. reflexivity. Qed.

(* duplicate members of a patch object: the later one wins in the decoded map, for the action and for the value *)
Example duplicate_members_last_wins :
  let b := bs "{""type"":""update"",""delta"":{""patches"":[{""action"":""replace"",""ids"":[],""action"":""remove-services"",""ids"":[""a b""],""ids"":[""s1""]}]}}" in
  (decoded_patches b, valid_of_bytes (fun _ => true) (fun u => Some u) b)
  = ([JObj [(bs "action", JStr (bs "remove-services")); (bs "ids", JArr [JStr (bs "s1")])]], [true]).
Proof. vm_compute. reflexivity. Qed.

(* a second "patches" array decodes INTO the maps of the first: the validator sees the merged patch *)
Example merged_patch_is_validated :
  let b := bs "{""type"":""update"",""delta"":{""patches"":[{""action"":""ietf-json-patch""}],""patches"":[{""patches"":[{""op"":""remove"",""path"":""/service/0""}]}]}}" in
  (map (patch_action) (decoded_patches b), valid_of_bytes (fun _ => true) (fun u => Some u) b)
  = ([Some (bs "ietf-json-patch")], [false]).
Proof. vm_compute. reflexivity. Qed.
