(* The request view computed from the request BYTES (what harness/internal/world/reqview.go computes with the real
   encoding/json, go-jose and the canonicalizer).  Definitions and two examples.

   [decode_request b]  : everything the decoders make of the bytes - no facts involved
   [view_of_request b valid origin] : the [req_view] consumed by Parser.Accept.  Remaining facts:
     valid  - patchvalidator.Validate verdict per decoded patch, in order (dv_patch_valid)
     origin - verdict of the anchor-origin plug-in on the decoded anchorOrigin value; there is at most one such
              call per request (create: suffix data; recover: signed data)
   [view_of_request_with pv ov b] : the same with the two plug-ins as functions of the decoded values.
   The signature primitive is not part of the view. *)
From Coq Require Import String List ZArith.
From SV Require Import Base.Bytes Json.Ast Json.GoJson Hash.B64 Jws.Compact Parser.Accept.
Import ListNotations.
Local Open Scope string_scope.
Local Open Scope list_scope.

(* ---------- first decoding: struct { Operation string `json:"type"` } ----------
   the field is read even when Unmarshal returned an error: (value of the field, no error recorded) *)
Fixpoint schema_members (m : list (bytes * gj)) (ty : bytes) (ok : bool) : bytes * bool :=
  match m with
  | [] => (ty, ok)
  | (k, v) :: r =>
    if is_field (fold_name k) "TYPE" then
      match v with
      | GStr s => schema_members r s ok
      | GNull => schema_members r ty ok
      | _ => schema_members r ty false                         (* UnmarshalTypeError, decoding goes on *)
      end
    else schema_members r ty ok
  end.

Definition schema_of (g : option gj) : bytes * bool :=
  match g with
  | None => ([], false)
  | Some (GObj m) => schema_members m [] true
  | Some GNull => ([], true)
  | Some _ => ([], false)
  end.

(* ---------- protected header (HdrFactsOf) ---------- *)
Definition hdr_none : hdr_facts := Build_hdr_facts false false B64Absent [].

Definition b64kind_of (m : list (bytes * json)) : b64kind :=
  match jget (bs "b64") m with
  | None => B64Absent
  | Some (JBool true) => B64True
  | Some (JBool false) => B64False
  | Some _ => B64NotBool
  end.

Definition sorted_names (m : list (bytes * json)) : list bytes := map fst (sort_bytewise m).

Definition hdr_of_part (part : bytes) : hdr_facts * list bytes * option bytes :=
  match b64_decode part with
  | None => (hdr_none, [], None)
  | Some raw =>
    match jose_unmarshal_map raw with
    | None => (hdr_none, [], None)
    | Some None => (Build_hdr_facts true false B64Absent [], [], None)
    | Some (Some m) =>
      (Build_hdr_facts true (has_key (bs "alg") m) (b64kind_of m) (jose_marshal (JObj m)),
       sorted_names m,
       match jget (bs "alg") m with Some (JStr s) => Some s | _ => None end)
    end
  end.

(* ---------- signed data (SignedView) ---------- *)
Definition jwk_view_of (k : option jwk_m) : jwk_view :=
  match k with
  | None => Build_jwk_view false [] [] [] [] [] []
  | Some j => Build_jwk_view true (jk_kty j) (jk_crv j) (jk_x j) (jk_y j) (jk_nonce j) (canonical_of (jwk_json j))
  end.

(* what the payload decodes to, per operation type *)
Inductive signed_model :=
| SMNone
| SMUpdate (m : upd_signed_m)
| SMRecover (m : rec_signed_m)
| SMDeactivate (m : deact_signed_m).

Definition signed_model_of (ty : bytes) (payload : bytes) : signed_model :=
  if eqs ty "update" then
    match unmarshal upd_signed_member upd_signed_zero payload with Some m => SMUpdate m | None => SMNone end
  else if eqs ty "recover" then
    match unmarshal rec_signed_member rec_signed_zero payload with Some m => SMRecover m | None => SMNone end
  else if eqs ty "deactivate" then
    match unmarshal deact_signed_member deact_signed_zero payload with Some m => SMDeactivate m | None => SMNone end
  else SMNone.

Record dsigned := {
  dg_hdr : hdr_facts; dg_names : list bytes; dg_alg : option bytes;
  dg_model : signed_model }.

Definition decode_signed (compact ty : bytes) : dsigned :=
  match split_dots compact with
  | [h; p; _] =>
    let '(hf, names, alg) := hdr_of_part h in
    Build_dsigned hf names alg
      (match b64_decode p with
       | Some payload => signed_model_of ty payload
       | None => SMNone
       end)
  | _ => Build_dsigned hdr_none [] None SMNone
  end.

(* the anchorOrigin value handed to the plug-in by SignedView, if it is called *)
Definition signed_origin_arg (g : dsigned) : option (option json) :=
  match dg_model g with SMRecover m => Some (rs_origin m) | _ => None end.

Definition signed_view_of (compact : bytes) (g : dsigned) (origin : bool) : signed_view :=
  match dg_model g with
  | SMNone =>
    Build_signed_view compact (dg_hdr g) (dg_names g) (dg_alg g) false (jwk_view_of None) [] [] [] 0%Z 0%Z true
  | SMUpdate m =>
    Build_signed_view compact (dg_hdr g) (dg_names g) (dg_alg g) true (jwk_view_of (us_key m))
                      (us_delta_hash m) [] [] (us_from m) (us_until m) true
  | SMRecover m =>
    Build_signed_view compact (dg_hdr g) (dg_names g) (dg_alg g) true (jwk_view_of (rs_key m))
                      (rs_delta_hash m) (rs_rec m) [] (rs_from m) (rs_until m) origin
  | SMDeactivate m =>
    Build_signed_view compact (dg_hdr g) (dg_names g) (dg_alg g) true (jwk_view_of (ds_key m))
                      [] [] (ds_did m) (ds_from m) (ds_until m) true
  end.

(* ---------- delta and suffix data (deltaView, suffixView) ---------- *)
Definition known_actions : list bytes :=
  map bs ["add-public-keys"; "remove-public-keys"; "add-services"; "remove-services"; "ietf-json-patch"; "replace";
          "add-also-known-as"; "remove-also-known-as"].

(* Patch.GetAction *)
Definition action_of (p : patchv) : option bytes :=
  match p with
  | None => None
  | Some m =>
    match jget (bs "action") m with
    | Some (JStr a) => if bmem a known_actions then Some a else None
    | _ => None
    end
  end.

Definition delta_view_of (d : option delta_m) (valid : list bool) : delta_view :=
  match d with
  | None => Build_delta_view false [] [] [] []
  | Some x =>
    Build_delta_view true (map action_of (dm_patches x)) (firstn (length (dm_patches x)) valid) (dm_upd x)
                     (canonical_of (delta_json x))
  end.

Definition suffix_view_of (s : option suffix_m) (origin : bool) : suffix_view :=
  match s with
  | None => Build_suffix_view false [] [] [] true
  | Some x => Build_suffix_view true (sm_delta_hash x) (sm_rec x) (canonical_of (suffix_json x)) origin
  end.

(* ---------- the request (ReqView) ---------- *)
Record dreq := {
  dq_len : Z;
  dq_schema_ok : bool;
  dq_type : bytes;
  dq_struct_ok : bool;
  dq_did : bytes; dq_reveal : bytes; dq_signed_data : bytes;
  dq_delta : option delta_m;
  dq_suffix : option suffix_m;
  dq_signed : dsigned }.

(* everything is a function of the length of the buffer and of the syntax tree (None = SyntaxError) *)
Definition decode_tree (len : Z) (tree : option gj) : dreq :=
  let '(ty, schema_ok) := schema_of tree in
  let mk ok did reveal sd delta sfx :=
      Build_dreq len schema_ok ty ok did reveal sd delta sfx (decode_signed sd ty) in
  let none := mk false [] [] [] None None in
  if negb schema_ok then none
  else if eqs ty "create" then
    match unmarshal_tree create_member create_zero tree with
    | Some r => mk true [] [] [] (cr_delta r) (cr_suffix r)
    | None => none
    end
  else if eqs ty "update" then
    match unmarshal_tree update_member update_zero tree with
    | Some r => mk true (ur_did r) (ur_reveal r) (ur_signed r) (ur_delta r) None
    | None => none
    end
  else if eqs ty "recover" then
    match unmarshal_tree update_member update_zero tree with
    | Some r => mk true (ur_did r) (ur_reveal r) (ur_signed r) (ur_delta r) None
    | None => none
    end
  else if eqs ty "deactivate" then
    match unmarshal_tree deact_member deact_zero tree with
    | Some r => mk true (de_did r) (de_reveal r) (de_signed r) None None
    | None => none
    end
  else none.

Definition decode_request (b : bytes) : dreq := decode_tree (Z.of_nat (length b)) (std_parse b).

(* the decoded patches, for the validator plug-in *)
Definition dq_patches (d : dreq) : list patchv :=
  match dq_delta d with Some x => dm_patches x | None => [] end.

(* the anchorOrigin value the origin plug-in is called with (None = it is not called) *)
Definition dq_origin_arg (d : dreq) : option (option json) :=
  match dq_suffix d with
  | Some s => Some (sm_origin s)
  | None => signed_origin_arg (dq_signed d)
  end.

Definition view_of_dreq (d : dreq) (valid : list bool) (origin : bool) : req_view :=
  Build_req_view (dq_len d) (dq_schema_ok d) (dq_type d) (dq_struct_ok d) (dq_did d) (dq_reveal d) (dq_signed_data d)
                 (signed_view_of (dq_signed_data d) (dq_signed d) origin)
                 (delta_view_of (dq_delta d) valid)
                 (suffix_view_of (dq_suffix d) origin).

Definition view_of_request (b : bytes) (valid : list bool) (origin : bool) : req_view :=
  view_of_dreq (decode_request b) valid origin.

(* the plug-ins as functions of the decoded values *)
Definition view_of_request_with (pv : patchv -> bool) (ov : option json -> bool) (b : bytes) : req_view :=
  let d := decode_request b in
  view_of_dreq d (map pv (dq_patches d)) (match dq_origin_arg d with Some a => ov a | None => true end).

(* the parser model run on bytes *)
Definition parse_operation_bytes (p : pproto) (batch time_ok : bool) (b : bytes) (valid : list bool) (origin : bool)
  : option parsed :=
  parse_operation p batch time_ok (view_of_request b valid origin).

Example view_garbage :
  view_of_request (bs "{""type"":1,""type"":""create""") [] true
  = Build_req_view 25 false [] false [] [] []
      (Build_signed_view [] hdr_none [] None false (jwk_view_of None) [] [] [] 0 0 true)
      (Build_delta_view false [] [] [] []) (Build_suffix_view false [] [] [] true).
Proof. vm_compute. reflexivity. Qed.

Example view_type_after_error :
  let v := view_of_request (bs "{""type"":1,""TYPE"":""create""}") [] true in
  (rv_schema_ok v, rv_type v) = (false, bs "create").
Proof. vm_compute. reflexivity. Qed.
