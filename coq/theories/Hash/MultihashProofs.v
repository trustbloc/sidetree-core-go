(* Round trips of base64url, varint and multihash framing; commitment = hash of decoded reveal;
   validity <-> being the hash (C08). *)
From Coq Require Import List NArith ZArith Bool Lia.
From Coq.Strings Require Import Byte.
From SV Require Import Base.Bytes Base.BytesFacts Hash.B64 Hash.Varint Hash.Sha2 Hash.Multihash.
Import ListNotations.
Local Open Scope N_scope.

Lemma to_N_lt b : Byte.to_N b < 256.
Proof. pose proof (Byte.to_N_bounded b). lia. Qed.

Lemma byte_of_to_N b : byte_of_N (Byte.to_N b) = b.
Proof. unfold byte_of_N. rewrite Byte.of_to_N. reflexivity. Qed.

Lemma byte_of_N_eq n b : n = Byte.to_N b -> byte_of_N n = b.
Proof. intros ->. apply byte_of_to_N. Qed.

Lemma to_of_N n : n < 256 -> Byte.to_N (byte_of_N n) = n.
Proof.
  intros H. unfold byte_of_N. destruct (Byte.of_N n) eqn:E.
  - apply Byte.to_of_N in E. exact E.
  - apply Byte.of_N_None_iff in E. lia.
Qed.

Definition all64 : list N := map N.of_nat (seq 0 64).

Lemma in_all64 v : v < 64 -> In v all64.
Proof.
  intros H. unfold all64. replace v with (N.of_nat (N.to_nat v)) by apply N2Nat.id.
  apply in_map. apply in_seq. lia.
Qed.

Lemma b64_alphabet_ok :
  forallb (fun v => match b64_val (b64_char v) with Some v' => v' =? v | None => false end
                    && negb (Byte.to_N (b64_char v) =? 10) && negb (Byte.to_N (b64_char v) =? 13)) all64 = true.
Proof. vm_compute. reflexivity. Qed.

Lemma b64_val_char v : v < 64 ->
  b64_val (b64_char v) = Some v /\ Byte.to_N (b64_char v) <> 10 /\ Byte.to_N (b64_char v) <> 13.
Proof.
  intros H. pose proof (proj1 (forallb_forall _ _) b64_alphabet_ok v (in_all64 v H)) as Hv. cbn beta in Hv.
  apply andb_true_iff in Hv. destruct Hv as [Hv H13]. apply andb_true_iff in Hv. destruct Hv as [Hv H10].
  destruct (b64_val (b64_char v)) as [v'|]; [|discriminate]. apply N.eqb_eq in Hv. subst.
  apply negb_true_iff, N.eqb_neq in H10, H13. auto.
Qed.

Lemma b64_values_cons v r : v < 64 ->
  b64_values (b64_char v :: r) = match b64_values r with Some vs => Some (v :: vs) | None => None end.
Proof.
  intros H. destruct (b64_val_char v H) as (Hv & H10 & H13). cbn [b64_values].
  apply N.eqb_neq in H10, H13. rewrite H10, H13, Hv. cbn [orb]. reflexivity.
Qed.

Lemma b64_values_map vs : Forall (fun v => v < 64) vs -> b64_values (map b64_char vs) = Some vs.
Proof.
  induction 1 as [|v vs Hv _ IH]; [reflexivity|]. cbn [map]. rewrite (b64_values_cons v _ Hv), IH. reflexivity.
Qed.

(* b64_encode recurses three bytes at a time *)
Lemma bytes_ind3 (P : bytes -> Prop) :
  P [] -> (forall a, P [a]) -> (forall a b, P [a; b]) -> (forall a b c r, P r -> P (a :: b :: c :: r)) ->
  forall l, P l.
Proof.
  intros H0 H1 H2 H3. fix IH 1. intros [|a [|b [|c r]]]; [exact H0 | apply H1 | apply H2 | apply H3, IH].
Qed.

(* the 6-bit values that b64_encode maps through b64_char *)
Fixpoint sextets (l : bytes) : list N :=
  match l with
  | [] => []
  | [a] => let x := Byte.to_N a in [x / 4; (x mod 4) * 16]
  | [a; b] => let x := Byte.to_N a * 256 + Byte.to_N b in [x / 1024; (x / 16) mod 64; (x mod 16) * 4]
  | a :: b :: c :: r =>
    let x := Byte.to_N a * 65536 + Byte.to_N b * 256 + Byte.to_N c in
    x / 262144 :: (x / 4096) mod 64 :: (x / 64) mod 64 :: x mod 64 :: sextets r
  end.

Lemma b64_encode_sextets l : b64_encode l = map b64_char (sextets l).
Proof.
  induction l as [| | |a b c r IH] using bytes_ind3; cbn [b64_encode sextets map]; [reflexivity..|].
  rewrite IH. reflexivity.
Qed.

Lemma sextets_lt l : Forall (fun v => v < 64) (sextets l).
Proof.
  induction l as [|a|a b|a b c r IH] using bytes_ind3; cbn [sextets].
  - constructor.
  - pose proof (to_N_lt a). repeat (apply Forall_cons; [zify; Z.to_euclidean_division_equations; lia|]). constructor.
  - pose proof (to_N_lt a). pose proof (to_N_lt b).
    repeat (apply Forall_cons; [zify; Z.to_euclidean_division_equations; lia|]). constructor.
  - pose proof (to_N_lt a). pose proof (to_N_lt b). pose proof (to_N_lt c).
    repeat (apply Forall_cons; [zify; Z.to_euclidean_division_equations; lia|]). exact IH.
Qed.

Lemma b64_decode_sextets l : b64_decode_values (sextets l) = Some l.
Proof.
  induction l as [|a|a b|a b c r IH] using bytes_ind3; cbn [sextets b64_decode_values].
  - reflexivity.
  - pose proof (to_N_lt a). do 2 f_equal. apply byte_of_N_eq. zify; Z.to_euclidean_division_equations; lia.
  - pose proof (to_N_lt a). pose proof (to_N_lt b). set (x := to_N a * 256 + to_N b).
    assert (Hx : ((x / 1024) * 4096 + ((x / 16) mod 64) * 64 + (x mod 16) * 4) / 4 = x)
      by (zify; Z.to_euclidean_division_equations; lia).
    rewrite Hx. clear Hx. subst x.
    do 2 f_equal; [|f_equal]; apply byte_of_N_eq; zify; Z.to_euclidean_division_equations; lia.
  - pose proof (to_N_lt a). pose proof (to_N_lt b). pose proof (to_N_lt c). rewrite IH.
    set (x := to_N a * 65536 + to_N b * 256 + to_N c).
    assert (Hx : (x / 262144) * 262144 + ((x / 4096) mod 64) * 4096 + ((x / 64) mod 64) * 64 + x mod 64 = x)
      by (zify; Z.to_euclidean_division_equations; lia).
    rewrite Hx. clear Hx. subst x.
    do 2 f_equal; [|f_equal; [|f_equal]]; apply byte_of_N_eq; zify; Z.to_euclidean_division_equations; lia.
Qed.

Theorem b64_roundtrip l : b64_decode (b64_encode l) = Some l.
Proof.
  unfold b64_decode. rewrite b64_encode_sextets, (b64_values_map _ (sextets_lt l)). apply b64_decode_sextets.
Qed.

Lemma b64_encode_forall (Q : byte -> bool) :
  forallb (fun v => Q (b64_char v)) all64 = true -> forall l, Forall (fun c => Q c = true) (b64_encode l).
Proof.
  intros HQ l. rewrite b64_encode_sextets. apply Forall_map. eapply Forall_impl; [|apply sextets_lt].
  intros v Hv. exact (proj1 (forallb_forall _ _) HQ v (in_all64 v Hv)).
Qed.

(* the decoder at byte i (shift s = 7 i, accumulator acc) on what the encoder emits for x with enough fuel: x fits in
   the 9 - i bytes that are left, and only the first byte of an encoding may be zero (minimal encoding) *)
Lemma from_uvarint_put_go : forall f x i s acc rest,
  (9 - i <= f)%nat -> (i < 9)%nat -> x < 2 ^ (7 * N.of_nat (9 - i)) -> s = 7 * N.of_nat i -> (i = O \/ x <> 0) ->
  from_uvarint_go i s acc (put_uvarint_fuel f x ++ rest) = Some (acc + x * 2 ^ s, rest).
Proof.
  induction f as [|f IH]; intros x i s acc rest Hf Hi Hx Hs Hmin; [lia|].
  cbn [put_uvarint_fuel]. destruct (x <? 128) eqn:E; cbn [app from_uvarint_go].
  - rewrite to_of_N by (apply N.ltb_lt in E; lia). rewrite E.
    replace (Nat.leb 9 i) with false by (symmetry; apply Nat.leb_gt; exact Hi).
    replace (128 <=? x) with false by (symmetry; apply N.leb_gt, N.ltb_lt, E).
    rewrite andb_false_r. cbn [orb].
    destruct (x =? 0) eqn:E0; [|reflexivity]. apply N.eqb_eq in E0.
    destruct Hmin as [->|Hn]; [subst s; reflexivity | contradiction].
  - apply N.ltb_ge in E.
    (* a continuation byte is never the ninth: 128 <= x < 2^(7*(9-i)) *)
    assert (Hi8 : (i < 8)%nat).
    { destruct (Nat.eq_dec i 8) as [->|]; [|lia]. change (2 ^ (7 * N.of_nat (9 - 8))) with 128 in Hx. lia. }
    pose proof (N.div_mod x 128 ltac:(discriminate)) as Hd. pose proof (N.mod_upper_bound x 128 ltac:(discriminate)) as Hm.
    set (d := x / 128) in *. set (m := x mod 128) in *. clearbody d m.
    rewrite to_of_N by lia.
    replace (Nat.eqb i 8) with false by (symmetry; apply Nat.eqb_neq; lia).
    replace (Nat.leb 9 i) with false by (symmetry; apply Nat.leb_gt; exact Hi).
    cbn [andb orb]. replace (128 + m <? 128) with false by (symmetry; apply N.ltb_ge; lia).
    replace (128 + m - 128) with m by lia.
    rewrite (IH d (S i) (s + 7) _ rest); [| lia | lia | | subst s; lia | right; lia].
    + rewrite N.pow_add_r. change (2 ^ 7) with 128. subst x. do 2 f_equal. lia.
    + replace (9 - i)%nat with (S (9 - S i)) in Hx by lia.
      rewrite Nat2N.inj_succ, N.mul_succ_r, N.pow_add_r in Hx. change (2 ^ 7) with 128 in Hx. lia.
Qed.

(* 2^63: varint.FromUvarint reads at most nine bytes of seven bits *)
Theorem varint_roundtrip x rest : x < 2 ^ 63 -> from_uvarint (put_uvarint x ++ rest) = Some (x, rest).
Proof.
  intros H. unfold from_uvarint, put_uvarint.
  rewrite (from_uvarint_put_go 10 x 0 0 0 rest); [f_equal; f_equal; lia | lia | lia | exact H | reflexivity | left; reflexivity].
Qed.

Lemma put_uvarint_nonempty x : (1 <= length (put_uvarint x))%nat.
Proof. unfold put_uvarint. cbn [put_uvarint_fuel]. destruct (x <? 128); cbn [length]; lia. Qed.

Theorem mh_roundtrip code digest :
  code < 2 ^ 63 -> N.of_nat (length digest) <= 2147483647 ->
  mh_decode (mh_encode code digest) = Some (code, digest).
Proof.
  intros Hc Hl. unfold mh_decode, mh_encode.
  assert (Hlen : Nat.ltb (length (put_uvarint code ++ put_uvarint (N.of_nat (length digest)) ++ digest)) 2 = false).
  { apply Nat.ltb_ge. rewrite !app_length.
    pose proof (put_uvarint_nonempty code). pose proof (put_uvarint_nonempty (N.of_nat (length digest))). lia. }
  rewrite Hlen. rewrite varint_roundtrip by exact Hc. rewrite varint_roundtrip by lia.
  assert (H1 : 2147483647 <? N.of_nat (length digest) = false) by (apply N.ltb_ge; exact Hl). rewrite H1.
  rewrite N.eqb_refl. reflexivity.
Qed.

Lemma sha_length_le P msg : (length (sha P msg) <= sp_out P)%nat.
Proof. unfold sha. apply firstn_le_length. Qed.

Lemma hash_of_code_some code h : hash_of_code code = Some h ->
  (code = SHA2_256 /\ h = sha256) \/ (code = SHA2_512 /\ h = sha512).
Proof.
  unfold hash_of_code. destruct (code =? SHA2_256) eqn:E1; [intros H; inversion H; apply N.eqb_eq in E1; auto|].
  destruct (code =? SHA2_512) eqn:E2; [intros H; inversion H; apply N.eqb_eq in E2; auto | discriminate].
Qed.

(* decoding a computed multihash gives back its code and the digest of the data *)
Lemma get_multihash_compute code data m :
  compute_multihash code data = Some m ->
  exists h, hash_of_code code = Some h /\ get_multihash (b64_encode m) = Some (code, h data).
Proof.
  unfold compute_multihash. destruct (hash_of_code code) as [h|] eqn:E; [|discriminate]. intros H; inversion H; subst.
  exists h. split; [reflexivity|]. unfold get_multihash. rewrite b64_roundtrip. apply mh_roundtrip.
  - destruct (hash_of_code_some _ _ E) as [[-> _]|[-> _]]; cbv [SHA2_256 SHA2_512]; lia.
  - destruct (hash_of_code_some _ _ E) as [[_ ->]|[_ ->]].
    + pose proof (sha_length_le sha256_params data) as Hl. unfold sha256. cbn [sp_out sha256_params] in Hl. lia.
    + pose proof (sha_length_le sha512_params data) as Hl. unfold sha512. cbn [sp_out sha512_params] in Hl. lia.
Qed.

(* the commitment of a key is the hash of the decoded reveal value of that key *)
Theorem commitment_is_hash_of_reveal jwk code rv :
  get_reveal_value jwk code = Some rv -> commitment_from_reveal rv = get_commitment jwk code.
Proof.
  unfold get_reveal_value, calculate_model_multihash. destruct (compute_multihash code jwk) as [m|] eqn:E; [|discriminate].
  intros H; inversion H; subst. destruct (get_multihash_compute _ _ _ E) as (h & Hh & Hg).
  unfold commitment_from_reveal, get_commitment. rewrite Hg. unfold compute_multihash. rewrite Hh. reflexivity.
Qed.

(* a model is accepted against a multihash exactly when the multihash is the hash of its canonical
   form under the (supported) algorithm the multihash itself names *)
Theorem valid_iff_is_hash canonical mh :
  is_valid_model_multihash canonical mh = true <->
  exists code, get_multihash_code mh = Some code /\ calculate_model_multihash canonical code = Some mh.
Proof.
  unfold is_valid_model_multihash. split.
  - destruct (get_multihash_code mh) as [code|]; [|discriminate].
    destruct (calculate_model_multihash canonical code) as [s|] eqn:E; [|discriminate].
    intros H. apply bytes_eqb_eq in H. subst. exists code. auto.
  - intros (code & Hc & Hm). rewrite Hc, Hm. apply bytes_eqb_refl.
Qed.

Theorem calculated_multihash_is_valid canonical code mh :
  calculate_model_multihash canonical code = Some mh -> is_valid_model_multihash canonical mh = true.
Proof.
  intros H. apply valid_iff_is_hash. exists code. split; [|exact H].
  unfold calculate_model_multihash in H. destruct (compute_multihash code canonical) as [m|] eqn:E; [|discriminate].
  inversion H; subst. destruct (get_multihash_compute _ _ _ E) as (h & _ & Hg). unfold get_multihash_code. rewrite Hg. reflexivity.
Qed.

(* two canonical forms accepted by the same multihash have the same digest: a collision when they differ *)
Theorem valid_binds_content c1 c2 mh :
  is_valid_model_multihash c1 mh = true -> is_valid_model_multihash c2 mh = true ->
  exists h, (h = sha256 \/ h = sha512) /\ h c1 = h c2.
Proof.
  intros H1 H2. apply valid_iff_is_hash in H1, H2. destruct H1 as (code & Hc & Hm1). destruct H2 as (code' & Hc' & Hm2).
  rewrite Hc in Hc'. inversion Hc'; subst code'.
  unfold calculate_model_multihash in Hm1, Hm2.
  destruct (compute_multihash code c1) as [m1|] eqn:E1; [|discriminate].
  destruct (compute_multihash code c2) as [m2|] eqn:E2; [|discriminate].
  injection Hm1 as <-. injection Hm2 as Em.
  destruct (get_multihash_compute _ _ _ E1) as (h & Hh & Hg1). destruct (get_multihash_compute _ _ _ E2) as (h' & Hh' & Hg2).
  rewrite Hh in Hh'. injection Hh' as <-. rewrite Em, Hg1 in Hg2. injection Hg2 as Ed.
  exists h. split; [|exact Ed]. destruct (hash_of_code_some _ _ Hh) as [[_ ->]|[_ ->]]; auto.
Qed.
