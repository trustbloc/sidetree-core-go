(* C08: hashes and identifiers computed from JSON text depend only on the JSON value.
   Composition of the canonicalizer model (Json/Jcs.v, C07) with the multihash model. *)
From Coq Require Import NArith.
From SV Require Import Base.Bytes Base.BytesFacts Json.Jcs Json.JcsProofs Hash.Sha2 Hash.Multihash Hash.MultihashProofs.

(* hashing.CalculateModelMultihash on raw JSON text ([]byte goes straight to the canonicalizer) *)
Definition text_multihash (text : bytes) (code : N) : option bytes :=
  match transform text with
  | Some c => calculate_model_multihash c code
  | None => None
  end.

(* every serialisation of the same value (member order, white space, escapes, number spelling)
   hashes to the same multihash *)
Theorem hash_depends_only_on_value b1 b2 v1 v2 code :
  parse_value b1 = Some v1 -> parse_value b2 = Some v2 -> json_equiv_jcs v1 v2 ->
  text_multihash b1 code = text_multihash b2 code.
Proof.
  intros H1 H2 He. unfold text_multihash. rewrite (transform_value_only _ _ _ _ H1 H2 He). reflexivity.
Qed.

(* the multihash binds the value: equal multihashes mean equal canonical forms, or a SHA-2 collision is exhibited *)
Theorem equal_hash_binds_canonical_form b1 b2 code h :
  text_multihash b1 code = Some h -> text_multihash b2 code = Some h ->
  exists c1 c2, transform b1 = Some c1 /\ transform b2 = Some c2 /\
    (c1 = c2 \/ (c1 <> c2 /\ exists hf, (hf = sha256 \/ hf = sha512) /\ hf c1 = hf c2)).
Proof.
  unfold text_multihash. destruct (transform b1) as [c1|]; [|discriminate]. destruct (transform b2) as [c2|]; [|discriminate].
  intros H1 H2. exists c1, c2. split; [reflexivity|]. split; [reflexivity|].
  destruct (bytes_eqb_spec c1 c2) as [E|E]; [left; exact E|]. right. split; [exact E|].
  exact (valid_binds_content c1 c2 h (calculated_multihash_is_valid _ _ _ H1) (calculated_multihash_is_valid _ _ _ H2)).
Qed.
