(* C09 from the compact string alone: the protected-header facts are computed inside Coq, by [hdr_of_part] of
   Parser/ViewOfBytes.v (go-jose's JSON decoder and encoder as modelled in Json/GoJson.v), instead of being supplied
   as facts. *)
From Coq Require Import List.
From SV Require Import Base.Bytes Jws.Compact Jws.CompactProofs Parser.ViewOfBytes.
Import ListNotations.

(* the header facts go-jose derives from the first part of a compact string ([hdr_of_part] also yields the member
   names and the "alg" value, which only the parser looks at) *)
Definition hdr_of_compact (s : bytes) : hdr_facts :=
  match split_dots s with
  | [h; _; _] => fst (fst (hdr_of_part h))
  | _ => {| h_json_ok := false; h_has_alg := false; h_b64 := B64Absent; h_marshal := [] |}
  end.

(* VerifyJWS as a function of the compact string, the key and the primitive's verdict only *)
Definition verify_jws_bytes (s : bytes) (k : jwk) (crypto_ok : bool) : bool := verify_jws s (hdr_of_compact s) k crypto_ok.

Theorem verify_bytes_sound s k crypto_ok :
  verify_jws_bytes s k crypto_ok = true ->
  exists payload sig msg,
    parse_compact s (hdr_of_compact s) = Some (payload, sig) /\ signing_input (hdr_of_compact s) payload = Some msg /\
    crypto_ok = true /\ jwk_decodes k = true /\ payload <> [] /\ sig <> [].
Proof.
  intros H. destruct (verify_sound _ _ _ _ H) as (payload & sig & msg & H1 & H2 & H3 & H4 & H5 & H6 & _).
  exists payload, sig, msg. repeat split; assumption.
Qed.

Theorem forged_bytes_rejected s k : verify_jws_bytes s k false = false.
Proof. apply forged_signature_rejected. Qed.
