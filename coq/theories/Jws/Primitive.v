(* C09 - "verification accepts exactly what the key signed", with the signature primitive as a FUNCTION.

   Jws/Compact.v's [verify_jws s hf k crypto_ok] takes the primitive's verdict as a boolean fact of the
   case at hand.  That is the right shape for differential testing, but "rejected under any other key /
   after any change of header or payload" cannot be stated with it.  Here

     V : jwk -> bytes (* message *) -> bytes (* signature *) -> bool        (Section variable)

   is the oracle for the code that is not modelled: crypto/ecdsa.Verify (over the SHA-2 digest of the
   message selected by the curve, signature = r || s), btcec's secp256k1 verification and
   crypto/ed25519.Verify, under the public key carried by the JWK.  Nothing is assumed about V; every
   theorem below holds for all V.  What an unforgeable primitive then gives is spelled out in
   [unforgeable_at_most_one_message].

   [jws_message] and [verify_jws_with] reuse parse_compact / signing_input / verify_signature of Jws/Compact.v
   unchanged; the theorems are proved from CompactProofs.v.  A toy primitive at the end shows that their
   hypotheses can be met. *)
From Coq Require Import String List ZArith.
From SV Require Import Base.Bytes Hash.B64 Jws.Compact Jws.CompactProofs.
Import ListNotations.
Local Open Scope string_scope.
Local Open Scope list_scope.
Local Open Scope Z_scope.

(* what the primitive is asked about: (signing input, decoded signature); None = VerifyJWS fails before
   it reaches the primitive (parseCompacted or signingInput return an error) *)
Definition jws_message (s : bytes) (hf : hdr_facts) : option (bytes * bytes) :=
  match parse_compact s hf with
  | None => None
  | Some (payload, sig) =>
    match signing_input hf payload with
    | None => None
    | Some msg => Some (msg, sig)
    end
  end.

(* the payload part of the signing input: header member "b64": false = the payload as it is *)
Definition raw_payload (hf : hdr_facts) : bool := match h_b64 hf with B64False => true | _ => false end.

Definition payload_part (hf : hdr_facts) (payload : bytes) : bytes :=
  if raw_payload hf then payload else b64_encode payload.

Lemma jws_message_inv s hf msg sig :
  jws_message s hf = Some (msg, sig) <->
  exists payload, parse_compact s hf = Some (payload, sig) /\ signing_input hf payload = Some msg.
Proof.
  unfold jws_message. split.
  - destruct (parse_compact s hf) as [[payload g]|]; [|discriminate].
    destruct (signing_input hf payload) as [m|] eqn:Es; [|discriminate].
    intros H; inversion H; subst. exists payload. auto.
  - intros (payload & Hp & Hs). rewrite Hp, Hs. reflexivity.
Qed.

Lemma signing_input_shape hf payload msg :
  signing_input hf payload = Some msg ->
  msg = b64_encode (h_marshal hf) ++ [dot] ++ payload_part hf payload.
Proof.
  unfold signing_input, payload_part, raw_payload. destruct (h_b64 hf); intros H; inversion H; reflexivity.
Qed.

Section Primitive.
  (* ORACLE: the signature primitive (see the header of the file) *)
  Variable V : jwk -> bytes -> bytes -> bool.

  (* VerifyJWS with crypto_ok := V k <signing input> <decoded signature> *)
  Definition verify_jws_with (s : bytes) (hf : hdr_facts) (k : jwk) : bool :=
    match parse_compact s hf with
    | None => false
    | Some (payload, sig) =>
      match signing_input hf payload with
      | None => false
      | Some msg => verify_signature k sig (V k msg sig)
      end
    end.

  (* [verify_jws] with the primitive's answer as its verdict, for all inputs *)
  Theorem verify_with_spec s hf k :
    verify_jws_with s hf k =
    match jws_message s hf with
    | Some (msg, sig) => verify_jws s hf k (V k msg sig)
    | None => false
    end.
  Proof.
    unfold jws_message, verify_jws_with, verify_jws.
    destruct (parse_compact s hf) as [[payload sig]|]; [|reflexivity].
    destruct (signing_input hf payload); reflexivity.
  Qed.

  (* its two cases *)
  Theorem verify_with_agrees s hf k payload sig msg :
    parse_compact s hf = Some (payload, sig) -> signing_input hf payload = Some msg ->
    verify_jws_with s hf k = verify_jws s hf k (V k msg sig).
  Proof. intros Hp Hs. rewrite verify_with_spec. unfold jws_message. rewrite Hp, Hs. reflexivity. Qed.

  (* without a signing input or a decoded signature [verify_jws] rejects as well, whatever verdict it is handed *)
  Theorem verify_with_no_message s hf k :
    jws_message s hf = None -> verify_jws_with s hf k = false /\ forall c, verify_jws s hf k c = false.
  Proof.
    intros Hm. split; [rewrite verify_with_spec, Hm; reflexivity|]. intros c. revert Hm.
    unfold jws_message, verify_jws. destruct (parse_compact s hf) as [[payload sig]|]; [|reflexivity].
    destruct (signing_input hf payload); [discriminate | reflexivity].
  Qed.

  (* what an accepted string's parts say about the primitive *)
  Lemma accepted_parts s hf k p g :
    verify_jws_with s hf k = true -> parse_compact s hf = Some (p, g) ->
    exists m, signing_input hf p = Some m /\ V k m g = true.
  Proof.
    unfold verify_jws_with. intros Hv Hp. rewrite Hp in Hv. destruct (signing_input hf p) as [m|]; [|discriminate].
    exists m. split; [reflexivity|]. apply verify_signature_iff in Hv. apply Hv.
  Qed.

  (* acceptance = the primitive accepted exactly the signing input of this header and payload *)
  Theorem accept_means_primitive_accepted s hf k :
    verify_jws_with s hf k = true ->
    exists payload sig msg,
      parse_compact s hf = Some (payload, sig) /\ signing_input hf payload = Some msg /\
      (* the message: base64url(re-serialised header) "." payload part *)
      msg = b64_encode (h_marshal hf) ++ [dot] ++ payload_part hf payload /\
      (* the primitive accepted it with the decoded signature, under this key *)
      V k msg sig = true /\
      jwk_decodes k = true /\ payload <> [] /\ sig <> [] /\
      h_json_ok hf = true /\ h_has_alg hf = true /\ h_b64 hf <> B64NotBool /\
      ((eqs (k_kty k) "EC" = true /\ exists n, ec_key_size (k_crv k) = Some n /\ Z.of_nat (length sig) = 2 * n)
       \/ (eqs (k_kty k) "EC" = false /\ eqs (k_kty k) "OKP" = true)).
  Proof.
    intros Hv. rewrite verify_with_spec in Hv. destruct (jws_message s hf) as [[msg sig]|] eqn:Em; [|discriminate].
    apply jws_message_inv in Em. destruct Em as (payload & Hp & Hs).
    destruct (verify_sound _ _ _ _ Hv) as (payload' & sig' & msg' & Hp' & _ & HV & Hd & Hrest).
    rewrite Hp in Hp'. inversion Hp'; subst payload' sig'.
    exists payload, sig, msg. split; [exact Hp|]. split; [exact Hs|]. split; [apply signing_input_shape; exact Hs|]. auto.
  Qed.

  (* signing inputs are injective in (re-serialised header, payload) when both sides use the same
     payload mode.  (CompactProofs.signing_input_injective is the encoded/encoded case.) *)
  Lemma signing_input_injective_same_mode hf hf' p p' m :
    raw_payload hf = raw_payload hf' ->
    signing_input hf p = Some m -> signing_input hf' p' = Some m ->
    h_marshal hf = h_marshal hf' /\ p = p'.
  Proof.
    intros Hm H1 H2. apply signing_input_shape in H1, H2. rewrite H2 in H1. apply si_split in H1.
    destruct H1 as [Hh Hp]. split; [symmetry; exact Hh|]. unfold payload_part in Hp. rewrite <- Hm in Hp.
    destruct (raw_payload hf); [symmetry; exact Hp | symmetry; apply b64_encode_inj; exact Hp].
  Qed.

  (* The same-mode premise is about the two FACT records only: in the code "b64" is a member of the very
     header map that h_marshal serialises, so headers with different modes have different h_marshal and
     fall under the first disjunct of [tamper_evident].  The model keeps h_b64 and h_marshal as
     independent facts; for such (inconsistent) facts the premise is needed: *)
  Example mixed_mode_refuted :
    let hm := bytes_of_string "{""alg"":""EdDSA""}" in
    let hf  := {| h_json_ok := true; h_has_alg := true; h_b64 := B64False;  h_marshal := hm |} in
    let hf' := {| h_json_ok := true; h_has_alg := true; h_b64 := B64Absent; h_marshal := hm |} in
    let p  := bytes_of_string "QQ" in       (* raw payload "QQ" *)
    let p' := bytes_of_string "A" in        (* payload "A", base64url "QQ" *)
    p <> p' /\ h_marshal hf = h_marshal hf' /\ signing_input hf p = signing_input hf' p'.
  Proof. vm_compute. repeat split; [discriminate]. Qed.

  (* If two compact strings both verify under k and their decoded payloads or re-serialised headers
     differ, the primitive accepted two DIFFERENT messages under k (each with the signature carried by
     its string). *)
  Theorem tamper_evident s s' hf hf' k p g p' g' :
    verify_jws_with s hf k = true -> verify_jws_with s' hf' k = true ->
    parse_compact s hf = Some (p, g) -> parse_compact s' hf' = Some (p', g') ->
    h_marshal hf <> h_marshal hf' \/ (p <> p' /\ raw_payload hf = raw_payload hf') ->
    exists m m', m <> m' /\
      jws_message s hf = Some (m, g) /\ jws_message s' hf' = Some (m', g') /\
      V k m g = true /\ V k m' g' = true.
  Proof.
    intros Hv Hv' Hp Hp' Hdiff.
    destruct (accepted_parts _ _ _ _ _ Hv Hp) as (m & Hs & HV). destruct (accepted_parts _ _ _ _ _ Hv' Hp') as (m' & Hs' & HV').
    exists m, m'. split.
    - intros <-. destruct Hdiff as [Hh|[Hne Hmode]].
      + apply Hh. eapply signing_input_header_determined; eassumption.
      + apply Hne. eapply signing_input_injective_same_mode; eassumption.
    - split; [apply jws_message_inv; exists p; auto|]. split; [apply jws_message_inv; exists p'; auto|]. auto.
  Qed.

  (* hence, if under k the primitive accepts one message only (the one the holder of the private key
     signed: unforgeability stated as a property of V), everything that verifies under k carries the
     same re-serialised header and, in the same payload mode, the same payload *)
  Theorem unforgeable_at_most_one_message s s' hf hf' k m0 p g p' g' :
    (forall m sig, V k m sig = true -> m = m0) ->
    verify_jws_with s hf k = true -> verify_jws_with s' hf' k = true ->
    parse_compact s hf = Some (p, g) -> parse_compact s' hf' = Some (p', g') ->
    h_marshal hf = h_marshal hf' /\ (raw_payload hf = raw_payload hf' -> p = p').
  Proof.
    intros Hunf Hv Hv' Hp Hp'.
    destruct (accepted_parts _ _ _ _ _ Hv Hp) as (m & Hs & HV). destruct (accepted_parts _ _ _ _ _ Hv' Hp') as (m' & Hs' & HV').
    rewrite (Hunf _ _ HV) in Hs. rewrite (Hunf _ _ HV') in Hs'.
    split; [eapply signing_input_header_determined; eassumption|].
    intros Hmode. eapply signing_input_injective_same_mode; eassumption.
  Qed.

  (* acceptance under another key k' means the primitive accepted that very message and signature
     under k' *)
  Theorem other_key_accepts_same_message s hf k' msg sig :
    jws_message s hf = Some (msg, sig) -> verify_jws_with s hf k' = true -> V k' msg sig = true.
  Proof.
    intros Hm Hv. apply jws_message_inv in Hm. destruct Hm as (p & Hp & Hs).
    destruct (accepted_parts _ _ _ _ _ Hv Hp) as (m & Hs' & HV). congruence.
  Qed.

  (* contrapositive: a key under which the primitive rejects (message, signature) rejects the JWS *)
  Theorem rejected_under_key_that_does_not_verify s hf k' msg sig :
    jws_message s hf = Some (msg, sig) -> V k' msg sig = false -> verify_jws_with s hf k' = false.
  Proof. intros Hm HV. rewrite verify_with_spec, Hm, HV. apply forged_signature_rejected. Qed.

  Theorem message_independent_of_key s hf k k' :
    verify_jws_with s hf k = true -> verify_jws_with s hf k' = true ->
    exists msg sig, jws_message s hf = Some (msg, sig) /\ V k msg sig = true /\ V k' msg sig = true.
  Proof.
    intros Hv Hv'. destruct (jws_message s hf) as [[msg sig]|] eqn:Em.
    - exists msg, sig. split; [reflexivity|]. split; eapply other_key_accepts_same_message; eassumption.
    - destruct (verify_with_no_message s hf k Em) as [Hf _]. congruence.
  Qed.

  (* [sign]: the signer for the private key matching k.  The hypothesis is the correctness of the
     primitive for that key pair, needed for this one message only.  The other hypotheses are those of
     CompactProofs.sign_then_verify: [hf] are the facts of [header]; for EC keys the signature has the
     fixed r||s size of the curve. *)
  Theorem sign_then_verify_with (sign : bytes -> bytes) header payload hf k msg :
    V k msg (sign msg) = true ->
    header <> [] -> payload <> [] -> sign msg <> [] ->
    h_json_ok hf = true -> h_has_alg hf = true -> signing_input hf payload = Some msg ->
    jwk_decodes k = true ->
    (eqs (k_kty k) "EC" = true /\ exists n, ec_key_size (k_crv k) = Some n /\ Z.of_nat (length (sign msg)) = 2 * n)
    \/ (eqs (k_kty k) "EC" = false /\ eqs (k_kty k) "OKP" = true) ->
    verify_jws_with (compact header payload (sign msg)) hf k = true.
  Proof.
    intros HV Hh Hp Hs Hj Ha Hm Hd Hk.
    rewrite (verify_with_agrees _ _ _ payload (sign msg) msg); [|apply compact_parses; assumption | exact Hm].
    rewrite HV. apply (sign_then_verify header payload (sign msg) hf k msg); assumption.
  Qed.

  (* and what it carries is what was signed *)
  Theorem built_jws_message header payload sig hf msg :
    header <> [] -> payload <> [] -> sig <> [] -> h_json_ok hf = true -> h_has_alg hf = true ->
    signing_input hf payload = Some msg ->
    jws_message (compact header payload sig) hf = Some (msg, sig).
  Proof.
    intros Hh Hp Hs Hj Ha Hm. apply jws_message_inv. exists payload. split; [apply compact_parses; assumption | exact Hm].
  Qed.
End Primitive.

(* non-vacuity: a toy primitive (NOT a signature scheme: sign k m = curve name ++ reversed message) *)
Definition toy_sign (k : jwk) (m : bytes) : bytes := k_crv k ++ rev m.
Definition toy_V (k : jwk) (m sig : bytes) : bool := bytes_eqb sig (toy_sign k m).

Definition toy_key (crv : String.string) : jwk :=
  {| k_kty := bytes_of_string "OKP"; k_crv := bytes_of_string crv; k_x_len := 32; k_y_len := -1;
     k_on_curve := false; k_jose_ok := true |}.
Definition toy_hdr : bytes := bytes_of_string "{""alg"":""EdDSA""}".
Definition toy_hf : hdr_facts := {| h_json_ok := true; h_has_alg := true; h_b64 := B64Absent; h_marshal := toy_hdr |}.
Definition toy_payload : bytes := bytes_of_string "{""didSuffix"":""abc""}".
Definition toy_msg : bytes := b64_encode toy_hdr ++ [dot] ++ b64_encode toy_payload.
Definition toy_jws (k : jwk) (payload : bytes) : bytes :=
  compact toy_hdr payload (toy_sign k (b64_encode toy_hdr ++ [dot] ++ b64_encode payload)).

(* the hypotheses of sign_then_verify_with hold, and the conclusion evaluates *)
Example toy_sign_then_verify_hyps :
  let k := toy_key "Ed25519" in
  toy_V k toy_msg (toy_sign k toy_msg) = true /\ toy_hdr <> [] /\ toy_payload <> [] /\ toy_sign k toy_msg <> [] /\
  signing_input toy_hf toy_payload = Some toy_msg /\ jwk_decodes k = true /\
  eqs (k_kty k) "EC" = false /\ eqs (k_kty k) "OKP" = true.
Proof. vm_compute. repeat split; discriminate. Qed.

Example toy_verifies : verify_jws_with toy_V (toy_jws (toy_key "Ed25519") toy_payload) toy_hf (toy_key "Ed25519") = true.
Proof. vm_compute. reflexivity. Qed.

Example toy_message :
  jws_message (toy_jws (toy_key "Ed25519") toy_payload) toy_hf = Some (toy_msg, toy_sign (toy_key "Ed25519") toy_msg).
Proof. vm_compute. reflexivity. Qed.

Example toy_other_key_rejected :
  verify_jws_with toy_V (toy_jws (toy_key "Ed25519") toy_payload) toy_hf (toy_key "Ed448") = false.
Proof. vm_compute. reflexivity. Qed.

(* payload replaced under the signature of the first one *)
Example toy_tampered_payload_rejected :
  let k := toy_key "Ed25519" in
  verify_jws_with toy_V
    (compact toy_hdr (bytes_of_string "{""didSuffix"":""abd""}") (toy_sign k toy_msg)) toy_hf k = false.
Proof. vm_compute. reflexivity. Qed.

(* header replaced (other re-serialisation) under the signature of the first one *)
Example toy_tampered_header_rejected :
  let k := toy_key "Ed25519" in
  let hdr' := bytes_of_string "{""alg"":""EdDSA"",""kid"":""k1""}" in
  verify_jws_with toy_V (compact hdr' toy_payload (toy_sign k toy_msg))
    {| h_json_ok := true; h_has_alg := true; h_b64 := B64Absent; h_marshal := hdr' |} k = false.
Proof. vm_compute. reflexivity. Qed.

(* tamper_evident's premises are satisfiable: two different payloads, each signed, both verify, and the
   two messages differ *)
Example toy_two_signed_messages :
  let k := toy_key "Ed25519" in
  let p' := bytes_of_string "{""didSuffix"":""abd""}" in
  verify_jws_with toy_V (toy_jws k toy_payload) toy_hf k = true /\
  verify_jws_with toy_V (toy_jws k p') toy_hf k = true /\
  option_map fst (jws_message (toy_jws k toy_payload) toy_hf) <> option_map fst (jws_message (toy_jws k p') toy_hf).
Proof. vm_compute. repeat split; discriminate. Qed.

Print Assumptions verify_with_agrees.
Print Assumptions verify_with_no_message.
Print Assumptions verify_with_spec.
Print Assumptions accept_means_primitive_accepted.
Print Assumptions signing_input_injective_same_mode.
Print Assumptions tamper_evident.
Print Assumptions unforgeable_at_most_one_message.
Print Assumptions other_key_accepts_same_message.
Print Assumptions rejected_under_key_that_does_not_verify.
Print Assumptions message_independent_of_key.
Print Assumptions sign_then_verify_with.
Print Assumptions built_jws_message.
