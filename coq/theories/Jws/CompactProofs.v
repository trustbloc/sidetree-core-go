(* C09: what acceptance by VerifyJWS means ([verify_sound]) and what it rejects; the signing input determines the
   re-serialised header and the payload ([signing_input_injective]); a compact JWS built from header, payload and
   signature parses back to them ([compact_parses], [sign_then_verify]). *)
From Coq Require Import String List ZArith Bool.
From Coq.Strings Require Import Byte.
From SV Require Import Base.BytesFacts Hash.B64 Hash.MultihashProofs Jws.Compact.
Import ListNotations.
Local Open Scope string_scope.
Local Open Scope list_scope.
Local Open Scope Z_scope.

Lemma parse_compact_inv s hf payload sig :
  parse_compact s hf = Some (payload, sig) ->
  exists h p g, split_dots s = [h; p; g] /\ b64_decode p = Some payload /\ b64_decode g = Some sig /\
    payload <> [] /\ sig <> [] /\ h_json_ok hf = true /\ h_has_alg hf = true.
Proof.
  unfold parse_compact. destruct (match s with c :: _ => Byte.eqb c x7b | [] => false end); [discriminate|].
  destruct (split_dots s) as [|h [|p [|g [|? ?]]]]; try discriminate.
  destruct (b64_decode h); [|discriminate].
  destruct (h_json_ok hf); cbn [negb]; [|discriminate]. destruct (h_has_alg hf); cbn [negb]; [|discriminate].
  destruct (b64_decode p) as [[|p0 pr]|] eqn:Ep; try discriminate.
  destruct (b64_decode g) as [[|g0 gr]|] eqn:Eg; try discriminate.
  intros H. inversion H; subst. exists h, p, g. repeat split; (assumption || discriminate).
Qed.

Lemma verify_signature_iff k sig c :
  verify_signature k sig c = true <->
  c = true /\ jwk_decodes k = true /\
  ((eqs (k_kty k) "EC" = true /\ exists n, ec_key_size (k_crv k) = Some n /\ Z.of_nat (length sig) = 2 * n)
   \/ (eqs (k_kty k) "EC" = false /\ eqs (k_kty k) "OKP" = true)).
Proof.
  unfold verify_signature.
  destruct (eqs (k_kty k) "EC"); [destruct (ec_key_size (k_crv k)) as [n|] | destruct (eqs (k_kty k) "OKP")];
    rewrite ?andb_true_iff, ?Z.eqb_eq.
  - split; [intros [[Hd Hl] Hc]; eauto 8|].
    intros (Hc & Hd & [[_ (n' & E & Hl)]|[E _]]); [inversion E; subst; auto | discriminate].
  - split; [discriminate | intros (_ & _ & [[_ (n & E & _)]|[E _]]); discriminate].
  - split; [intros [Hd Hc]; auto | intros (Hc & Hd & _); auto].
  - split; [discriminate | intros (_ & _ & [[E _]|[_ E]]); discriminate].
Qed.

(* acceptance implies: the signature primitive accepted exactly the model's signing input *)
Theorem verify_sound s hf k crypto_ok :
  verify_jws s hf k crypto_ok = true ->
  exists payload sig msg,
    parse_compact s hf = Some (payload, sig) /\ signing_input hf payload = Some msg /\
    crypto_ok = true /\ jwk_decodes k = true /\ payload <> [] /\ sig <> [] /\
    h_json_ok hf = true /\ h_has_alg hf = true /\ h_b64 hf <> B64NotBool /\
    ((eqs (k_kty k) "EC" = true /\ exists n, ec_key_size (k_crv k) = Some n /\ Z.of_nat (length sig) = 2 * n)
     \/ (eqs (k_kty k) "EC" = false /\ eqs (k_kty k) "OKP" = true)).
Proof.
  unfold verify_jws. destruct (parse_compact s hf) as [[payload sig]|] eqn:Ep; [|discriminate].
  destruct (signing_input hf payload) as [msg|] eqn:Es; [|discriminate].
  intros Hv. apply verify_signature_iff in Hv. destruct Hv as (Hc & Hd & Hk).
  destruct (parse_compact_inv _ _ _ _ Ep) as (_ & _ & _ & _ & _ & _ & Hp1 & Hp2 & Hj & Ha).
  assert (Hb : h_b64 hf <> B64NotBool) by (unfold signing_input in Es; destruct (h_b64 hf); congruence).
  exists payload, sig, msg. auto 12.
Qed.

Lemma b64_encode_no_dot l : ~ In dot (b64_encode l).
Proof.
  intros Hi. pose proof (b64_encode_forall (fun c => negb (Byte.eqb c dot)) eq_refl l) as Hf.
  rewrite Forall_forall in Hf. specialize (Hf dot Hi). discriminate Hf.
Qed.

Lemma b64_encode_inj a b : b64_encode a = b64_encode b -> a = b.
Proof. intros H. pose proof (b64_roundtrip a) as Ha. rewrite H, b64_roundtrip in Ha. congruence. Qed.

Lemma split_at_first_dot a a' b b' :
  ~ In dot a -> ~ In dot a' -> a ++ [dot] ++ b = a' ++ [dot] ++ b' -> a = a' /\ b = b'.
Proof.
  revert a'. induction a as [|x r IH]; intros [|y t] Ha Ha' H; cbn [app] in *.
  - inversion H. auto.
  - inversion H; subst. elim Ha'. left. reflexivity.
  - inversion H; subst. elim Ha. left. reflexivity.
  - inversion H; subst. destruct (IH t) as [-> ->]; auto.
    + intros Hi. apply Ha. right. exact Hi.
    + intros Hi. apply Ha'. right. exact Hi.
Qed.

(* a signing input splits at its first dot: base64url has no dot *)
Lemma si_split hm hm' x x' :
  b64_encode hm ++ [dot] ++ x = b64_encode hm' ++ [dot] ++ x' -> hm = hm' /\ x = x'.
Proof.
  intros H. apply split_at_first_dot in H; [|apply b64_encode_no_dot..].
  destruct H as [Hh Hx]. split; [apply b64_encode_inj; exact Hh | exact Hx].
Qed.

Lemma signing_input_header hf p m :
  signing_input hf p = Some m -> exists x, m = b64_encode (h_marshal hf) ++ [dot] ++ x.
Proof. unfold signing_input. destruct (h_b64 hf); intros [= <-]; eexists; reflexivity. Qed.

Lemma signing_input_encoded hf p m :
  h_b64 hf <> B64False -> signing_input hf p = Some m -> m = b64_encode (h_marshal hf) ++ [dot] ++ b64_encode p.
Proof. unfold signing_input. destruct (h_b64 hf); intros Hb [= <-]; try reflexivity. elim Hb. reflexivity. Qed.

Theorem signing_input_injective hf hf' p p' m :
  h_b64 hf <> B64False -> h_b64 hf' <> B64False ->
  signing_input hf p = Some m -> signing_input hf' p' = Some m ->
  h_marshal hf = h_marshal hf' /\ p = p'.
Proof.
  intros Hb Hb' H1 H2. apply (signing_input_encoded _ _ _ Hb) in H1. apply (signing_input_encoded _ _ _ Hb') in H2.
  rewrite H2 in H1. apply si_split in H1. destruct H1 as [Eh Ep]. split; [symmetry; exact Eh | symmetry; apply b64_encode_inj; exact Ep].
Qed.

(* with the unencoded-payload option the header is still determined *)
Theorem signing_input_header_determined hf hf' p p' m :
  signing_input hf p = Some m -> signing_input hf' p' = Some m -> h_marshal hf = h_marshal hf'.
Proof.
  intros H1 H2. apply signing_input_header in H1, H2. destruct H1 as [x ->]. destruct H2 as [x' H2].
  apply si_split in H2. apply H2.
Qed.

Theorem missing_alg_rejected s hf k c : h_has_alg hf = false -> verify_jws s hf k c = false.
Proof.
  intros H. unfold verify_jws. destruct (parse_compact s hf) as [[p g]|] eqn:E; [|reflexivity].
  apply parse_compact_inv in E. destruct E as (_ & _ & _ & _ & _ & _ & _ & _ & _ & Ha). congruence.
Qed.

Theorem header_not_json_rejected s hf k c : h_json_ok hf = false -> verify_jws s hf k c = false.
Proof.
  intros H. unfold verify_jws. destruct (parse_compact s hf) as [[p g]|] eqn:E; [|reflexivity].
  apply parse_compact_inv in E. destruct E as (_ & _ & _ & _ & _ & _ & _ & _ & Hj & _). congruence.
Qed.

Theorem non_boolean_b64_rejected s hf k c : h_b64 hf = B64NotBool -> verify_jws s hf k c = false.
Proof.
  intros H. unfold verify_jws. destruct (parse_compact s hf) as [[p g]|]; [|reflexivity].
  unfold signing_input. rewrite H. reflexivity.
Qed.

Theorem wrong_part_count_rejected s hf k c : length (split_dots s) <> 3%nat -> verify_jws s hf k c = false.
Proof.
  intros H. unfold verify_jws. destruct (parse_compact s hf) as [[p g]|] eqn:E; [|reflexivity].
  apply parse_compact_inv in E. destruct E as (h0 & p0 & g0 & E & _). rewrite E in H. elim H. reflexivity.
Qed.

Theorem unknown_key_type_rejected k sig c :
  eqs (k_kty k) "EC" = false -> eqs (k_kty k) "OKP" = false -> verify_signature k sig c = false.
Proof. intros H1 H2. unfold verify_signature. rewrite H1, H2. reflexivity. Qed.

Theorem unknown_curve_rejected k sig c :
  eqs (k_kty k) "EC" = true -> ec_key_size (k_crv k) = None -> verify_signature k sig c = false.
Proof. intros H1 H2. unfold verify_signature. rewrite H1, H2. reflexivity. Qed.

Theorem wrong_signature_size_rejected k sig c n :
  eqs (k_kty k) "EC" = true -> ec_key_size (k_crv k) = Some n -> Z.of_nat (length sig) <> 2 * n ->
  verify_signature k sig c = false.
Proof.
  intros H1 H2 H3. unfold verify_signature. rewrite H1, H2. apply Z.eqb_neq in H3. rewrite H3.
  rewrite andb_false_r. reflexivity.
Qed.

Theorem bad_jwk_rejected k sig c : jwk_decodes k = false -> verify_signature k sig c = false.
Proof.
  intros H. apply not_true_iff_false. intros Hv. apply verify_signature_iff in Hv. destruct Hv as (_ & Hd & _). congruence.
Qed.

Theorem secp256k1_jwk_checks k :
  eq_fold (k_kty k) "EC" = true -> eq_fold (k_crv k) "secp256k1" = true ->
  (jwk_decodes k = true <-> k_x_len k = 32 /\ k_y_len k = 32 /\ k_on_curve k = true).
Proof.
  intros H1 H2. unfold jwk_decodes. rewrite H1, H2. cbn [andb].
  rewrite !andb_true_iff, !Z.eqb_eq. tauto.
Qed.

Lemma refused_signature_rejected k sig : verify_signature k sig false = false.
Proof. apply not_true_iff_false. intros Hv. apply verify_signature_iff in Hv. destruct Hv as [Hc _]. discriminate Hc. Qed.

Theorem forged_signature_rejected s hf k : verify_jws s hf k false = false.
Proof.
  unfold verify_jws. destruct (parse_compact s hf) as [[p g]|]; [|reflexivity].
  destruct (signing_input hf p); [apply refused_signature_rejected | reflexivity].
Qed.

Lemma split_dots_go_skip cur a rest :
  ~ In dot a -> split_dots_go cur (a ++ rest) = split_dots_go (rev a ++ cur) rest.
Proof.
  revert cur. induction a as [|x r IH]; intros cur Hn; [reflexivity|]. cbn [app split_dots_go rev].
  destruct (Byte.eqb x dot) eqn:E.
  - apply byte_eqb_eq in E. subst. elim Hn. left. reflexivity.
  - rewrite IH by (intros Hi; apply Hn; right; exact Hi). rewrite <- app_assoc. reflexivity.
Qed.

Lemma split_dots_go_app cur a rest :
  ~ In dot a -> split_dots_go cur (a ++ dot :: rest) = (rev cur ++ a) :: split_dots_go [] rest.
Proof.
  intros Hn. rewrite (split_dots_go_skip _ _ _ Hn). cbn [split_dots_go].
  change (Byte.eqb dot dot) with true. cbv iota. rewrite rev_app_distr, rev_involutive. reflexivity.
Qed.

Lemma split_dots_go_nodot cur a : ~ In dot a -> split_dots_go cur a = [rev cur ++ a].
Proof.
  intros Hn. rewrite <- (app_nil_r a) at 1. rewrite (split_dots_go_skip _ _ _ Hn). cbn [split_dots_go].
  rewrite rev_app_distr, rev_involutive. reflexivity.
Qed.

Lemma split_dots_three h p g :
  ~ In dot h -> ~ In dot p -> ~ In dot g -> split_dots (h ++ [dot] ++ p ++ [dot] ++ g) = [h; p; g].
Proof.
  intros Hh Hp Hg. unfold split_dots. cbn [app].
  rewrite (split_dots_go_app [] h) by exact Hh. rewrite (split_dots_go_app [] p) by exact Hp.
  rewrite (split_dots_go_nodot [] g) by exact Hg. reflexivity.
Qed.

Theorem compact_parses header payload sig hf :
  header <> [] -> payload <> [] -> sig <> [] -> h_json_ok hf = true -> h_has_alg hf = true ->
  parse_compact (compact header payload sig) hf = Some (payload, sig).
Proof.
  intros Hh Hp Hs Hj Ha. unfold parse_compact, compact.
  rewrite split_dots_three by apply b64_encode_no_dot.
  (* the first character is a base64 character, never '{' *)
  pose proof (b64_encode_forall (fun c => negb (Byte.eqb c x7b)) eq_refl header) as H0.
  destruct (b64_encode header) as [|c0 r0] eqn:Eh; [elim Hh; apply b64_encode_inj; exact Eh|].
  inversion H0 as [|? ? Hc _]. apply negb_true_iff in Hc. cbn [app]. rewrite Hc.
  rewrite <- Eh, !b64_roundtrip, Hj, Ha. cbn [negb].
  destruct payload; [congruence|]. destruct sig; [congruence|]. reflexivity.
Qed.

(* a compact JWS built from a header, a payload and a signature of the right shape verifies as soon as the primitive's
   verdict [crypto_ok] on the signature over the signing input is true.  No signer occurs here: [sig] is arbitrary;
   Primitive.sign_then_verify_with states the same with the primitive and a signer as functions. *)
Theorem sign_then_verify header payload sig hf k msg :
  header <> [] -> payload <> [] -> sig <> [] ->
  h_json_ok hf = true -> h_has_alg hf = true -> signing_input hf payload = Some msg ->
  jwk_decodes k = true ->
  (eqs (k_kty k) "EC" = true /\ exists n, ec_key_size (k_crv k) = Some n /\ Z.of_nat (length sig) = 2 * n)
  \/ (eqs (k_kty k) "EC" = false /\ eqs (k_kty k) "OKP" = true) ->
  verify_jws (compact header payload sig) hf k true = true.
Proof.
  intros Hh Hp Hs Hj Ha Hm Hd Hk. unfold verify_jws. rewrite compact_parses by assumption. rewrite Hm.
  apply verify_signature_iff. auto.
Qed.
