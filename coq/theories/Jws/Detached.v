(* internal/jws.VerifyJWS with the option WithJWSDetachedPayload(d): parseCompactedPayload returns d whenever d is
   non-empty, WITHOUT looking at the payload segment (it may be empty, hold another payload, or not be base64url at
   all); an empty d means the option is absent.  The model states this as: verification of the compact form whose
   payload segment is the encoding of d.  The harness calls the real verifier with the option (hook
   verifhooks.VerifyJWSDetached) and asks the model about that equivalent form (C09 cases "detached:*"). *)
From Coq Require Import List.
From SV Require Import Base.Bytes Hash.B64 Hash.MultihashProofs Jws.Compact Jws.CompactProofs.
Import ListNotations.
Local Open Scope list_scope.

Definition with_payload (s d : bytes) : option bytes :=
  match split_dots s with
  | [h; _; g] => Some (h ++ [dot] ++ b64_encode d ++ [dot] ++ g)
  | _ => None
  end.

Definition verify_jws_detached (s d : bytes) (hf : hdr_facts) (k : jwk) (crypto_ok : bool) : bool :=
  match d with
  | [] => verify_jws s hf k crypto_ok
  | _ :: _ => match with_payload s d with Some s' => verify_jws s' hf k crypto_ok | None => false end
  end.

Lemma split_dots_go_parts_no_dot l : forall cur, ~ In dot cur -> Forall (fun x => ~ In dot x) (split_dots_go cur l).
Proof.
  induction l as [|c r IH]; intros cur Hc; cbn [split_dots_go].
  - constructor; [|constructor]. intros Hi. apply Hc. apply in_rev. exact Hi.
  - destruct (Byte.eqb c dot) eqn:E.
    + constructor; [intros Hi; apply Hc; apply in_rev; exact Hi|]. apply IH. intros [].
    + apply IH. intros [Hi|Hi]; [|exact (Hc Hi)]. subst. assert (Byte.eqb dot dot = true) by reflexivity. congruence.
Qed.

Lemma split_with_payload s d h p g :
  split_dots s = [h; p; g] -> split_dots (h ++ [dot] ++ b64_encode d ++ [dot] ++ g) = [h; b64_encode d; g].
Proof.
  intros Hs. pose proof (split_dots_go_parts_no_dot s [] (fun x => x)) as Hf. fold (split_dots s) in Hf. rewrite Hs in Hf.
  inversion Hf as [|? ? Hh Hf1]; subst. inversion Hf1 as [|? ? _ Hf2]; subst. inversion Hf2 as [|? ? Hg _]; subst.
  apply split_dots_three; [exact Hh | apply b64_encode_no_dot | exact Hg].
Qed.

Lemma parse_with_payload s d h p g hf payload sig :
  split_dots s = [h; p; g] ->
  parse_compact (h ++ [dot] ++ b64_encode d ++ [dot] ++ g) hf = Some (payload, sig) -> payload = d /\ b64_decode g = Some sig.
Proof.
  intros Hs Hp. apply parse_compact_inv in Hp. destruct Hp as (h' & p' & g' & Hs' & Hdp & Hdg & _).
  rewrite (split_with_payload s d h p g Hs) in Hs'. inversion Hs'; subst h' p' g'.
  rewrite b64_roundtrip in Hdp. inversion Hdp. auto.
Qed.

(* what is verified under the option is the caller's payload: acceptance means that the signature primitive accepted the
   signing input built from the header and d - the payload segment p plays no role *)
Theorem detached_sound s d hf k crypto_ok :
  d <> [] -> verify_jws_detached s d hf k crypto_ok = true ->
  exists h p g sig msg, split_dots s = [h; p; g] /\ b64_decode g = Some sig /\ sig <> [] /\
    signing_input hf d = Some msg /\ crypto_ok = true /\ jwk_decodes k = true.
Proof.
  intros Hd. unfold verify_jws_detached. destruct d as [|d0 dr]; [congruence|].
  unfold with_payload. destruct (split_dots s) as [|h [|p [|g [|x r]]]] eqn:Hs; try discriminate.
  intros Hv. apply verify_sound in Hv. destruct Hv as (payload & sig & msg & Hp & Hm & Hc & Hk & _ & Hsig & _).
  destruct (parse_with_payload s (d0 :: dr) h p g hf payload sig Hs Hp) as [-> Hg].
  exists h, p, g, sig, msg. repeat split; assumption.
Qed.

Theorem detached_ignores_segment h p p' g d hf k crypto_ok :
  d <> [] -> ~ In dot h -> ~ In dot p -> ~ In dot p' -> ~ In dot g ->
  verify_jws_detached (h ++ [dot] ++ p ++ [dot] ++ g) d hf k crypto_ok =
  verify_jws_detached (h ++ [dot] ++ p' ++ [dot] ++ g) d hf k crypto_ok.
Proof.
  intros Hd Hh Hp Hp' Hg. unfold verify_jws_detached, with_payload. destruct d as [|d0 dr]; [congruence|].
  rewrite !split_dots_three by assumption. reflexivity.
Qed.

(* whatever the segment and the payload supplied, a signature the primitive refuses is refused *)
Theorem detached_forged_rejected s d hf k : verify_jws_detached s d hf k false = false.
Proof.
  unfold verify_jws_detached. destruct d; [apply forged_signature_rejected|].
  destruct (with_payload s _); [apply forged_signature_rejected|reflexivity].
Qed.

Theorem detached_without_option s hf k crypto_ok : verify_jws_detached s [] hf k crypto_ok = verify_jws s hf k crypto_ok.
Proof. reflexivity. Qed.
