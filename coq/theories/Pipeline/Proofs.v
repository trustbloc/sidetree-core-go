(* C20 - theorems about the pipeline model, for ALL event sequences (induction over the event list).

   - conservation             every accepted request is in exactly one place; nothing else is stored;
                              a refused request leaves no trace
   - per_suffix_order         per DID, stored operations carry strictly increasing coordinates (one
                              operation per DID per transaction); the store order IS the anchoring order.
                              FIFO per DID (anchoring order = submission order) is REFUTED: fifo_refuted
   - pipeline_resolves_to_spec / good_chain_resolves / pipeline_fold
                              resolution = reference machine on the stored operations in anchoring
                              order; for correct chains = left fold of apply
   - create_views_agree       immediate response, long-form and short-form resolution of a create
   - accepted_effect / batch_shape / stored_version
                              which protocol version an operation is validated, batched, stamped and
                              applied under *)
From Coq Require Import List ZArith Bool Lia Permutation Sorted.
From SV Require Import Base.PermCount Base.Split3 Base.TakeWhile Resolve.Op Resolve.Apply Resolve.Process Resolve.Intake Resolve.Order Resolve.Prepare
  Resolve.Chain Resolve.Terminal Resolve.Refine Resolve.Extend Pipeline.Model.
Import ListNotations.
Local Open Scope Z_scope.

(* order-preserving sub-list *)
Inductive sub {A} : list A -> list A -> Prop :=
| sub_nil : sub [] []
| sub_skip x l l' : sub l l' -> sub l (x :: l')
| sub_keep x l l' : sub l l' -> sub (x :: l) (x :: l').

Lemma sub_refl {A} (l : list A) : sub l l.
Proof. induction l; constructor; assumption. Qed.

Lemma sub_nil_l {A} (l : list A) : sub [] l.
Proof. induction l; constructor; assumption. Qed.

Lemma sub_app {A} (a a' b b' : list A) : sub a a' -> sub b b' -> sub (a ++ b) (a' ++ b').
Proof. induction 1; intros Hb; cbn [app]; [assumption | apply sub_skip; auto | apply sub_keep; auto]. Qed.

Lemma sub_app_l {A} (a b : list A) : sub a (a ++ b).
Proof. rewrite <- (app_nil_r a) at 1. apply sub_app; [apply sub_refl | apply sub_nil_l]. Qed.

Lemma sub_trans {A} (a b c : list A) : sub a b -> sub b c -> sub a c.
Proof.
  intros Hab Hbc. revert a Hab. induction Hbc; intros a Hab.
  - exact Hab.
  - apply sub_skip. apply IHHbc. exact Hab.
  - inversion Hab; subst; [apply sub_skip | apply sub_keep]; apply IHHbc; assumption.
Qed.

Lemma sub_map {A B} (f : A -> B) l l' : sub l l' -> sub (map f l) (map f l').
Proof. induction 1; cbn [map]; [apply sub_nil | apply sub_skip; assumption | apply sub_keep; assumption]. Qed.

Lemma sub_in {A} (l l' : list A) x : sub l l' -> In x l -> In x l'.
Proof. induction 1; cbn [In]; intros Hx; [tauto | right; auto | destruct Hx; [left; assumption | right; auto]]. Qed.

Lemma sub_length {A} (l l' : list A) : sub l l' -> (length l <= length l')%nat.
Proof. induction 1; cbn [length]; lia. Qed.

Lemma sub_filter {A} (p : A -> bool) l : sub (filter p l) l.
Proof. induction l as [|x r IH]; cbn [filter]; [constructor|]. destruct (p x); [apply sub_keep | apply sub_skip]; assumption. Qed.

Lemma Forall_sub {A} (P : A -> Prop) l l' : sub l l' -> Forall P l' -> Forall P l.
Proof. intros Hs Hf. rewrite Forall_forall in *. intros x Hx. apply Hf. eapply sub_in; eassumption. Qed.

Lemma NoDup_sub {A} (l l' : list A) : sub l l' -> NoDup l' -> NoDup l.
Proof.
  induction 1; intros Hn; [constructor | |].
  - inversion Hn; subst. auto.
  - inversion Hn as [|? ? Hx Hr]; subst. constructor; [|auto]. intros Hi. apply Hx. eapply sub_in; eassumption.
Qed.

Lemma SS_sub {A} (R : A -> A -> Prop) l l' : sub l l' -> StronglySorted R l' -> StronglySorted R l.
Proof.
  induction 1; intros Hs; [constructor | |].
  - apply StronglySorted_inv in Hs. apply IHsub, Hs.
  - apply StronglySorted_inv in Hs. destruct Hs as [Hs Hf]. constructor; [apply IHsub, Hs|].
    eapply Forall_sub; eassumption.
Qed.

Lemma SS_app {A} (R : A -> A -> Prop) l1 l2 :
  StronglySorted R l1 -> StronglySorted R l2 -> (forall a b, In a l1 -> In b l2 -> R a b) ->
  StronglySorted R (l1 ++ l2).
Proof.
  induction l1 as [|x r IH]; intros H1 H2 H12; cbn [app]; [assumption|].
  apply StronglySorted_inv in H1. destruct H1 as [H1 Hf]. constructor.
  - apply IH; [assumption | assumption | intros a b Ha Hb; apply H12; [right; assumption | assumption]].
  - apply Forall_app. split; [assumption|]. rewrite Forall_forall. intros b Hb. apply H12; [left; reflexivity | assumption].
Qed.

Lemma SS_map {A B} (f : A -> B) (R : B -> B -> Prop) l :
  StronglySorted (fun a b => R (f a) (f b)) l -> StronglySorted R (map f l).
Proof.
  induction 1; cbn [map]; constructor; [assumption|]. rewrite Forall_forall in *. intros y Hy.
  apply in_map_iff in Hy. destruct Hy as (z & <- & Hz). auto.
Qed.

Lemma SS_weaken {A} (R R' : A -> A -> Prop) l :
  (forall a b, In a l -> In b l -> R a b -> R' a b) -> StronglySorted R l -> StronglySorted R' l.
Proof.
  intros Hw. induction 1; constructor.
  - apply IHStronglySorted. intros x y Hx Hy. apply Hw; right; assumption.
  - rewrite Forall_forall in *. intros y Hy. apply Hw; [left; reflexivity | right; assumption | auto].
Qed.

(* sorted by a relation that separates keys: at most one element per key *)
Lemma SS_inj {A K} (R : A -> A -> Prop) (k : A -> K) l :
  StronglySorted R l -> (forall a b, R a b -> k a <> k b) -> forall a b, In a l -> In b l -> k a = k b -> a = b.
Proof.
  intros Hs Hne. induction Hs as [|x r Hs IH Hf]; intros a b Ha Hb Hk; [destruct Ha|].
  rewrite Forall_forall in Hf. destruct Ha as [<-|Ha], Hb as [<-|Hb].
  - reflexivity.
  - destruct (Hne _ _ (Hf b Hb) Hk).
  - destruct (Hne _ _ (Hf a Ha) (eq_sym Hk)).
  - apply IH; assumption.
Qed.

Lemma concat_map_sub {A B} (f g : A -> list B) l : (forall x, sub (f x) (g x)) -> sub (concat (map f l)) (concat (map g l)).
Proof. intros H. induction l; cbn [map concat]; [constructor | apply sub_app; auto]. Qed.

(* one decision procedure per type on the way down, each used by the next: [repeat decide equality] alone derives
   equality on Z anew at each of the nineteen fields of an operation *)
Lemma qent_eq_dec : forall a b : qent, {a = b} + {a <> b}.
Proof.
  pose proof Z.eq_dec as Hz. pose proof bool_dec as Hb.
  assert (Ho : forall a b : option Z, {a = b} + {a <> b}) by decide equality.
  assert (Ht : forall a b : optype, {a = b} + {a <> b}) by decide equality.
  assert (Ha : forall a b : aop, {a = b} + {a <> b}) by decide equality.
  assert (Hr : forall a b : request, {a = b} + {a <> b}) by decide equality.
  decide equality.
Qed.

Lemma version_at_in vs t v : version_at vs t = Some v -> In v vs /\ pv_genesis v <= t.
Proof.
  induction vs as [|w r IH]; cbn [version_at]; [discriminate|].
  destruct (version_at r t) as [u|] eqn:E.
  - intros H; inversion H; subst. destruct (IH eq_refl) as [Hi Hg]. split; [right; assumption | assumption].
  - destruct (pv_genesis w <=? t) eqn:Eg; [|discriminate]. intros H; inversion H; subst.
    split; [left; reflexivity | apply Z.leb_le; assumption].
Qed.

Lemma version_at_some vs t v : In v vs -> pv_genesis v <= t -> version_at vs t <> None.
Proof.
  induction vs as [|w r IH]; cbn [In version_at]; [tauto|]. intros [->|Hi] Hg.
  - destruct (version_at r t); [discriminate|]. apply Z.leb_le in Hg. rewrite Hg. discriminate.
  - specialize (IH Hi Hg). destruct (version_at r t); [discriminate | congruence].
Qed.

Lemma version_at_none_mono vs t t' : version_at vs t = None -> t' <= t -> version_at vs t' = None.
Proof.
  induction vs as [|w r IH]; cbn [version_at]; [reflexivity|]. intros H Hle.
  destruct (version_at r t) eqn:E; [discriminate|]. rewrite (IH eq_refl Hle).
  destruct (pv_genesis w <=? t) eqn:Eg; [discriminate|]. apply Z.leb_gt in Eg.
  destruct (pv_genesis w <=? t') eqn:Eg'; [apply Z.leb_le in Eg'; lia | reflexivity].
Qed.

(* looking the accepting version up again by its genesis time finds the same version *)
Lemma version_at_idem vs t v : version_at vs t = Some v -> version_at vs (pv_genesis v) = Some v.
Proof.
  induction vs as [|w r IH]; cbn [version_at]; [discriminate|].
  destruct (version_at r t) as [u|] eqn:E.
  - intros H; inversion H; subst. rewrite (IH eq_refl). reflexivity.
  - destruct (pv_genesis w <=? t) eqn:Eg; [|discriminate]. intros H; inversion H; subst.
    apply Z.leb_le in Eg. rewrite (version_at_none_mono _ _ _ E Eg). rewrite Z.leb_refl. reflexivity.
Qed.

Lemma version_at_genesis vs t v : version_at vs t = Some v -> version_at vs (pv_genesis v) <> None.
Proof. intros H. rewrite (version_at_idem _ _ _ H). discriminate. Qed.

Lemma svp_take_while v l : same_version_prefix v l = take_while (fun q => qe_ver q =? v) l.
Proof. induction l as [|q r IH]; cbn [same_version_prefix take_while]; [|rewrite IH]; reflexivity. Qed.

(* [split_batch] is Base/Split3.split3 on queue entries *)
Lemma split_batch_split3 ex l : forall seen,
  split_batch ex seen l =
  let s := split3 (fun q => ex (qe_id q)) qe_sfx memZ seen l in
  {| sp_in := s3_in s; sp_add := s3_add s; sp_exp := s3_exp s |}.
Proof.
  induction l as [|q r IH]; intros seen; cbn [split_batch split3]; [reflexivity|].
  rewrite !IH. destruct (ex (qe_id q)); [|destruct (memZ (qe_sfx q) seen)]; reflexivity.
Qed.

Lemma split_perm ex seen l :
  let s := split_batch ex seen l in Permutation l (sp_in s ++ sp_add s ++ sp_exp s).
Proof. cbn zeta. rewrite split_batch_split3. apply split3_perm. Qed.

Lemma split_in_sfx ex seen l :
  NoDup (map qe_sfx (sp_in (split_batch ex seen l))) /\
  forall q, In q (sp_in (split_batch ex seen l)) -> ~ In (qe_sfx q) seen.
Proof.
  rewrite split_batch_split3. destruct (split3_in (fun q => ex (qe_id q)) qe_sfx memZ memZ_In l seen) as [Hn Hi].
  split; [exact Hn | intros q Hq; apply (Hi q Hq)].
Qed.

Lemma split_sub_in ex seen l : sub (sp_in (split_batch ex seen l)) l.
Proof.
  revert seen. induction l as [|q r IH]; intros seen; cbn [split_batch]; [constructor|].
  destruct (ex (qe_id q)); [apply sub_skip; apply IH|]. destruct (memZ (qe_sfx q) seen); [apply sub_skip | apply sub_keep]; apply IH.
Qed.

(* F16: a batch in which nothing is included (every operation expired) hands nothing back either *)
Lemma split_in_nil_add_nil ex l : sp_in (split_batch ex [] l) = [] -> sp_add (split_batch ex [] l) = [].
Proof. rewrite split_batch_split3. apply split3_in_nil, memZ_In. Qed.

(* a non-empty batch makes progress: not everything is handed back *)
Lemma split_progress ex l : l <> [] -> (length (sp_add (split_batch ex [] l)) < length l)%nat.
Proof. rewrite split_batch_split3. apply split3_add_lt, memZ_In. Qed.

Lemma dedup_perm seen l : Permutation l (fst (dedup_split seen l) ++ snd (dedup_split seen l)).
Proof.
  revert seen. induction l as [|q r IH]; intros seen; cbn [dedup_split]; [constructor|].
  destruct (memZ (qe_sfx q) seen).
  - specialize (IH seen). destruct (dedup_split seen r) as [k d]. apply Permutation_cons_app. exact IH.
  - specialize (IH (qe_sfx q :: seen)). destruct (dedup_split (qe_sfx q :: seen) r) as [k d]. constructor. exact IH.
Qed.

Lemma dedup_sub seen l : sub (fst (dedup_split seen l)) l.
Proof.
  revert seen. induction l as [|q r IH]; intros seen; cbn [dedup_split]; [constructor|].
  destruct (memZ (qe_sfx q) seen).
  - specialize (IH seen). destruct (dedup_split seen r). cbn [fst] in *. apply sub_skip. exact IH.
  - specialize (IH (qe_sfx q :: seen)). destruct (dedup_split (qe_sfx q :: seen) r). cbn [fst] in *. apply sub_keep. exact IH.
Qed.

(* the operation handler never puts a suffix twice into a batch, so the transaction processor's
   duplicate check never fires *)
Lemma dedup_nodup seen l :
  NoDup (map qe_sfx l) -> (forall q, In q l -> ~ In (qe_sfx q) seen) -> dedup_split seen l = (l, []).
Proof.
  revert seen. induction l as [|q r IH]; intros seen Hn Hs; cbn [dedup_split]; [reflexivity|].
  cbn [map] in Hn. inversion Hn as [|? ? Hq Hr]; subst.
  assert (Em : memZ (qe_sfx q) seen = false) by (apply memZ_false, Hs; left; reflexivity). rewrite Em.
  rewrite IH; [reflexivity | assumption |].
  intros z Hz [Hin|Hin]; [|exact (Hs z (or_intror Hz) Hin)].
  apply Hq. rewrite Hin. apply in_map. exact Hz.
Qed.

Definition txn_sops (t : txn) : list sop := map (stamp_sop t) (t_ops t).

(* everything that has been anchored, in anchoring order: the store, then the unobserved transactions *)
Definition anch (st : pstate) : list sop := store st ++ concat (map txn_sops (ledger st)).

(* a is anchored before b (not after it), and strictly before it when they belong to the same DID *)
Definition before (a b : sop) : Prop :=
  s_time a <= s_time b /\ s_num a <= s_num b /\ (s_sfx a = s_sfx b -> s_num a < s_num b).

Definition bounded (st : pstate) (e : sop) : Prop :=
  s_time e <= now st /\ 0 <= s_num e < next_num st /\ s_cref e = s_num e + 1.

(* the protocol version on a stored operation, by ledger policy *)
Definition stamp_ok (cfg : config) (e : sop) : Prop :=
  s_pver e = if c_by_time cfg then s_time e else qe_ver (s_q e).

(* q was accepted under a version of the table, recorded by its genesis time *)
Definition accepted_under (cfg : config) (q : qent) : Prop :=
  exists v, version_at (c_versions cfg) (qe_ver q) = Some v /\ pv_genesis v = qe_ver q.

Record inv (cfg : config) (st : pstate) : Prop := {
  inv_cons : Permutation (accepted st) (places st);
  inv_sorted : StronglySorted before (anch st);
  inv_bound : Forall (bounded st) (anch st);
  inv_num : 0 <= next_num st;
  inv_unpub : incl (map u_q (unpub st)) (accepted st);
  inv_qver : Forall (accepted_under cfg) (accepted st);
  inv_ledger : Forall (fun t => version_at (c_versions cfg) (t_pver t) <> None /\ NoDup (map qe_sfx (t_ops t)) /\ t_ops t <> [])
                      (ledger st);
  inv_dropped : dropped st = [];
  inv_stamp : Forall (stamp_ok cfg) (anch st);
  inv_pver : Forall (fun e => version_at (c_versions cfg) (s_pver e) <> None) (anch st) }.

Lemma inv_init cfg t0 : inv cfg (init t0).
Proof.
  constructor; cbn; try constructor; try lia. intros x [].
Qed.

Lemma intake_version cfg st r v : intake cfg st r = Some v -> version_at (c_versions cfg) (now st) = Some v.
Proof.
  unfold intake. destruct (version_at (c_versions cfg) (now st)) as [w|]; [|discriminate].
  destruct (negb (rq_intake_ok r)); [discriminate|].
  destruct (rq_ty r); try (intros H; inversion H; reflexivity);
    destruct (decorate _ _); intros H; inversion H; reflexivity.
Qed.

Lemma submit_inv cfg st r w : inv cfg st -> inv cfg (submit cfg st r w).
Proof.
  intros I. unfold submit. destruct (intake cfg st r) as [v|] eqn:Ei; [|exact I].
  pose proof (intake_version _ _ _ _ Ei) as Hv.
  destruct I as [Ic Is Ib In Iu Iq Il Id Ist Ipv].
  constructor; unfold places, ledger_ops, anch in *; cbn [accepted queue ledger store expired dropped now next_num unpub]; try assumption.
  - rewrite <- app_assoc. cbn [app]. rewrite <- Permutation_cons_append, <- Permutation_middle. constructor. exact Ic.
  - destruct (unpub_type cfg (rq_ty r)); [rewrite map_app; apply incl_app_app; [exact Iu | apply incl_refl] | apply incl_appl; exact Iu].
  - apply Forall_app. split; [assumption|]. constructor; [|constructor].
    exists v. cbn [qe_ver]. split; [apply (version_at_idem _ _ _ Hv) | reflexivity].
Qed.

(* the transaction a cut writes: none when every operation of the batch has expired (F16) *)
Definition mk_txn (cfg : config) (st : pstate) (ver : Z) (sp : split) : txn :=
  {| t_time := now st; t_num := next_num st; t_cref := next_num st + 1;
     t_pver := if c_by_time cfg then now st else ver; t_ops := sp_in sp |}.
Definition cut_txns (cfg : config) (st : pstate) (ver : Z) (sp : split) : list txn :=
  match sp_in sp with [] => [] | _ :: _ => [mk_txn cfg st ver sp] end.
Definition cut_num (st : pstate) (sp : split) : Z :=
  match sp_in sp with [] => next_num st | _ :: _ => next_num st + 1 end.

Lemma cut_txns_cases cfg st ver sp :
  (sp_in sp = [] /\ cut_txns cfg st ver sp = [] /\ cut_num st sp = next_num st) \/
  (sp_in sp <> [] /\ cut_txns cfg st ver sp = [mk_txn cfg st ver sp] /\ cut_num st sp = next_num st + 1).
Proof.
  unfold cut_txns, cut_num. destruct (sp_in sp) as [|i0 ir]; [left | right]; repeat split; discriminate.
Qed.

Lemma cut_spec cfg ex f st st' :
  cut cfg ex f st = Some st' ->
  exists cur batch rest ver,
    version_at (c_versions cfg) (now st) = Some cur /\
    batch <> [] /\ queue st = batch ++ rest /\
    Forall (fun q => qe_ver q = ver) batch /\ (length batch <= pv_max cur)%nat /\
    (f = false -> (pv_max cur <= length (queue st))%nat) /\
    version_at (c_versions cfg) ver <> None /\
    let sp := split_batch (fun i => memZ i ex) [] batch in
    st' = {| now := now st; next_num := cut_num st sp;
             queue := rest ++ sp_add sp;
             ledger := ledger st ++ cut_txns cfg st ver sp;
             store := store st; unpub := unpub st; expired := expired st ++ sp_exp sp; dropped := dropped st;
             accepted := accepted st |}.
Proof.
  unfold cut. destruct (version_at (c_versions cfg) (now st)) as [cur|] eqn:Ev; [|discriminate].
  destruct (negb f && (length (queue st) <? pv_max cur)%nat) eqn:Ec; [discriminate|].
  destruct (firstn (Nat.min (length (queue st)) (pv_max cur)) (queue st)) as [|q0 w] eqn:Ew; [discriminate|].
  destruct (version_at (c_versions cfg) (qe_ver q0)) as [vv|] eqn:Evv; [|discriminate].
  set (batch := same_version_prefix (qe_ver q0) (q0 :: w)).
  intros H.
  exists cur, batch, (skipn (length batch) (queue st)), (qe_ver q0).
  destruct (take_while_window (fun q => qe_ver q =? qe_ver q0) (fun q => qe_ver q = qe_ver q0)
              (Nat.min (length (queue st)) (pv_max cur)) (queue st) (fun q => proj1 (Z.eqb_eq _ _))) as (Hh & Hl & Hb).
  rewrite firstn_length in Hl. rewrite Ew, <- svp_take_while in Hh, Hb. rewrite Ew, <- svp_take_while in Hl. fold batch in Hh, Hl, Hb.
  split; [reflexivity|].
  split; [unfold batch; cbn [same_version_prefix]; rewrite Z.eqb_refl; discriminate|].
  split; [rewrite Hb at 1; symmetry; apply firstn_skipn|].
  split; [exact Hh|].
  split; [lia|].
  split; [intros ->; cbn [negb andb] in Ec; apply Nat.ltb_ge in Ec; exact Ec|].
  split; [rewrite Evv; discriminate|].
  (* the two branches of [cut] are one record: with nothing included nothing is handed back *)
  cbv zeta. unfold cut_num, cut_txns, mk_txn.
  pose proof (split_in_nil_add_nil (fun i => memZ i ex) batch) as Hadd.
  destruct (sp_in (split_batch (fun i => memZ i ex) [] batch)) as [|i0 ir] eqn:Ein; injection H as <-;
    [rewrite (Hadd eq_refl), !app_nil_r|]; reflexivity.
Qed.

Lemma stamp_same_txn_sorted t l : NoDup (map qe_sfx l) -> StronglySorted before (map (stamp_sop t) l).
Proof.
  induction l as [|q r IH]; cbn [map]; intros Hn; [constructor|]. inversion Hn as [|? ? Hq Hr]; subst.
  constructor; [apply IH; assumption|]. rewrite Forall_forall. intros e He. apply in_map_iff in He.
  destruct He as (z & <- & Hz). unfold before, stamp_sop, s_sfx. cbn [s_time s_num s_q].
  repeat split; try lia. intros Heq. exfalso. apply Hq. rewrite Heq. apply in_map. exact Hz.
Qed.

Lemma anch_snoc st t : store st ++ concat (map txn_sops (ledger st ++ [t])) = anch st ++ txn_sops t.
Proof. unfold anch. rewrite map_app, concat_app. cbn [map concat]. rewrite app_nil_r, app_assoc. reflexivity. Qed.

Lemma Forall_anch_snoc (P : sop -> Prop) st t :
  Forall P (anch st) -> (forall q, In q (t_ops t) -> P (stamp_sop t q)) -> Forall P (anch st ++ txn_sops t).
Proof.
  intros Ha Ht. apply Forall_app. split; [exact Ha|]. rewrite Forall_forall. intros e He.
  unfold txn_sops in He. apply in_map_iff in He. destruct He as (z & <- & Hz). apply Ht. exact Hz.
Qed.

Lemma cut_inv cfg ex f st st' : cut cfg ex f st = Some st' -> inv cfg st -> inv cfg st'.
Proof.
  intros Hc I. destruct (cut_spec _ _ _ _ _ Hc) as (cur & batch & rest & ver & Hcur & Hne & Hq & Hver & Hlen & _ & Hvv & ->).
  destruct I as [Ic Is Ib In Iu Iq Il Id Ist Ipv].
  pose proof (split_perm (fun i => memZ i ex) [] batch) as Hsp. cbn zeta in Hsp.
  destruct (split_in_sfx (fun i => memZ i ex) [] batch) as [Hnd _].
  set (sp := split_batch (fun i => memZ i ex) [] batch) in *.
  destruct (cut_txns_cases cfg st ver sp) as [(Hin & -> & ->) | (Hin & -> & ->)].
  { (* F16: every operation of the batch expired: no transaction, the batch goes to [expired] *)
    rewrite Hin in Hsp. cbn [app] in Hsp.
    constructor; unfold places, ledger_ops, anch in *;
      cbn [accepted queue ledger store expired dropped now next_num unpub]; rewrite ?app_nil_r; try assumption.
    rewrite Hq in Ic. perm_count qent_eq_dec x. lia. }
  set (t := mk_txn cfg st ver sp).
  constructor; unfold places, ledger_ops; cbn [accepted queue ledger store expired dropped now next_num unpub]; try assumption; try lia.
  - unfold places, ledger_ops in Ic. rewrite Hq in Ic. rewrite map_app, concat_app. cbn [map concat t_ops t mk_txn]. rewrite app_nil_r.
    perm_count qent_eq_dec x. lia.
  - unfold anch at 1. cbn [store ledger]. rewrite anch_snoc. apply SS_app; [assumption | apply stamp_same_txn_sorted; exact Hnd |].
    intros a b Ha Hb. rewrite Forall_forall in Ib. destruct (Ib a Ha) as (Ht & Hn & _).
    unfold txn_sops in Hb. apply in_map_iff in Hb. destruct Hb as (z & <- & _).
    unfold before, stamp_sop. cbn [s_time s_num t_time t_num t mk_txn]. repeat split; lia.
  - unfold anch at 1. cbn [store ledger]. rewrite anch_snoc. apply Forall_anch_snoc.
    + eapply Forall_impl; [|exact Ib]. intros e (Ht & Hn & Hcr). unfold bounded. cbn [now next_num]. repeat split; lia.
    + intros z _. unfold bounded, stamp_sop. cbn [now next_num s_time s_num s_cref t_time t_num t_cref t mk_txn]. repeat split; lia.
  - apply Forall_app. split; [assumption|]. constructor; [|constructor]. cbn [t_pver t_ops t mk_txn]. split; [|split; [exact Hnd | exact Hin]].
    destruct (c_by_time cfg); [congruence | exact Hvv].
  - unfold anch at 1. cbn [store ledger]. rewrite anch_snoc. apply Forall_anch_snoc; [assumption|]. intros z Hz.
    unfold stamp_ok, stamp_sop. cbn [s_pver s_time s_q t_pver t_time t t_ops mk_txn] in *.
    destruct (c_by_time cfg); [reflexivity|]. rewrite Forall_forall in Hver. symmetry. apply Hver.
    eapply sub_in; [apply split_sub_in | exact Hz].
  - unfold anch at 1. cbn [store ledger]. rewrite anch_snoc. apply Forall_anch_snoc; [assumption|]. intros z _.
    unfold stamp_sop. cbn [s_pver t_pver t mk_txn]. destruct (c_by_time cfg); [congruence | exact Hvv].
Qed.

(* what every successful cut preserves, the drain loop and a whole flush preserve *)
Section CutClosure.
  Variables (cfg : config) (ex : list Z) (R : pstate -> pstate -> Prop).
  Hypothesis R_refl : forall st, R st st.
  Hypothesis R_trans : forall a b c, R a b -> R b c -> R a c.
  Hypothesis R_cut : forall f st st', cut cfg ex f st = Some st' -> R st st'.

  Lemma drain_closure fuel : forall st, R st (drain cfg ex fuel st).
  Proof.
    induction fuel as [|n IH]; intros st; cbn [drain]; [apply R_refl|].
    destruct (cut cfg ex false st) as [st'|] eqn:Ec; [|apply R_refl]. eapply R_trans; [eapply R_cut; exact Ec | apply IH].
  Qed.

  Lemma flush_closure f st : R st (flush cfg ex f st).
  Proof.
    unfold flush. pose proof (drain_closure (S (length (queue st))) st) as Hd.
    destruct (_ || _); [exact Hd|]. destruct (cut cfg ex true _) as [st2|] eqn:Ec; [|exact Hd].
    eapply R_trans; [exact Hd | eapply R_cut; exact Ec].
  Qed.
End CutClosure.

Lemma flush_inv cfg ex f st : inv cfg st -> inv cfg (flush cfg ex f st).
Proof.
  refine (flush_closure cfg ex (fun a b => inv cfg a -> inv cfg b) _ _ _ f st); [auto | auto|].
  intros f0 a b Hc. eapply cut_inv. exact Hc.
Qed.

Definition set_ledger (st : pstate) (l : list txn) : pstate :=
  {| now := now st; next_num := next_num st; queue := queue st; ledger := l; store := store st;
     unpub := unpub st; expired := expired st; dropped := dropped st; accepted := accepted st |}.

Lemma set_ledger_id st : set_ledger st (ledger st) = st.
Proof. destruct st; reflexivity. Qed.

Lemma observe_txn_set_ledger cfg st l t : observe_txn cfg (set_ledger st l) t = set_ledger (observe_txn cfg st t) l.
Proof.
  unfold observe_txn. destruct (version_at (c_versions cfg) (t_pver t)); [|reflexivity].
  destruct (dedup_split [] (t_ops t)). reflexivity.
Qed.

Lemma remove_first_sub s k l : sub (remove_first s k l) l.
Proof.
  induction l as [|u r IH]; cbn [remove_first]; [constructor|].
  destruct ((u_sfx u =? s) && (rq_key (qe_req (u_q u)) =? k)); [apply sub_skip, sub_refl | apply sub_keep, IH].
Qed.

Lemma delete_all_sub cfg kept : forall un, sub (delete_all cfg kept un) un.
Proof.
  unfold delete_all. induction kept as [|q r IH]; intros un; cbn [fold_left]; [apply sub_refl|].
  eapply sub_trans; [apply IH|]. destruct (unpub_type cfg (rq_ty (qe_req q))); [apply remove_first_sub | apply sub_refl].
Qed.

Lemma map_stamp_s_q t l : map s_q (map (stamp_sop t) l) = l.
Proof. rewrite map_map. cbn [stamp_sop s_q]. apply map_id. Qed.

Lemma observe_txn_inv cfg st t r : inv cfg (set_ledger st (t :: r)) -> inv cfg (set_ledger (observe_txn cfg st t) r).
Proof.
  intros I. destruct I as [Ic Is Ib In Iu Iq Il Id Ist Ipv].
  unfold places, ledger_ops, anch in *.
  cbn [set_ledger accepted queue ledger store expired dropped now next_num unpub map concat] in *.
  inversion Il as [|? ? (Hv & Hnd & Hne0) Il']; subst.
  unfold observe_txn. destruct (version_at (c_versions cfg) (t_pver t)) as [vv|]; [|congruence].
  rewrite (dedup_nodup [] (t_ops t) Hnd) by (intros ? ? []).
  constructor; unfold places, ledger_ops, anch; cbn [set_ledger accepted queue ledger store expired dropped now next_num unpub];
    rewrite <- ?app_assoc; try assumption.
  - rewrite map_app, map_stamp_s_q, app_nil_r. perm_count qent_eq_dec x. lia.
  - intros x Hx. apply Iu. eapply sub_in; [apply sub_map, delete_all_sub | exact Hx].
  - rewrite app_nil_r. exact Id.
Qed.

Lemma observe_fold_inv cfg : forall ts st, inv cfg (set_ledger st ts) -> inv cfg (set_ledger (fold_left (observe_txn cfg) ts st) []).
Proof.
  induction ts as [|t r IH]; intros st I; cbn [fold_left]; [exact I|].
  apply IH. apply observe_txn_inv. exact I.
Qed.

Lemma observe_inv cfg st : inv cfg st -> inv cfg (observe cfg st).
Proof.
  intros I. unfold observe. change (clear_ledger ?x) with (set_ledger x []).
  apply observe_fold_inv. rewrite set_ledger_id. exact I.
Qed.

Lemma set_now_inv cfg st t : now st <= t -> inv cfg st -> inv cfg (set_now st t).
Proof.
  intros Hle I. destruct I as [Ic Is Ib In Iu Iq Il Id Ist Ipv].
  constructor; unfold places, ledger_ops, anch in *; cbn [set_now accepted queue ledger store expired dropped now next_num unpub]; try assumption.
  rewrite Forall_forall in *. intros e He. destruct (Ib e He) as (Ht & Hn & Hc).
  unfold bounded. cbn [set_now now next_num]. repeat split; lia.
Qed.

Lemma step_inv cfg st e : inv cfg st -> inv cfg (step cfg st e).
Proof.
  intros I. destruct e as [r w|f ex| |t]; cbn [step].
  - apply submit_inv; exact I.
  - apply flush_inv; exact I.
  - apply observe_inv; exact I.
  - destruct (now st <=? t) eqn:E; [apply set_now_inv; [apply Z.leb_le; exact E | exact I] | exact I].
Qed.

Theorem run_inv cfg es : forall st, inv cfg st -> inv cfg (run cfg st es).
Proof. unfold run. induction es as [|e r IH]; intros st I; cbn [fold_left]; [exact I | apply IH, step_inv, I]. Qed.

Corollary reachable_inv cfg t0 es : inv cfg (run cfg (init t0) es).
Proof. apply run_inv, inv_init. Qed.

Lemma cut_shrinks cfg ex f st st' : cut cfg ex f st = Some st' -> (length (queue st') < length (queue st))%nat.
Proof.
  intros Hc. destruct (cut_spec _ _ _ _ _ Hc) as (cur & batch & rest & ver & _ & Hne & Hq & _ & _ & _ & _ & ->).
  cbn [queue]. rewrite Hq, !app_length. pose proof (split_progress (fun i => memZ i ex) batch Hne). lia.
Qed.

Lemma drain_done cfg ex : forall fuel st, (length (queue st) < fuel)%nat -> cut cfg ex false (drain cfg ex fuel st) = None.
Proof.
  induction fuel as [|n IH]; intros st Hlt; [lia|]. cbn [drain].
  destruct (cut cfg ex false st) as [st'|] eqn:Ec; [|exact Ec].
  apply IH. pose proof (cut_shrinks _ _ _ _ _ Ec). lia.
Qed.

(* the fuel [flush] supplies is enough: when the drain loop of the model stops, the real loop has
   stopped too (an unforced cut returns nothing) *)
Theorem drain_fuel_suffices cfg ex st : cut cfg ex false (drain cfg ex (S (length (queue st))) st) = None.
Proof. apply drain_done. lia. Qed.

(* Every accepted request is in exactly one of: the queue, an anchored but unobserved transaction,
   the operation store, the handler's discard pile (expired).  Nothing is lost by the observer or
   discarded by the transaction processor. *)
Theorem conservation cfg t0 es :
  let st := run cfg (init t0) es in
  Permutation (accepted st) (queue st ++ ledger_ops st ++ map s_q (store st) ++ expired st) /\ dropped st = [].
Proof.
  cbn zeta. pose proof (inv_cons _ _ (reachable_inv cfg t0 es)) as Ic. pose proof (inv_dropped _ _ (reachable_inv cfg t0 es)) as Id. split; [|exact Id].
  unfold places in Ic. rewrite Id, app_nil_r in Ic. exact Ic.
Qed.

(* ... exactly once, when request ids are distinct *)
Corollary exactly_one_place cfg t0 es :
  let st := run cfg (init t0) es in
  NoDup (map qe_id (accepted st)) ->
  NoDup (map qe_id (queue st ++ ledger_ops st ++ map s_q (store st) ++ expired st)).
Proof.
  cbn zeta. intros Hn. destruct (conservation cfg t0 es) as [Hp _].
  eapply Permutation_NoDup; [apply Permutation_map; exact Hp | exact Hn].
Qed.

(* nothing else is stored *)
Corollary stored_were_accepted cfg t0 es :
  let st := run cfg (init t0) es in
  incl (map s_q (store st)) (accepted st) /\ incl (map u_q (unpub st)) (accepted st).
Proof.
  cbn zeta. pose proof (inv_cons _ _ (reachable_inv cfg t0 es)) as Ic. pose proof (inv_unpub _ _ (reachable_inv cfg t0 es)) as Iu. split; [|exact Iu].
  intros q Hq. eapply Permutation_in; [apply Permutation_sym; exact Ic|].
  unfold places. apply in_or_app. right. apply in_or_app. right. apply in_or_app. left. exact Hq.
Qed.

(* a refused request leaves no trace - not in the queue, not in the unpublished store, nowhere *)
Theorem refused_no_trace cfg st r w : intake cfg st r = None -> step cfg st (ESubmit r w) = st.
Proof. intros H. cbn [step]. unfold submit. rewrite H. reflexivity. Qed.

(* what a refusal is: no version in force, a request the parser / validator rejects, or a non-create
   operation for a DID that does not resolve or resolves as deactivated *)
Theorem refusal_reasons cfg st r :
  intake cfg st r = None <->
  version_at (c_versions cfg) (now st) = None \/ rq_intake_ok r = false \/
  (rq_ty r <> Create /\ decorate (pub_of cfg st (rq_sfx r)) (unpub_of cfg st (rq_sfx r)) = Refused).
Proof.
  unfold intake. destruct (version_at (c_versions cfg) (now st)) as [v|]; [|split; auto].
  destruct (rq_intake_ok r); cbn [negb]; [|split; auto].
  destruct (rq_ty r) eqn:Et; [split; [discriminate|]; intros [H|[H|[H _]]]; congruence | | |];
    (destruct (decorate _ _); split; try discriminate; auto;
     [intros [H|[H|[_ H]]]; congruence | intros _; right; right; split; [discriminate | reflexivity]]).
Qed.

(* an accepted request: queued at the tail under the genesis time of the version in force, copied
   to the unpublished store iff its type is configured *)
Theorem accepted_effect cfg st r w v :
  intake cfg st r = Some v ->
  let q := {| qe_req := r; qe_ver := pv_genesis v |} in
  let st' := step cfg st (ESubmit r w) in
  version_at (c_versions cfg) (now st) = Some v /\
  queue st' = queue st ++ [q] /\ accepted st' = accepted st ++ [q] /\
  unpub st' = (if unpub_type cfg (rq_ty r) then unpub st ++ [{| u_q := q; u_wall := w |}] else unpub st) /\
  store st' = store st /\ ledger st' = ledger st.
Proof.
  intros H. cbn zeta. cbn [step]. unfold submit. rewrite H. cbn [queue accepted unpub store ledger].
  split; [eapply intake_version; exact H | repeat split].
Qed.

(* only [ESubmit] extends the accepted list *)
Lemma cut_frame cfg ex f st st' : cut cfg ex f st = Some st' -> accepted st' = accepted st /\ now st' = now st.
Proof. intros Hc. destruct (cut_spec _ _ _ _ _ Hc) as (? & ? & ? & ? & _ & _ & _ & _ & _ & _ & _ & ->). split; reflexivity. Qed.

Lemma flush_frame cfg ex f st : accepted (flush cfg ex f st) = accepted st /\ now (flush cfg ex f st) = now st.
Proof.
  refine (flush_closure cfg ex (fun a b => accepted b = accepted a /\ now b = now a) _ _ (cut_frame cfg ex) f st);
    [split; reflexivity | intros a b c [H1 H2] [H3 H4]; split; congruence].
Qed.

(* the observer touches neither the accepted list, the clock, the queue nor the expired pile *)
Lemma observe_txn_frame cfg st t :
  accepted (observe_txn cfg st t) = accepted st /\ now (observe_txn cfg st t) = now st /\
  queue (observe_txn cfg st t) = queue st /\ expired (observe_txn cfg st t) = expired st.
Proof.
  unfold observe_txn. destruct (version_at _ _); [|auto]. destruct (dedup_split [] (t_ops t)). auto.
Qed.

Lemma observe_frame cfg st :
  accepted (observe cfg st) = accepted st /\ now (observe cfg st) = now st /\ queue (observe cfg st) = queue st /\
  expired (observe cfg st) = expired st /\ ledger (observe cfg st) = [].
Proof.
  unfold observe. cbn [clear_ledger accepted now queue expired ledger]. generalize (ledger st). intros ts. revert st.
  induction ts as [|t r IH]; intros st; cbn [fold_left]; [auto|].
  destruct (IH (observe_txn cfg st t)) as (H0 & H1 & H2 & H3 & H4). destruct (observe_txn_frame cfg st t) as (F0 & F1 & F2 & F3).
  rewrite H0, H1, H2, H3, F0, F1, F2, F3. auto.
Qed.

Fixpoint submitted (es : list event) : list request :=
  match es with
  | [] => []
  | ESubmit r _ :: rest => r :: submitted rest
  | _ :: rest => submitted rest
  end.

Lemma step_accepted cfg st e :
  accepted (step cfg st e) = accepted st \/
  exists r w v, e = ESubmit r w /\ intake cfg st r = Some v /\ accepted (step cfg st e) = accepted st ++ [{| qe_req := r; qe_ver := pv_genesis v |}].
Proof.
  destruct e as [r w|f ex| |t]; cbn [step].
  - unfold submit. destruct (intake cfg st r) as [v|] eqn:Ei; [|left; reflexivity].
    right. exists r, w, v. repeat split. exact Ei.
  - left. apply flush_frame.
  - left. apply observe_frame.
  - left. destruct (now st <=? t); reflexivity.
Qed.

(* the accepted requests are, in order, a sub-sequence of the submitted ones *)
Theorem accepted_are_submitted cfg es : forall st,
  sub (map qe_req (accepted (run cfg st es))) (map qe_req (accepted st) ++ submitted es).
Proof.
  unfold run. induction es as [|e r IH]; intros st; cbn [fold_left].
  - cbn [submitted]. rewrite app_nil_r. apply sub_refl.
  - eapply sub_trans; [apply IH|]. destruct (step_accepted cfg st e) as [->|(rq & w & v & -> & _ & ->)].
    + apply sub_app; [apply sub_refl|]. destruct e; cbn [submitted]; try apply sub_refl. apply sub_skip, sub_refl.
    + cbn [submitted]. rewrite map_app, <- app_assoc. cbn [map qe_req app]. apply sub_refl.
Qed.

Corollary accepted_ids_distinct cfg t0 es :
  NoDup (map rq_id (submitted es)) -> NoDup (map qe_id (accepted (run cfg (init t0) es))).
Proof.
  intros Hn. pose proof (accepted_are_submitted cfg es (init t0)) as Hs. cbn [init accepted map app] in Hs.
  unfold qe_id. rewrite <- map_map. eapply NoDup_sub; [apply sub_map; exact Hs | exact Hn].
Qed.

(* Per DID, the stored operations carry STRICTLY increasing coordinates in store order: the store
   order is the anchoring order and no transaction holds two operations of one DID. *)
Theorem per_suffix_order cfg t0 es s :
  StronglySorted (fun a b => op_lt a b = true) (pub_of cfg (run cfg (init t0) es) s).
Proof.
  pose proof (inv_sorted _ _ (reachable_inv cfg t0 es)) as Is. set (st := run cfg (init t0) es) in *.
  unfold pub_of. apply SS_map.
  assert (Hs : StronglySorted before (filter (fun e => s_sfx e =? s) (store st))).
  { eapply SS_sub; [|exact Is]. eapply sub_trans; [apply sub_filter | apply sub_app_l]. }
  eapply SS_weaken; [|exact Hs]. intros a b Ha Hb (Ht & Hn & Hsn).
  apply filter_In in Ha. apply filter_In in Hb. destruct Ha as [_ Ha], Hb as [_ Hb].
  apply Z.eqb_eq in Ha. apply Z.eqb_eq in Hb.
  apply op_lt_spec. unfold sop_aop. cbn [stamp time num].
  assert (s_num a < s_num b) by (apply Hsn; congruence). lia.
Qed.

Lemma strictly_sorted_key_inj l : StronglySorted (fun a b => op_lt a b = true) l -> key_inj l.
Proof.
  intros H. refine (SS_inj _ key l H _). intros a b Hlt Heq. apply op_lt_spec in Hlt. unfold key in Heq. injection Heq as H1 H2. lia.
Qed.

Lemma strictly_sorted_le l : StronglySorted (fun a b => op_lt a b = true) l -> StronglySorted op_le l.
Proof. apply SS_weaken. intros a b _ _ H. apply op_lt_le. exact H. Qed.

(* so sorting the published operations of a DID (what Resolve does first) changes nothing: the
   store order is the anchoring order *)
Corollary stored_in_anchoring_order cfg t0 es s :
  let pub := pub_of cfg (run cfg (init t0) es) s in sort_ops pub = pub /\ key_inj pub.
Proof.
  cbn zeta. pose proof (per_suffix_order cfg t0 es s) as H. split.
  - apply sort_ops_sorted_id; [apply strictly_sorted_key_inj | apply strictly_sorted_le]; exact H.
  - apply strictly_sorted_key_inj. exact H.
Qed.

Lemma pub_sort_id cfg t0 es s : sort_ops (pub_of cfg (run cfg (init t0) es) s) = pub_of cfg (run cfg (init t0) es) s.
Proof. apply (stored_in_anchoring_order cfg t0 es s). Qed.

(* at most one operation per DID per transaction *)
Corollary one_per_suffix_per_txn cfg t0 es a b :
  let st := run cfg (init t0) es in
  In a (store st) -> In b (store st) -> s_sfx a = s_sfx b -> s_num a = s_num b -> a = b.
Proof.
  cbn zeta. intros Ha Hb Hs Hn. pose proof (inv_sorted _ _ (reachable_inv cfg t0 es)) as Is.
  assert (Hst : StronglySorted before (store (run cfg (init t0) es))) by (eapply SS_sub; [apply sub_app_l | exact Is]).
  apply (SS_inj before (fun e => (s_sfx e, s_num e)) _ Hst); [|assumption | assumption | congruence].
  intros x y (_ & _ & H) [= H1 H2]. specialize (H H1). lia.
Qed.

(* every stored operation is published: its canonical reference is its transaction number + 1 *)
Lemma stored_published cfg t0 es s :
  Forall (fun o => published o = true) (pub_of cfg (run cfg (init t0) es) s).
Proof.
  pose proof (inv_bound _ _ (reachable_inv cfg t0 es)) as Ib. rewrite Forall_forall in *. intros o Ho.
  unfold pub_of in Ho. apply in_map_iff in Ho. destruct Ho as (e & <- & He). apply filter_In in He. destruct He as [He _].
  assert (Hin : In e (anch (run cfg (init t0) es))) by (apply in_or_app; left; exact He).
  destruct (Ib e Hin) as (_ & Hn & Hc). unfold published, sop_aop, stamp. cbn [cref].
  apply negb_true_iff, Z.eqb_neq. lia.
Qed.

(* FIFO PER DID DOES NOT HOLD.  The operation handler hands the second and further operations of a
   DID back and the writer re-queues them at the TAIL, behind later submissions of the same DID:
   accepted in the order 2, 3, 4 - anchored in the order 2, 4, 3 (Model.reorder_events). *)
Theorem fifo_refuted :
  exists cfg t0 es a b,
    let st := run cfg (init t0) es in
    In a (store st) /\ In b (store st) /\ s_sfx a = s_sfx b /\
    (exists l1 l2 l3, accepted st = l1 ++ s_q a :: l2 ++ s_q b :: l3) /\   (* a accepted before b *)
    s_num b < s_num a.                                                       (* b anchored before a *)
Proof.
  exists cfg1, 10, reorder_events,
    {| s_q := {| qe_req := ex_recover; qe_ver := 0 |}; s_time := 11; s_num := 3; s_cref := 4; s_pver := 0 |},
    {| s_q := {| qe_req := ex_update2; qe_ver := 0 |}; s_time := 11; s_num := 2; s_cref := 3; s_pver := 0 |}.
  cbv zeta. split; [vm_compute; auto 6|]. split; [vm_compute; auto 6|]. split; [reflexivity|]. split; [|reflexivity].
  exists (firstn 2 (accepted (run cfg1 (init 10) reorder_events))), [], []. vm_compute. reflexivity.
Qed.

(* the only assumption on the requests: a non-create request reveals a non-empty commitment (the
   parser refuses an empty reveal value, C10) *)
Definition req_ok (r : request) : Prop := rq_ty r <> Create -> reveal_c (rq_op r) <> 0.

(* what either store holds of a DID are stamped copies of accepted requests *)
Lemma nzr_stored cfg t0 es {A} (f : A -> aop) (g : A -> qent) (l : list A) :
  (forall r, In r (submitted es) -> req_ok r) -> incl (map g l) (accepted (run cfg (init t0) es)) ->
  (forall x, req_ok (qe_req (g x)) -> ty (f x) <> Create -> reveal_c (f x) <> 0) ->
  forall p, no_zero_reveal (map f (filter p l)).
Proof.
  intros Hok Hacc Hf p. unfold no_zero_reveal. rewrite Forall_forall. intros o Ho. apply in_map_iff in Ho.
  destruct Ho as (x & <- & Hx). apply filter_In in Hx. apply Hf.
  apply Hok. pose proof (accepted_are_submitted cfg es (init t0)) as Hs. cbn [init accepted map app] in Hs.
  eapply sub_in; [exact Hs | apply in_map, Hacc, in_map, Hx].
Qed.

Lemma nzr_pub cfg t0 es s :
  (forall r, In r (submitted es) -> req_ok r) -> no_zero_reveal (pub_of cfg (run cfg (init t0) es) s).
Proof. intros H. apply (nzr_stored cfg t0 es (sop_aop cfg) s_q); [exact H | apply stored_were_accepted | auto]. Qed.

Lemma nzr_all cfg t0 es s :
  (forall r, In r (submitted es) -> req_ok r) ->
  let st := run cfg (init t0) es in no_zero_reveal (pub_of cfg st s ++ sort_ops (unpub_of cfg st s)).
Proof.
  intros H st. apply Forall_app. split; [apply nzr_pub; exact H|].
  assert (Hu : no_zero_reveal (unpub_of cfg st s))
    by (apply (nzr_stored cfg t0 es (uop_aop cfg) u_q); [exact H | apply stored_were_accepted | auto]).
  unfold no_zero_reveal in *. rewrite Forall_forall in *. intros o Ho. apply Hu, in_sort_ops, Ho.
Qed.

(* END TO END.  Whatever was submitted, flushed, anchored and observed, in whatever order: if the DID
   [s] resolves (state [stt]), then [stt] is the state the reference machine (Spec/Refine: earliest
   valid create, recovery lineage, update lineage after the last recovery) reaches on the stored
   operations of [s] IN ANCHORING ORDER (= store order, no sorting needed), followed by the
   unpublished ones. *)
Theorem pipeline_resolves_to_spec cfg t0 es s c0 stt ap :
  (forall r, In r (submitted es) -> req_ok r) ->
  let st := run cfg (init t0) es in
  resolve_full (pub_of cfg st s) (unpub_of cfg st s) no_opts = inr (Some (c0, stt, ap)) ->
  Reach (pub_of cfg st s ++ sort_ops (unpub_of cfg st s)) stt.
Proof.
  intros Hok st Hr. subst st. rewrite resolve_full_no_opts, pub_sort_id in Hr.
  eapply resolve_refines_spec; [apply nzr_all; exact Hok | exact Hr].
Qed.

(* and conversely the reference machine's state is what resolution returns (completeness) *)
Theorem spec_is_what_resolves cfg t0 es s stt :
  (forall r, In r (submitted es) -> req_ok r) ->
  let st := run cfg (init t0) es in
  Reach (pub_of cfg st s ++ sort_ops (unpub_of cfg st s)) stt ->
  exists c0 ap, resolve_full (pub_of cfg st s) (unpub_of cfg st s) no_opts = inr (Some (c0, stt, ap)).
Proof.
  intros Hok st HR. subst st. rewrite resolve_full_no_opts, pub_sort_id.
  apply spec_refines_resolve; [apply nzr_all; exact Hok | exact HR].
Qed.

Lemma resolve_ok_full pub unpub res :
  resolve pub unpub no_opts = OOk res ->
  exists c0 ap, resolve_full pub unpub no_opts = inr (Some (c0, r_state res, ap)) /\ r_pub res = map oid (sort_ops pub).
Proof.
  unfold resolve, resolve_full. rewrite prepare_no_opts.
  destruct (resolve_core _) as [e|[[[c0 s] ap]|]]; try discriminate.
  intros H. inversion H; subst. exists c0, ap. split; reflexivity.
Qed.

(* the same for what ResolveDocument shows *)
Corollary short_view_is_reference cfg t0 es s d u r de p :
  (forall r, In r (submitted es) -> req_ok r) ->
  let st := run cfg (init t0) es in
  short_view cfg st s = RView d u r de p ->
  exists stt, Reach (pub_of cfg st s ++ sort_ops (unpub_of cfg st s)) stt /\ state_view stt p = RView d u r de p /\
              (p = true <-> pub_of cfg st s <> []).
Proof.
  intros Hok st Hv. unfold short_view, resolve_sfx in Hv.
  destruct (resolve (pub_of cfg st s) (unpub_of cfg st s) no_opts) as [e|res|] eqn:Er; try discriminate.
  destruct (resolve_ok_full _ _ _ Er) as (c0 & ap & Hf & Hp).
  exists (r_state res). split; [eapply pipeline_resolves_to_spec; eassumption|].
  unfold st in Hp. rewrite pub_sort_id in Hp. fold st in Hp.
  rewrite Hp in Hv. destruct (pub_of cfg st s) as [|x l]; cbn [map] in Hv; inversion Hv; subst.
  - split; [reflexivity|]. split; [discriminate | congruence].
  - split; [reflexivity|]. split; [discriminate | reflexivity].
Qed.

Lemma resolve_single_create c s :
  ty c = Create -> apply c init_state = Some s -> resolve_core [c] = inr (Some (c, s, [])).
Proof.
  intros Hty Ha. pose proof (create_not_deact _ _ Ha) as Hd.
  unfold resolve_core, is_full, is_ty. cbn [filter]. rewrite Hty. cbn [optype_eqb orb filter].
  unfold creates_published_first. cbn [filter].
  destruct (published c); cbn [negb app first_valid_create]; rewrite Ha;
    unfold run_chain; cbn [length chain candidates filter]; rewrite Hd; reflexivity.
Qed.

(* [good_chain l s]: l = a create followed by operations each of which is well formed (built by a
   correct client: C11), reveals the commitment in force in the state reached so far, commits to a
   fresh key, and is anchored after everything before it.  [s] is the left fold of apply. *)
Inductive good_chain : list aop -> state -> Prop :=
| gc_create c s : ty c = Create -> apply c init_state = Some s -> good_chain [c] s
| gc_update l s o :
    good_chain l s -> good_update o -> reveal_c o = upd s -> upd s <> 0 -> upd_c o <> upd s ->
    fresh_commitment (upd_c o) (is_ty Update) l -> (forall q, In q l -> op_lt q o = true) ->
    good_chain (l ++ [o]) (update_result o s)
| gc_recover l s o :
    good_chain l s -> good_recover o -> reveal_c o = rec s -> rec s <> 0 -> rec_c o <> rec s ->
    fresh_commitment (rec_c o) is_full l -> (forall q, In q l -> op_lt q o = true) ->
    good_chain (l ++ [o]) (recover_result o s)
| gc_deactivate l s o :
    good_chain l s -> good_deactivate o -> reveal_c o = rec s -> rec s <> 0 ->
    good_chain (l ++ [o]) (deactivate_result o s)
| gc_after_deactivate l s o :          (* anything anchored after a deactivation is inert *)
    good_chain l s -> deact s = true -> good_chain (l ++ [o]) s.

Lemma good_chain_nonempty l s : good_chain l s -> l <> [].
Proof. destruct 1; try (destruct l; discriminate). discriminate. Qed.

Theorem good_chain_resolves l s :
  good_chain l s -> Forall (fun o => published o = true) l -> no_zero_reveal l ->
  exists c0 ap, resolve_core l = inr (Some (c0, s, ap)).
Proof.
  induction 1 as [c s Hty Ha | l s o Hg IH Hgood Hrev Hnz Hreuse Hfresh Hlt | l s o Hg IH Hgood Hrev Hnz Hreuse Hfresh Hlt
                  | l s o Hg IH Hgood Hrev Hnz | l s o Hg IH Hd]; intros Hpub Hnzr;
    [exists c, []; apply resolve_single_create; assumption|..].
  all: pose proof (proj1 (proj1 (Forall_app _ _ _) Hpub)) as Hpub'; pose proof (proj1 (proj1 (Forall_app _ _ _) Hnzr)) as Hnzr';
    destruct (IH Hpub' Hnzr') as (c0 & ap & Hr).
  - exists c0, (ap ++ [o]). apply update_takes_effect_later; assumption.
  - exists c0, (filter is_full ap ++ [o]). apply recover_takes_effect_last; try assumption.
    intros q Hq Hqu. destruct (op_after (time o) (num o) q) eqn:E; [|reflexivity]. exfalso.
    apply op_after_spec in E. pose proof (Hlt q Hq) as Hl. apply op_lt_spec in Hl.
    rewrite Forall_forall in Hpub'. pose proof (Hpub' q Hq) as Hp. destruct E as [E|E]; [congruence | lia].
  - exists c0, (filter is_full ap ++ [o]). apply (deactivate_takes_effect l c0 s ap o); assumption.
  - exists c0, ap. apply deactivate_terminal_core; assumption.
Qed.

(* END TO END, correct clients.  If the stored operations of a DID, in anchoring order, form a good
   chain and nothing of that DID is pending in the unpublished store, ResolveDocument shows exactly the
   fold of apply, published.  The hypothesis is about the ANCHORING order: the writer may have
   reordered what the client submitted (fifo_refuted), in which case it can fail although the client
   was correct (Model.reorder_loses_update). *)
Theorem pipeline_fold cfg t0 es s stt :
  (forall r, In r (submitted es) -> req_ok r) ->
  let st := run cfg (init t0) es in
  unpub_of cfg st s = [] ->
  good_chain (pub_of cfg st s) stt ->
  short_view cfg st s = state_view stt true.
Proof.
  intros Hok st Hun Hg.
  destruct (good_chain_resolves _ _ Hg (stored_published cfg t0 es s) (nzr_pub cfg t0 es s Hok)) as (c0 & ap & Hr).
  pose proof (pub_sort_id cfg t0 es s) as Hsort. fold st in Hsort.
  assert (Hf : resolve_full (pub_of cfg st s) [] no_opts = inr (Some (c0, stt, ap))).
  { rewrite resolve_full_no_opts, Hsort. cbn [sort_ops isort]. rewrite app_nil_r. exact Hr. }
  unfold short_view, resolve_sfx. rewrite Hun, (resolve_of_full _ _ _ _ _ Hf). cbn [r_state r_pub]. rewrite Hsort.
  destruct (pub_of cfg st s); [destruct (good_chain_nonempty _ _ Hg eq_refl) | reflexivity].
Qed.

(* what a create determines: everything except coordinates, canonical reference, times *)
Definition core (s : state) := (doc s, upd s, rec s, deact s, aorigin s).

Lemma view_content_core s s' p p' : core s = core s' -> view_content (state_view s p) = view_content (state_view s' p').
Proof. unfold core, state_view, view_content. intros H. inversion H. reflexivity. Qed.

(* Apply of a create on the empty model does not depend on where / whether it is anchored *)
Lemma apply_create_core o t n c md t' n' c' md' :
  ty o = Create ->
  option_map core (apply (stamp o t n c (Some md)) init_state) = option_map core (apply (stamp o t' n' c' (Some md')) init_state).
Proof.
  intros Hty. unfold apply, stamp. cbn [mdelta ty]. rewrite Hty. unfold apply_create.
  cbn [doc init_state parse_ok dhash_ok dvalid patch_ok rec_c upd_c delta origin time num cref].
  destruct (parse_ok o); cbn [negb]; [|reflexivity].
  destruct (dhash_ok o); cbn [negb]; [|reflexivity].
  destruct (dvalid o); cbn [negb]; [|reflexivity].
  destruct (patch_ok o); reflexivity.
Qed.

Lemma create_result_apply v r w s :
  create_result v r w = Some s -> apply (stamp (rq_op r) w 0 0 (Some (pv_mdelta v))) init_state = Some s.
Proof.
  unfold create_result. destruct (apply _ init_state) as [s'|]; [|discriminate].
  destruct (doc s') as [[|x d]|]; try discriminate. intros H; inversion H; reflexivity.
Qed.

(* (1) = (2): the immediate response and a long-form resolution while nothing of the DID is in the
   stores (both are GetCreateResult on an unanchored copy; accepting version / current version and the
   wall-clock stamps do not matter) *)
Theorem create_response_indep v v' r w w' : rq_ty r = Create -> create_response v r w = create_response v' r w'.
Proof.
  intros Hty. unfold create_response, create_result.
  pose proof (apply_create_core (rq_op r) w 0 0 (pv_mdelta v) w' 0 0 (pv_mdelta v') Hty) as H.
  destruct (apply (stamp (rq_op r) w 0 0 (Some (pv_mdelta v))) init_state) as [s|],
           (apply (stamp (rq_op r) w' 0 0 (Some (pv_mdelta v'))) init_state) as [s'|]; cbn [option_map] in H; try discriminate; [|reflexivity].
  unfold core in H. inversion H as [[Hd Hu Hr Hde Ho]]. rewrite Hd.
  destruct (doc s') as [[|x d]|] eqn:Ed'; try reflexivity.
  unfold state_view. rewrite Hd, Ed', Hu, Hr, Hde. reflexivity.
Qed.

Theorem long_form_before_anchoring cfg st r w cur :
  pub_of cfg st (rq_sfx r) = [] -> unpub_of cfg st (rq_sfx r) = [] ->
  version_at (c_versions cfg) (now st) = Some cur -> rq_intake_ok r = true ->
  long_view cfg st r w = create_response cur r w.
Proof.
  intros Hp Hu Hv Hi. unfold long_view, resolve_sfx. rewrite Hp, Hu, Hv, Hi. reflexivity.
Qed.

Lemma resolve_one_create c s :
  ty c = Create -> apply c init_state = Some s ->
  resolve [c] [] no_opts = OOk {| r_state := s; r_pub := [oid c]; r_unpub := []; r_applied := [] |}.
Proof.
  intros Hty Ha. apply (resolve_of_full [c] [] c s []). rewrite resolve_full_no_opts. apply resolve_single_create; assumption.
Qed.

(* (3): the create is anchored, observed, and the only operation of its DID *)
Theorem create_views_agree cfg t0 es r w v e :
  let st := run cfg (init t0) es in
  rq_ty r = Create ->
  create_response v r w <> RNotFound ->                                   (* the create was answered *)
  filter (fun x => s_sfx x =? rq_sfx r) (store st) = [e] -> qe_req (s_q e) = r ->
  unpub_of cfg st (rq_sfx r) = [] ->
  exists d u rc,
    create_response v r w = RView d u rc false false /\                    (* immediate response *)
    (forall v' w', create_response v' r w' = RView d u rc false false) /\  (* long form before anchoring *)
    short_view cfg st (rq_sfx r) = RView d u rc false true /\             (* short form after anchoring *)
    long_view cfg st r w = RView d u rc false true.                        (* long form after anchoring *)
Proof.
  intros st Hty Hresp Hst He Hun.
  unfold create_response in Hresp. destruct (create_result v r w) as [s|] eqn:Ecr; [|congruence].
  pose proof (create_result_apply _ _ _ _ Ecr) as Ha.
  (* the stored copy *)
  assert (Hin : In e (store st)) by (eapply proj1, filter_In; rewrite Hst; left; reflexivity).
  pose proof (proj1 (Forall_forall _ _) (inv_pver _ _ (reachable_inv cfg t0 es)) e (in_or_app _ _ _ (or_introl Hin))) as Hpv.
  destruct (version_at (c_versions cfg) (s_pver e)) as [ve|] eqn:Eve; [|congruence].
  set (c := stamp (rq_op r) (s_time e) (s_num e) (s_cref e) (Some (pv_mdelta ve))).
  assert (Hpub : pub_of cfg st (rq_sfx r) = [c]).
  { unfold pub_of. rewrite Hst. cbn [map]. unfold sop_aop, mdelta_at. rewrite He, Eve. reflexivity. }
  pose proof (apply_create_core (rq_op r) w 0 0 (pv_mdelta v) (s_time e) (s_num e) (s_cref e) (pv_mdelta ve) Hty) as Hc.
  fold c in Hc. rewrite Ha in Hc. destruct (apply c init_state) as [s'|] eqn:Ea'; [|discriminate].
  cbn [option_map] in Hc. inversion Hc as [[Hd Hu Hr Hde Ho]].
  pose proof (create_not_deact _ _ Ha) as Hdeact.
  pose proof (resolve_one_create c s' Hty Ea') as Hres.
  exists (match doc s with Some d => d | None => [] end), (upd s), (rec s).
  assert (Hshort : short_view cfg st (rq_sfx r) = RView (match doc s with Some d => d | None => [] end) (upd s) (rec s) false true).
  { unfold short_view, resolve_sfx. rewrite Hpub, Hun, Hres. cbn [r_state r_pub]. unfold state_view.
    rewrite <- Hd, <- Hu, <- Hr, <- Hde, Hdeact. reflexivity. }
  assert (Hcr : create_response v r w = RView (match doc s with Some d => d | None => [] end) (upd s) (rec s) false false)
    by (unfold create_response; rewrite Ecr; unfold state_view; rewrite Hdeact; reflexivity).
  split; [exact Hcr|]. split; [intros v' w'; rewrite (create_response_indep v' v r w' w Hty); exact Hcr|].
  split; [exact Hshort|].
  unfold long_view. unfold short_view in Hshort. destruct (resolve_sfx cfg st (rq_sfx r)) as [x|res|]; try discriminate. exact Hshort.
Qed.

(* VALIDATED under the version in force (ledger clock) at submission: accepted_effect.
   BATCHED with operations accepted under the same version only, but the SIZE limit is the one of the
   version in force when the batch is cut: *)
Theorem batch_shape cfg ex f st st' :
  cut cfg ex f st = Some st' ->
  exists cur, version_at (c_versions cfg) (now st) = Some cur /\
    (f = false -> (pv_max cur <= length (queue st))%nat) /\
    ((* F16: every operation of the batch expired - no transaction is written, no number is consumed; the batch
        (a non-empty prefix of the queue within the size limit, one version) is discarded as expired *)
     (exists batch, batch <> [] /\ queue st = batch ++ queue st' /\ (length batch <= pv_max cur)%nat /\
        (exists ver, Forall (fun q => qe_ver q = ver) batch) /\
        ledger st' = ledger st /\ next_num st' = next_num st /\ Permutation (expired st') (expired st ++ batch)) \/
     (* a transaction with at least one operation *)
     (exists t, ledger st' = ledger st ++ [t] /\ next_num st' = next_num st + 1 /\ t_ops t <> [] /\
        (exists ver, Forall (fun q => qe_ver q = ver) (t_ops t) /\ t_pver t = if c_by_time cfg then now st else ver) /\
        (length (t_ops t) <= pv_max cur)%nat /\ NoDup (map qe_sfx (t_ops t)) /\
        t_time t = now st /\ t_num t = next_num st)).
Proof.
  intros Hc. destruct (cut_spec _ _ _ _ _ Hc) as (cur & batch & rest & ver & Hcur & Hne & Hq & Hver & Hlen & Hf & Hvv & ->).
  exists cur. split; [exact Hcur|]. split; [exact Hf|].
  pose proof (split_perm (fun i => memZ i ex) [] batch) as Hsp. cbn zeta in Hsp.
  pose proof (split_in_nil_add_nil (fun i => memZ i ex) batch) as Hadd.
  set (sp := split_batch (fun i => memZ i ex) [] batch) in *.
  destruct (cut_txns_cases cfg st ver sp) as [(Hin & -> & ->) | (Hin & -> & ->)]; cbn [ledger next_num queue expired].
  - left. exists batch. rewrite (Hadd Hin), !app_nil_r in *. rewrite Hin in Hsp. cbn [app] in Hsp.
    repeat split; try assumption.
    + exists ver. exact Hver.
    + apply Permutation_app_head. apply Permutation_sym. exact Hsp.
  - right. eexists. split; [reflexivity|]. split; [reflexivity|]. cbn [t_ops t_pver t_time t_num mk_txn].
    split; [exact Hin|].
    pose proof (split_sub_in (fun i => memZ i ex) [] batch) as Hsub. fold sp in Hsub.
    split; [exists ver; split; [eapply Forall_sub; eassumption | reflexivity]|].
    split; [pose proof (sub_length _ _ Hsub); lia|].
    split; [apply split_in_sfx|]. repeat split.
Qed.

(* F16: no transaction without operations is ever on the ledger (such a transaction - anchor string "0.<uri>" - is
   refused by every observer: ParseAnchorData "number of operations must be positive") *)
Theorem no_empty_transaction cfg t0 es :
  Forall (fun t => t_ops t <> []) (ledger (run cfg (init t0) es)).
Proof.
  pose proof (inv_ledger _ _ (reachable_inv cfg t0 es)) as Il.
  eapply Forall_impl; [|exact Il]. intros t (_ & _ & H). exact H.
Qed.

(* STAMPED AND APPLIED: every stored operation was accepted under a version of the table; it carries
   the protocol version the ledger put on its transaction (policy), and resolution applies it under
   the parameters of THAT version. *)
Theorem stored_version cfg t0 es e :
  In e (store (run cfg (init t0) es)) ->
  accepted_under cfg (s_q e) /\
  s_pver e = (if c_by_time cfg then s_time e else qe_ver (s_q e)) /\
  exists v, version_at (c_versions cfg) (s_pver e) = Some v /\ mdelta (sop_aop cfg e) = Some (pv_mdelta v).
Proof.
  intros He. pose proof (reachable_inv cfg t0 es) as I.
  assert (Hin : In e (anch (run cfg (init t0) es))) by (apply in_or_app; left; exact He).
  split; [|split].
  - apply (proj1 (Forall_forall _ _) (inv_qver _ _ I)), (proj1 (stored_were_accepted cfg t0 es)), in_map, He.
  - exact (proj1 (Forall_forall _ _) (inv_stamp _ _ I) e Hin).
  - pose proof (proj1 (Forall_forall _ _) (inv_pver _ _ I) e Hin) as Ipv.
    destruct (version_at (c_versions cfg) (s_pver e)) as [v|] eqn:Ev; [|congruence].
    exists v. split; [reflexivity|]. unfold sop_aop, stamp, mdelta_at. cbn [mdelta]. rewrite Ev. reflexivity.
Qed.

(* ledger policy "the version handed to WriteAnchor": applied under the very version that validated it *)
Corollary applied_under_accepting_version cfg t0 es e :
  c_by_time cfg = false -> In e (store (run cfg (init t0) es)) ->
  exists v, version_at (c_versions cfg) (qe_ver (s_q e)) = Some v /\ pv_genesis v = qe_ver (s_q e) /\
            mdelta (sop_aop cfg e) = Some (pv_mdelta v).
Proof.
  intros Hp He. destruct (stored_version cfg t0 es e He) as ((v & Hv & Hg) & Hs & (v' & Hv' & Hm)).
  rewrite Hp in Hs. rewrite Hs, Hv in Hv'. inversion Hv'; subst. exists v'. auto.
Qed.

(* ledger policy "transaction time": applied under the version in force when it was ANCHORED, which
   need not be the one that validated it *)
Example applied_under_anchoring_version :
  let cfg := {| c_versions := [v1; v2]; c_unpub := []; c_by_time := true |} in
  let st := run cfg (init 10) [ESubmit ex_create 5000; ETime 150; EFlush true []; EObserve] in
  map (fun e => (qe_ver (s_q e), s_pver e, mdelta (sop_aop cfg e))) (store st) = [(0, 150, Some 600)].
Proof. vm_compute. reflexivity. Qed.

Definition life : list event :=
  [ESubmit ex_create 5000; EFlush true []; EObserve; ETime 11; ESubmit ex_update 5001; EFlush true []; EObserve;
   ETime 12; ESubmit ex_recover 5002; EFlush true []; EObserve; ETime 13; ESubmit ex_update2 5003; EFlush true []; EObserve].

Example life_reqs_ok : forall r, In r (submitted life) -> req_ok r.
Proof. intros r Hr. cbn in Hr. unfold req_ok. intuition (subst; cbn in *; congruence). Qed.

Definition life_pub : list aop := pub_of cfg1 (run cfg1 (init 10) life) 7.

Example life_good_chain :
  exists c u r u2 s0, life_pub = [c; u; r; u2] /\ apply c init_state = Some s0 /\
    good_chain life_pub (update_result u2 (recover_result r (update_result u s0))).
Proof.
  assert (H : exists c u r u2, life_pub = [c; u; r; u2]) by (do 4 eexists; vm_compute; reflexivity).
  destruct H as (c & u & r & u2 & H). exists c, u, r, u2.
  assert (Hl : life_pub = [c; u; r; u2]) by exact H.
  vm_compute in H. inversion H; subst c u r u2. clear H.
  eexists. split; [exact Hl|]. split; [vm_compute; reflexivity|]. rewrite Hl.
  change [?c; ?u; ?r; ?u2] with ((([c] ++ [u]) ++ [r]) ++ [u2]).
  apply gc_update.
  - apply gc_recover.
    + apply gc_update.
      * apply gc_create; vm_compute; reflexivity.
      * unfold good_update. vm_compute. repeat split.
      * reflexivity.
      * vm_compute. discriminate.
      * vm_compute. discriminate.
      * intros _ q [<-|[]] _. vm_compute. discriminate.
      * intros q [<-|[]]. vm_compute. reflexivity.
    + unfold good_recover. vm_compute. repeat split.
    + reflexivity.
    + vm_compute. discriminate.
    + vm_compute. discriminate.
    + intros _ q [<-|[<-|[]]] Hf; vm_compute in Hf; try discriminate.
    + intros q [<-|[<-|[]]]; vm_compute; reflexivity.
  - unfold good_update. vm_compute. repeat split.
  - reflexivity.
  - vm_compute. discriminate.
  - vm_compute. discriminate.
  - intros _ q [<-|[<-|[<-|[]]]] Hf; vm_compute in Hf; try discriminate; vm_compute; discriminate.
  - intros q [<-|[<-|[<-|[]]]]; vm_compute; reflexivity.
Qed.

(* the run evaluated: the DID shows the recover's and the last update's content ([life_reqs_ok] and [life_good_chain]
   are the hypotheses of [pipeline_fold] for it) *)
Example life_view : short_view cfg1 (run cfg1 (init 10) life) 7 = RView [103; 104] 23 31 false true.
Proof. vm_compute. reflexivity. Qed.

(* the hypotheses of [create_views_agree] on a run *)
Example create_views_nonvacuous :
  let st := run cfg1 (init 10) [ESubmit ex_create 5000; EFlush true []; EObserve] in
  create_response v1 ex_create 5000 <> RNotFound /\
  (exists e, filter (fun x => s_sfx x =? 7) (store st) = [e] /\ qe_req (s_q e) = ex_create) /\
  unpub_of cfg1 st 7 = [].
Proof.
  cbn zeta. split; [vm_compute; discriminate|]. split; [|vm_compute; reflexivity].
  eexists. split; vm_compute; reflexivity.
Qed.
