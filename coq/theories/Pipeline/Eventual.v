(* C20 - eventual storage: "submitted operations are ... anchored, observed and stored".

   Pipeline/Proofs.v proves conservation for ALL event sequences: an accepted request is in exactly one
   of queue / anchored-but-unobserved transaction / operation store / expired.  That is a safety
   property; it does not say that anything ever leaves the queue.  Here the progress half:

     from every reachable state, [max 1 (length queue)] rounds of
          EFlush true ex ; EObserve            (a forced VerifStep of the batch writer, then the observer)
     with ARBITRARY expiry verdicts [ex] per round, lead to a state with an empty queue and an empty
     ledger; together with conservation: every accepted request is stored (once) or was discarded by the
     operation handler as expired (eventual_storage); when nothing expires every accepted request is
     stored (eventual_storage_nothing_expires).

   Hypothesis needed (the only one): MaxOperationCount of the protocol version in force at the ledger
   clock is > 0.  With 0 the cutter peeks 0 operations and nothing is ever cut: zero_max_cut_none,
   zero_max_refuted.

   NOT needed as hypotheses, because they hold in every reachable state:
   - a protocol version is in force at the ledger clock whenever something was accepted
     (reachable_version_in_force: the clock never goes back and version_at is monotone);
   - the version a queued operation was accepted under is in the table (inv_qver of Proofs.v);
   - the observer finds a protocol version for every anchored transaction (inv_ledger), so nothing is
     dropped.
   no_version_refuted shows an (unreachable) state violating the first of these: the rounds do nothing.
   F16: a forced cut whose operations have all expired writes no transaction but still removes the batch from
   the queue (the operations go to the expired pile), so it shortens the queue like any other cut (cut_shrinks):
   all_expired_round shows such a round.

   The number of rounds is tight: bound_is_tight (k queued operations of ONE suffix need k rounds, since
   each batch takes one operation per suffix and re-queues the others). *)
From Coq Require Import List ZArith Bool Lia Permutation.
From SV Require Import Base.Split3 Resolve.Op Pipeline.Model Pipeline.Proofs.
Import ListNotations.
Local Open Scope Z_scope.

(* one round per element: forced flush with that round's expiry verdicts, then the observer *)
Definition rounds (exs : list (list Z)) : list event := flat_map (fun ex => [EFlush true ex; EObserve]) exs.

(* something was accepted -> a protocol version is in force at the ledger clock *)
Definition live (cfg : config) (st : pstate) : Prop :=
  accepted st <> [] -> version_at (c_versions cfg) (now st) <> None.

Lemma step_live cfg st e : live cfg st -> live cfg (step cfg st e).
Proof.
  intros L. destruct e as [r w|f ex| |t]; cbn [step].
  - unfold submit. destruct (intake cfg st r) as [v|] eqn:Ei; [|exact L].
    intros _. cbn [now]. rewrite (intake_version _ _ _ _ Ei). discriminate.
  - unfold live. destruct (flush_frame cfg ex f st) as [-> ->]. exact L.
  - unfold live. destruct (observe_frame cfg st) as (-> & -> & _). exact L.
  - destruct (now st <=? t) eqn:E; [|exact L]. apply Z.leb_le in E. unfold live. cbn [set_now accepted now].
    intros Ha Hn. apply (L Ha). exact (version_at_none_mono _ _ _ Hn E).
Qed.

Lemma run_live cfg es : forall st, live cfg st -> live cfg (run cfg st es).
Proof. unfold run. induction es as [|e r IH]; intros st L; cbn [fold_left]; [exact L | apply IH, step_live, L]. Qed.

Theorem reachable_version_in_force cfg t0 es :
  let st := run cfg (init t0) es in
  accepted st <> [] -> version_at (c_versions cfg) (now st) <> None.
Proof. cbn zeta. apply run_live. intros H. elim H. reflexivity. Qed.

Lemma queue_incl_accepted cfg st : inv cfg st -> incl (queue st) (accepted st).
Proof.
  intros I q Hq. eapply Permutation_in; [apply Permutation_sym, (inv_cons _ _ I)|].
  unfold places. apply in_or_app. left. exact Hq.
Qed.

(* the forced cut cannot fail: a current version exists, it allows at least one operation, and the
   version of the first queued operation is known (it was accepted under it) *)
Lemma forced_cut_succeeds cfg ex st cur :
  inv cfg st -> queue st <> [] -> version_at (c_versions cfg) (now st) = Some cur -> (0 < pv_max cur)%nat ->
  exists st', cut cfg ex true st = Some st'.
Proof.
  intros I Hq Hv Hm.
  assert (Hall : forall q, In q (queue st) -> accepted_under cfg q).
  { intros q Hi. apply (proj1 (Forall_forall _ _) (inv_qver _ _ I)). apply (queue_incl_accepted _ _ I). exact Hi. }
  unfold cut. rewrite Hv. cbn [negb andb].
  destruct (queue st) as [|q0 r] eqn:Eq; [congruence|].
  destruct (pv_max cur) as [|m] eqn:Em; [lia|].
  cbn [length Nat.min firstn].
  destruct (Hall q0 (or_introl eq_refl)) as (v & Hvq & _). rewrite Hvq. cbv zeta.
  destruct (sp_in _); eexists; reflexivity.
Qed.

Lemma cut_queue_le cfg ex : forall f st st', cut cfg ex f st = Some st' -> (length (queue st') <= length (queue st))%nat.
Proof. intros f st st' Hc. apply Nat.lt_le_incl. eapply cut_shrinks. exact Hc. Qed.

Lemma drain_queue_le cfg ex fuel : forall st, (length (queue (drain cfg ex fuel st)) <= length (queue st))%nat.
Proof.
  intros st. refine (drain_closure cfg ex (fun a b => (length (queue b) <= length (queue a))%nat) _ _ (cut_queue_le cfg ex) fuel st);
    [auto | intros a b c; lia].
Qed.

Lemma flush_queue_le cfg ex f st : (length (queue (flush cfg ex f st)) <= length (queue st))%nat.
Proof.
  refine (flush_closure cfg ex (fun a b => (length (queue b) <= length (queue a))%nat) _ _ (cut_queue_le cfg ex) f st);
    [auto | intros a b c; lia].
Qed.

Lemma flush_forced_shrinks cfg ex st cur :
  inv cfg st -> queue st <> [] -> version_at (c_versions cfg) (now st) = Some cur -> (0 < pv_max cur)%nat ->
  (length (queue (flush cfg ex true st)) < length (queue st))%nat.
Proof.
  intros I Hq Hv Hm. unfold flush. cbn [drain].
  destruct (cut cfg ex false st) as [st'|] eqn:Ec.
  - pose proof (cut_shrinks _ _ _ _ _ Ec) as Hs. pose proof (drain_queue_le cfg ex (length (queue st)) st') as Hd.
    destruct (_ || _); [lia|].
    destruct (cut cfg ex true _) as [st2|] eqn:Ec2; [pose proof (cut_shrinks _ _ _ _ _ Ec2); lia | lia].
  - destruct (Nat.eqb (length (queue st)) 0) eqn:E0.
    + apply Nat.eqb_eq in E0. destruct (queue st); [congruence | discriminate].
    + cbn [orb negb]. destruct (forced_cut_succeeds cfg ex st cur I Hq Hv Hm) as (st2 & Ec2). rewrite Ec2.
      eapply cut_shrinks; exact Ec2.
Qed.

(* what the progress argument needs of a state *)
Definition can_cut (cfg : config) (st : pstate) : Prop :=
  queue st <> [] -> exists cur, version_at (c_versions cfg) (now st) = Some cur /\ (0 < pv_max cur)%nat.

Lemma round_spec cfg ex st :
  inv cfg st -> can_cut cfg st ->
  let st' := observe cfg (flush cfg ex true st) in
  inv cfg st' /\ now st' = now st /\ accepted st' = accepted st /\ ledger st' = [] /\
  (length (queue st') <= pred (length (queue st)))%nat.
Proof.
  intros I Hc. cbn zeta. destruct (observe_frame cfg (flush cfg ex true st)) as (Ha & Hn & Hq & _ & Hl).
  split; [apply observe_inv, flush_inv, I|]. split; [rewrite Hn; apply flush_frame|].
  split; [rewrite Ha; apply flush_frame|]. split; [exact Hl|]. rewrite Hq.
  destruct (queue st) as [|q0 r] eqn:Eq.
  - pose proof (flush_queue_le cfg ex true st) as H. rewrite Eq in H. exact H.
  - assert (Hne : queue st <> []) by (rewrite Eq; discriminate).
    destruct (Hc Hne) as (cur & Hv & Hm). pose proof (flush_forced_shrinks cfg ex st cur I Hne Hv Hm) as H.
    rewrite Eq in H. cbn [length pred] in *. lia.
Qed.

Lemma run_rounds_cons cfg st ex r :
  run cfg st (rounds (ex :: r)) = run cfg (observe cfg (flush cfg ex true st)) (rounds r).
Proof. reflexivity. Qed.

Lemma rounds_spec cfg : forall exs st,
  inv cfg st -> can_cut cfg st ->
  inv cfg (run cfg st (rounds exs)) /\ now (run cfg st (rounds exs)) = now st /\
  accepted (run cfg st (rounds exs)) = accepted st /\
  (length (queue (run cfg st (rounds exs))) <= length (queue st) - length exs)%nat /\
  (exs <> [] -> ledger (run cfg st (rounds exs)) = []).
Proof.
  induction exs as [|ex r IH]; intros st I Hc.
  - cbn [rounds flat_map run fold_left length]. split; [exact I|]. split; [reflexivity|]. split; [reflexivity|].
    split; [lia | congruence].
  - rewrite run_rounds_cons. destruct (round_spec cfg ex st I Hc) as (I1 & N1 & A1 & L1 & Q1).
    set (s1 := observe cfg (flush cfg ex true st)) in *.
    assert (Hc1 : can_cut cfg s1).
    { intros Hne. rewrite N1. apply Hc. intros E. rewrite E in Q1. cbn [length pred] in Q1.
      destruct (queue s1); [congruence | cbn [length] in Q1; lia]. }
    destruct (IH s1 I1 Hc1) as (I2 & N2 & A2 & Q2 & L2).
    split; [exact I2|]. split; [congruence|]. split; [congruence|]. split; [cbn [length]; lia|].
    intros _. destruct r as [|ex' r']; [exact L1 | apply L2; discriminate].
Qed.

(* From any reachable state: at least one and at least [length queue] rounds (forced flush with arbitrary
   expiry verdicts, then the observer) empty queue and ledger; every accepted request is then in the
   operation store or in the expired pile - exactly once when request ids are distinct; nothing is
   dropped; no request is accepted or forgotten on the way. *)
Theorem eventual_storage cfg t0 es exs :
  let st := run cfg (init t0) es in
  (forall cur, version_at (c_versions cfg) (now st) = Some cur -> (0 < pv_max cur)%nat) ->
  (length (queue st) <= length exs)%nat -> exs <> [] ->
  let st' := run cfg st (rounds exs) in
  queue st' = [] /\ ledger st' = [] /\ dropped st' = [] /\ accepted st' = accepted st /\
  Permutation (accepted st) (map s_q (store st') ++ expired st') /\
  (NoDup (map qe_id (accepted st)) -> NoDup (map qe_id (map s_q (store st') ++ expired st'))).
Proof.
  cbn zeta. intros Hmax Hlen Hne.
  set (st := run cfg (init t0) es) in *.
  assert (I : inv cfg st) by apply reachable_inv.
  assert (Hc : can_cut cfg st).
  { intros Hq. destruct (version_at (c_versions cfg) (now st)) as [cur|] eqn:Ev.
    - exists cur. split; [reflexivity | apply Hmax; reflexivity].
    - exfalso. apply (reachable_version_in_force cfg t0 es); [|exact Ev]. fold st.
      destruct (queue st) as [|q0 r] eqn:Eq; [congruence|]. intros Ea.
      pose proof (queue_incl_accepted _ _ I q0) as Hi. rewrite Eq, Ea in Hi. apply Hi. left. reflexivity. }
  destruct (rounds_spec cfg exs st I Hc) as (I' & _ & A' & Q' & L').
  assert (Hq : queue (run cfg st (rounds exs)) = []).
  { destruct (queue (run cfg st (rounds exs))); [reflexivity | cbn [length] in Q'; lia]. }
  pose proof (L' Hne) as Hl. pose proof (inv_dropped _ _ I') as Hd.
  pose proof (inv_cons _ _ I') as Hp. unfold places, ledger_ops in Hp. rewrite Hq, Hl, Hd, app_nil_r in Hp. cbn [map concat app] in Hp.
  split; [exact Hq|]. split; [exact Hl|]. split; [exact Hd|]. split; [exact A'|].
  rewrite A' in Hp. split; [exact Hp|].
  intros Hn. eapply Permutation_NoDup; [apply Permutation_map; exact Hp | exact Hn].
Qed.

(* the explicit number: max 1 (length of the queue) rounds, here with the same verdicts each round *)
Corollary eventual_storage_count cfg t0 es ex :
  let st := run cfg (init t0) es in
  (forall cur, version_at (c_versions cfg) (now st) = Some cur -> (0 < pv_max cur)%nat) ->
  let st' := run cfg st (rounds (repeat ex (Nat.max 1 (length (queue st))))) in
  queue st' = [] /\ ledger st' = [] /\ Permutation (accepted st) (map s_q (store st') ++ expired st').
Proof.
  cbn zeta. intros Hmax.
  destruct (eventual_storage cfg t0 es (repeat ex (Nat.max 1 (length (queue (run cfg (init t0) es))))) Hmax)
    as (Hq & Hl & _ & _ & Hp & _).
  - rewrite repeat_length. lia.
  - destruct (Nat.max 1 (length (queue (run cfg (init t0) es)))) eqn:E; [lia | discriminate].
  - auto.
Qed.

Lemma split_no_expiry : forall l seen, sp_exp (split_batch (fun i => memZ i []) seen l) = [].
Proof. intros l seen. rewrite split_batch_split3. apply split3_no_exp. reflexivity. Qed.

Lemma cut_no_expiry cfg f st st' : cut cfg [] f st = Some st' -> expired st' = expired st.
Proof.
  intros Hc. destruct (cut_spec _ _ _ _ _ Hc) as (? & batch & ? & ? & _ & _ & _ & _ & _ & _ & _ & ->).
  cbn [expired]. rewrite split_no_expiry, app_nil_r. reflexivity.
Qed.

Lemma flush_no_expiry cfg f st : expired (flush cfg [] f st) = expired st.
Proof.
  refine (flush_closure cfg [] (fun a b => expired b = expired a) _ _ _ f st); [reflexivity | intros a b c H1 H2; congruence|].
  intros f0 a b Hc. eapply cut_no_expiry. exact Hc.
Qed.

Lemma rounds_no_expiry cfg n : forall st, expired (run cfg st (rounds (repeat [] n))) = expired st.
Proof.
  induction n as [|n IH]; intros st; [reflexivity|]. cbn [repeat]. rewrite run_rounds_cons, IH.
  destruct (observe_frame cfg (flush cfg [] true st)) as (_ & _ & _ & -> & _). apply flush_no_expiry.
Qed.

(* when the operation handler finds nothing expired during the rounds, the expired pile is what it was;
   if nothing had expired before either, EVERY accepted request is in the operation store, once *)
Theorem eventual_storage_nothing_expires cfg t0 es n :
  let st := run cfg (init t0) es in
  (forall cur, version_at (c_versions cfg) (now st) = Some cur -> (0 < pv_max cur)%nat) ->
  (length (queue st) <= n)%nat -> (1 <= n)%nat ->
  let st' := run cfg st (rounds (repeat [] n)) in
  queue st' = [] /\ ledger st' = [] /\ expired st' = expired st /\
  Permutation (accepted st) (map s_q (store st') ++ expired st) /\
  (expired st = [] -> Permutation (accepted st) (map s_q (store st')) /\
                      (NoDup (map qe_id (accepted st)) -> NoDup (map qe_id (map s_q (store st'))))).
Proof.
  cbn zeta. intros Hmax Hlen Hn.
  destruct (eventual_storage cfg t0 es (repeat [] n) Hmax) as (Hq & Hl & _ & _ & Hp & Hnd).
  - rewrite repeat_length. exact Hlen.
  - destruct n; [lia | discriminate].
  - rewrite rounds_no_expiry in Hp, Hnd. split; [exact Hq|]. split; [exact Hl|]. split; [apply rounds_no_expiry|].
    split; [exact Hp|]. intros He. rewrite He, app_nil_r in Hp, Hnd. auto.
Qed.

(* MaxOperationCount = 0 in the current version: nothing is ever cut, forced or not *)
Lemma zero_max_cut_none cfg ex f st cur :
  version_at (c_versions cfg) (now st) = Some cur -> pv_max cur = 0%nat -> cut cfg ex f st = None.
Proof.
  intros Hv Hm. unfold cut. rewrite Hv, Hm. rewrite Nat.min_0_r. cbn [firstn].
  destruct (negb f && _); reflexivity.
Qed.

Definition cfg_zero : config :=
  {| c_versions := [{| pv_genesis := 0; pv_mdelta := 7200; pv_max := 0 |}]; c_unpub := []; c_by_time := false |}.

(* accepted, but never anchored, whatever the number of rounds (here 3; by zero_max_cut_none: any number) *)
Example zero_max_refuted :
  let st := run cfg_zero (init 10) [ESubmit ex_create 5000] in
  let st' := run cfg_zero st (rounds [[]; []; []]) in
  map qe_id (accepted st) = [1] /\ st' = st /\ map qe_id (queue st') = [1] /\ store st' = [].
Proof. vm_compute. repeat split; reflexivity. Qed.

(* a state in which no protocol version is in force at the ledger clock (not reachable with a non-empty
   queue: reachable_version_in_force): the writer cannot cut, the rounds change nothing *)
Definition stuck_state : pstate :=
  let q := {| qe_req := ex_create; qe_ver := 0 |} in
  {| now := -5; next_num := 0; queue := [q]; ledger := []; store := []; unpub := []; expired := [];
     dropped := []; accepted := [q] |}.

Example no_version_refuted :
  version_at (c_versions cfg1) (now stuck_state) = None /\
  run cfg1 stuck_state (rounds [[]; []; []]) = stuck_state.
Proof. vm_compute. split; reflexivity. Qed.

(* the bound: three queued operations of one suffix, batch size 10 - each round anchors one of them *)
Definition cfg_ten : config :=
  {| c_versions := [{| pv_genesis := 0; pv_mdelta := 7200; pv_max := 10 |}]; c_unpub := []; c_by_time := false |}.
Definition three_for_one_suffix : list event :=
  [ESubmit (xreq 7 1 Create 0 101 20 30) 5000; ESubmit (xreq 7 2 Create 0 102 21 31) 5000;
   ESubmit (xreq 7 3 Create 0 103 22 32) 5000].

Example bound_is_tight :
  let st := run cfg_ten (init 10) three_for_one_suffix in
  length (queue st) = 3%nat /\
  map qe_id (queue (run cfg_ten st (rounds [[]; []]))) = [3] /\
  queue (run cfg_ten st (rounds [[]; []; []])) = [] /\
  map (fun e => (qe_id (s_q e), s_num e)) (store (run cfg_ten st (rounds [[]; []; []]))) = [(1, 0); (2, 1); (3, 2)].
Proof. vm_compute. repeat split; reflexivity. Qed.

(* non-vacuity of eventual_storage: hypotheses and conclusion on the reorder scenario of Model.v with two
   more submissions left in the queue, one of which expires in the first round *)
Definition pending_events : list event :=
  reorder_events ++ [ETime 12; ESubmit (xreq 8 5 Create 0 105 24 34) 5004; ESubmit (xreq 9 6 Create 0 106 25 35) 5005].

Example eventual_storage_nonvacuous :
  let st := run cfg1 (init 10) pending_events in
  let st' := run cfg1 st (rounds [[6]; []]) in
  option_map pv_max (version_at (c_versions cfg1) (now st)) = Some 2%nat /\
  map qe_id (queue st) = [5; 6] /\
  queue st' = [] /\ ledger st' = [] /\
  map qe_id (accepted st') = [1; 2; 3; 4; 5; 6] /\
  map (fun e => qe_id (s_q e)) (store st') = [1; 2; 4; 3; 5] /\ map qe_id (expired st') = [6].
Proof. vm_compute. repeat split; reflexivity. Qed.

(* F16: a round whose batch is entirely expired: queue emptied, nothing anchored or stored, no number consumed *)
Example all_expired_round :
  let st := run cfg1 (init 10) pending_events in
  let st' := run cfg1 st (rounds [[5; 6]]) in
  map qe_id (queue st) = [5; 6] /\ queue st' = [] /\ ledger st' = [] /\ next_num st' = next_num st /\
  store st' = store st /\ map qe_id (expired st') = [5; 6].
Proof. vm_compute. repeat split; reflexivity. Qed.

Print Assumptions reachable_version_in_force.
Print Assumptions forced_cut_succeeds.
Print Assumptions flush_forced_shrinks.
Print Assumptions rounds_spec.
Print Assumptions eventual_storage.
Print Assumptions eventual_storage_count.
Print Assumptions eventual_storage_nothing_expires.
Print Assumptions zero_max_cut_none.
