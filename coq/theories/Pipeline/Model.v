(* C20 - the pipeline end to end, at the abstraction of [aop] facts.  Definitions and examples.

   Composition of: dochandler.DocumentHandler.ProcessOperation (intake), batch.Writer.processAvailable
   + cutter.BatchCutter.Cut + opqueue.MemQueue (one VerifStep = one [EFlush]),
   txnprovider.OperationHandler.parseOperations (first operation per suffix is included, the others are
   handed back and re-queued at the TAIL), a ledger that assigns coordinates, observer.Observer.process
   + txnprocessor.TxnProcessor.Process (one [EObserve] = all pending transactions, in order), the
   operation store and the unpublished-operation store, processor.OperationProcessor.Resolve (the
   model of C03: Resolve/Process.v) and dochandler.ResolveDocument (short form, long form).

   Not re-modelled here (their own properties): request syntax (C10), batch files and CAS (C13, C14),
   store/CAS/ledger faults (C15, C16).  Facts of those layers enter as fields of the request.
   The writer's cut, the handler's split, the observer and the transaction processor ARE modelled again here, over
   [qent], under the names they have in Writer/Machine.v and Batch/TxnProc.v ([split_batch], [same_version_prefix],
   [queue], [stamp], [observe] ...); this file imports neither, and no theorem relates the two sets of definitions.

   Time.  [now] is the ledger clock (what the protocol client's Current() and the ledger use).  The
   unpublished copy of an operation and the immediate create response are stamped by the code with
   time.Now().Unix(): that value is an input of the [ESubmit] event ([wall]).  *)
From Coq Require Import List ZArith Bool.
From SV Require Import Resolve.Op Resolve.Apply Resolve.Process Resolve.Intake.
Import ListNotations.
Local Open Scope Z_scope.

(* the parameters of a protocol version that the pipeline reads *)
Record pver := { pv_genesis : Z; pv_mdelta : Z (* MaxOperationTimeDelta *); pv_max : nat (* MaxOperationCount *) }.

(* protocol.Client.Get(t): the LAST version of the (ascending) list whose genesis time is <= t *)
Fixpoint version_at (vs : list pver) (t : Z) : option pver :=
  match vs with
  | [] => None
  | v :: r =>
    match version_at r t with
    | Some w => Some w
    | None => if pv_genesis v <=? t then Some v else None
    end
  end.

Record config := {
  c_versions : list pver;
  c_unpub : list optype;     (* operation types configured for the unpublished-operation store
                                (document handler and transaction processor); [] = no such store *)
  c_by_time : bool           (* ledger policy for SidetreeTxn.ProtocolVersion, which the library leaves to
                                the ledger: false = the value handed to WriteAnchor (genesis time of the
                                version the batch was accepted under); true = the transaction time *) }.

Definition unpub_type (cfg : config) (t : optype) : bool := existsb (optype_eqb t) (c_unpub cfg).

(* A submitted request.  [rq_op] carries the request id ([oid]), the type and the fact vector of the
   lower layers; its coordinate fields (time, num, cref, mdelta) are ignored - they are stamped when
   the operation is stored.  [rq_key] identifies the request content (two submissions of the same
   bytes share it).  [rq_intake_ok]: protocol-independent verdict of everything ProcessOperation
   does before the decorator: Parse (intake mode, incl. the anchor-time validator at submission
   time) and validateOperation. *)
Record request := { rq_sfx : Z; rq_key : Z; rq_intake_ok : bool; rq_op : aop }.

Definition rq_id (r : request) : Z := oid (rq_op r).
Definition rq_ty (r : request) : optype := ty (rq_op r).

(* queue entry: operation.QueuedOperationAtTime - the request and the genesis time of the version
   it was accepted under *)
Record qent := { qe_req : request; qe_ver : Z }.
Definition qe_sfx (q : qent) : Z := rq_sfx (qe_req q).
Definition qe_id (q : qent) : Z := rq_id (qe_req q).

(* txn.SidetreeTxn as written by the ledger, with the operations the batch files hold *)
Record txn := { t_time : Z; t_num : Z; t_cref : Z; t_pver : Z; t_ops : list qent }.

(* operation.AnchoredOperation in the operation store *)
Record sop := { s_q : qent; s_time : Z; s_num : Z; s_cref : Z; s_pver : Z }.
Definition s_sfx (e : sop) : Z := qe_sfx (s_q e).

(* operation.AnchoredOperation in the unpublished-operation store: TransactionTime = wall clock,
   ProtocolVersion = genesis time of the accepting version, no canonical reference *)
Record uop := { u_q : qent; u_wall : Z }.
Definition u_sfx (u : uop) : Z := qe_sfx (u_q u).

Definition stamp (o : aop) (t n c : Z) (md : option Z) : aop :=
  {| oid := oid o; ty := ty o; time := t; num := n; cref := c; mdelta := md;
     parse_ok := parse_ok o; reveal_c := reveal_c o; sig_ok := sig_ok o; sfx_ok := sfx_ok o;
     dhash_ok := dhash_ok o; dvalid := dvalid o; patch_ok := patch_ok o;
     a_from := a_from o; a_until := a_until o; delta := delta o; upd_c := upd_c o; rec_c := rec_c o;
     origin := origin o |}.

(* processor.applyOperation looks the protocol up by the operation's ProtocolVersion *)
Definition mdelta_at (cfg : config) (pv : Z) : option Z := option_map pv_mdelta (version_at (c_versions cfg) pv).

Definition sop_aop (cfg : config) (e : sop) : aop :=
  stamp (rq_op (qe_req (s_q e))) (s_time e) (s_num e) (s_cref e) (mdelta_at cfg (s_pver e)).
Definition uop_aop (cfg : config) (u : uop) : aop :=
  stamp (rq_op (qe_req (u_q u))) (u_wall u) 0 0 (mdelta_at cfg (qe_ver (u_q u))).

Record pstate := {
  now : Z;                 (* ledger clock *)
  next_num : Z;            (* next transaction number *)
  queue : list qent;       (* opqueue.MemQueue, head first *)
  ledger : list txn;       (* anchored, not yet observed; oldest first *)
  store : list sop;        (* operation store, in Put order *)
  unpub : list uop;        (* unpublished-operation store, in Put order *)
  expired : list qent;     (* discarded by the operation handler (ErrOperationExpired) *)
  dropped : list qent;     (* lost by the observer (no protocol version for the transaction) or discarded
                              by the transaction processor (duplicate suffix in a transaction); neither happens
                              in a run from [init]: Proofs.inv_dropped *)
  accepted : list qent     (* ghost: every request ProcessOperation accepted, oldest first *) }.

Definition init (t0 : Z) : pstate :=
  {| now := t0; next_num := 0; queue := []; ledger := []; store := []; unpub := []; expired := [];
     dropped := []; accepted := [] |}.

Definition pub_of (cfg : config) (st : pstate) (s : Z) : list aop :=
  map (sop_aop cfg) (filter (fun e => s_sfx e =? s) (store st)).
Definition unpub_of (cfg : config) (st : pstate) (s : Z) : list aop :=
  map (uop_aop cfg) (filter (fun u => u_sfx u =? s) (unpub st)).

Definition resolve_sfx (cfg : config) (st : pstate) (s : Z) : outcome :=
  resolve (pub_of cfg st s) (unpub_of cfg st s) no_opts.

(* DocumentHandler.ProcessOperation up to the decision.  Some v = accepted under version v.  Source order:
   protocol.Get (the caller passes the genesis time of Current()), Parse + validateOperation (fact), decorator
   (non-create: the DID must resolve and must not be deactivated - computed from the CURRENT stores, unpublished
   ones included). *)
Definition intake (cfg : config) (st : pstate) (r : request) : option pver :=
  match version_at (c_versions cfg) (now st) with
  | None => None
  | Some v =>
    if negb (rq_intake_ok r) then None
    else match rq_ty r with
         | Create => Some v
         | _ => match decorate (pub_of cfg st (rq_sfx r)) (unpub_of cfg st (rq_sfx r)) with
                | Accepted => Some v
                | Refused => None
                end
         end
  end.

(* accepted: unpublished copy (if its type is configured), then the queue.  A refusal leaves the
   state untouched. *)
Definition submit (cfg : config) (st : pstate) (r : request) (wall : Z) : pstate :=
  match intake cfg st r with
  | None => st
  | Some v =>
    let q := {| qe_req := r; qe_ver := pv_genesis v |} in
    {| now := now st; next_num := next_num st;
       queue := queue st ++ [q];
       ledger := ledger st; store := store st;
       unpub := if unpub_type cfg (rq_ty r) then unpub st ++ [{| u_q := q; u_wall := wall |}] else unpub st;
       expired := expired st; dropped := dropped st;
       accepted := accepted st ++ [q] |}
  end.

(* cutter.getOperationsAtProtocolVersion: longest prefix queued under version v *)
Fixpoint same_version_prefix (v : Z) (l : list qent) : list qent :=
  match l with
  | [] => []
  | q :: r => if qe_ver q =? v then q :: same_version_prefix v r else []
  end.

(* OperationHandler.parseOperations: expired operations are discarded; the first remaining operation
   per suffix is included; further ones are returned as additional operations *)
Record split := { sp_in : list qent; sp_add : list qent; sp_exp : list qent }.

Fixpoint split_batch (is_exp : Z -> bool) (seen : list Z) (l : list qent) : split :=
  match l with
  | [] => {| sp_in := []; sp_add := []; sp_exp := [] |}
  | q :: r =>
    if is_exp (qe_id q) then
      let s := split_batch is_exp seen r in
      {| sp_in := sp_in s; sp_add := sp_add s; sp_exp := q :: sp_exp s |}
    else if memZ (qe_sfx q) seen then
      let s := split_batch is_exp seen r in
      {| sp_in := sp_in s; sp_add := q :: sp_add s; sp_exp := sp_exp s |}
    else
      let s := split_batch is_exp (qe_sfx q :: seen) r in
      {| sp_in := q :: sp_in s; sp_add := sp_add s; sp_exp := sp_exp s |}
  end.

(* Writer.cutAndProcess(f).  None = nothing was cut (or an error that leaves the queue as it was:
   Current()/Get() fail -> Nack).  In source order:
   - Cut: pending = Len(); max = Current().MaxOperationCount  (the CURRENT version's limit, whatever
     version the queued operations were accepted under); not forced and pending < max -> nothing;
     Peek(min pending max); same-version prefix of the first operation's version; Remove
   - process: protocol.Get(version of the batch); PrepareTxnFiles (split); if nothing is included (every operation
     of the batch expired) there is no anchor string: no WriteAnchor, Ack (F16); else WriteAnchor - the ledger
     assigns time = now, the next number, a canonical reference (number + 1, never 0: the rule of the harness's ledger
     stub, harness/cmd/sv/c20.go; the library leaves the reference to the ledger) and the
     protocol version according to its policy; additional operations are re-added at the TAIL under
     the batch version (= their own); Ack
   [ex]: ids the operation handler finds expired during this VerifStep (anchor-time validator plug-in). *)
Definition cut (cfg : config) (ex : list Z) (f : bool) (st : pstate) : option pstate :=
  match version_at (c_versions cfg) (now st) with
  | None => None
  | Some cur =>
    let pending := length (queue st) in
    if negb f && (pending <? pv_max cur)%nat then None
    else
      match firstn (Nat.min pending (pv_max cur)) (queue st) with
      | [] => None
      | q0 :: w =>
        let ver := qe_ver q0 in
        let batch := same_version_prefix ver (q0 :: w) in
        match version_at (c_versions cfg) ver with
        | None => None
        | Some _ =>
          let sp := split_batch (fun i => memZ i ex) [] batch in
          match sp_in sp with
          | [] =>
            (* F16: every operation of the batch has expired.  PrepareTxnFiles writes no files and returns an empty
               anchor string; process returns before WriteAnchor (and before re-adding anything: nothing can be
               deferred behind no included operation); the batch is Ack'ed.  No transaction, no number consumed. *)
            Some {| now := now st; next_num := next_num st;
                    queue := skipn (length batch) (queue st);
                    ledger := ledger st; store := store st; unpub := unpub st;
                    expired := expired st ++ sp_exp sp; dropped := dropped st;
                    accepted := accepted st |}
          | _ :: _ =>
            let t := {| t_time := now st; t_num := next_num st; t_cref := next_num st + 1;
                        t_pver := if c_by_time cfg then now st else ver; t_ops := sp_in sp |} in
            Some {| now := now st; next_num := next_num st + 1;
                    queue := skipn (length batch) (queue st) ++ sp_add sp;
                    ledger := ledger st ++ [t]; store := store st; unpub := unpub st;
                    expired := expired st ++ sp_exp sp; dropped := dropped st;
                    accepted := accepted st |}
          end
        end
      end
  end.

(* Writer.drain: cutAndProcess(false) until nothing is cut.  Fuel: every successful cut shortens the
   queue (Proofs.drain_fuel_suffices), so [S (length queue)] rounds suffice. *)
Fixpoint drain (cfg : config) (ex : list Z) (fuel : nat) (st : pstate) : pstate :=
  match fuel with
  | O => st
  | S f => match cut cfg ex false st with
           | None => st
           | Some st' => drain cfg ex f st'
           end
  end.

(* Writer.processAvailable(force) = VerifStep(force) *)
Definition flush (cfg : config) (ex : list Z) (force : bool) (st : pstate) : pstate :=
  let st1 := drain cfg ex (S (length (queue st))) st in
  if (Nat.eqb (length (queue st1)) 0) || negb force then st1
  else match cut cfg ex true st1 with
       | Some st2 => st2
       | None => st1
       end.

(* TxnProcessor.processTxnOperations: an operation whose suffix occurred earlier in the transaction
   is discarded.  (kept, discarded) *)
Fixpoint dedup_split (seen : list Z) (l : list qent) : list qent * list qent :=
  match l with
  | [] => ([], [])
  | q :: r =>
    if memZ (qe_sfx q) seen then let '(k, d) := dedup_split seen r in (k, q :: d)
    else let '(k, d) := dedup_split (qe_sfx q :: seen) r in (q :: k, d)
  end.

Definition stamp_sop (t : txn) (q : qent) : sop :=
  {| s_q := q; s_time := t_time t; s_num := t_num t; s_cref := t_cref t; s_pver := t_pver t |}.

(* unpublished store: Delete removes the first stored copy of that request (same suffix, same content) *)
Fixpoint remove_first (s k : Z) (l : list uop) : list uop :=
  match l with
  | [] => []
  | u :: r => if (u_sfx u =? s) && (rq_key (qe_req (u_q u)) =? k) then r else u :: remove_first s k r
  end.

Definition delete_all (cfg : config) (kept : list qent) (un : list uop) : list uop :=
  fold_left (fun un q => if unpub_type cfg (rq_ty (qe_req q)) then remove_first (qe_sfx q) (rq_key (qe_req q)) un else un)
            kept un.

(* Observer.process for one transaction: protocol client lookup by the transaction's protocol
   version (a transaction without version is skipped: its operations are lost), then
   TxnProcessor.Process: stamp, one Put, DeleteAll on the unpublished store.  The order of Put inside
   one transaction (by type in the code) is not observable through the store's Get(suffix) and is
   kept in batch order here. *)
Definition observe_txn (cfg : config) (st : pstate) (t : txn) : pstate :=
  match version_at (c_versions cfg) (t_pver t) with
  | None =>
    {| now := now st; next_num := next_num st; queue := queue st; ledger := ledger st; store := store st;
       unpub := unpub st; expired := expired st; dropped := dropped st ++ t_ops t; accepted := accepted st |}
  | Some _ =>
    let '(kept, dup) := dedup_split [] (t_ops t) in
    {| now := now st; next_num := next_num st; queue := queue st; ledger := ledger st;
       store := store st ++ map (stamp_sop t) kept;
       unpub := delete_all cfg kept (unpub st);
       expired := expired st; dropped := dropped st ++ dup; accepted := accepted st |}
  end.

Definition clear_ledger (st : pstate) : pstate :=
  {| now := now st; next_num := next_num st; queue := queue st; ledger := []; store := store st;
     unpub := unpub st; expired := expired st; dropped := dropped st; accepted := accepted st |}.

Definition observe (cfg : config) (st : pstate) : pstate :=
  clear_ledger (fold_left (observe_txn cfg) (ledger st) st).

Inductive event :=
| ESubmit (r : request) (wall : Z)        (* ProcessOperation(request, Current().GenesisTime) *)
| EFlush (force : bool) (ex : list Z)     (* Writer.VerifStep(force) *)
| EObserve                                (* the observer receives every pending transaction *)
| ETime (t : Z).                          (* the ledger clock advances to t (never backwards) *)

Definition set_now (st : pstate) (t : Z) : pstate :=
  {| now := t; next_num := next_num st; queue := queue st; ledger := ledger st; store := store st;
     unpub := unpub st; expired := expired st; dropped := dropped st; accepted := accepted st |}.

Definition step (cfg : config) (st : pstate) (e : event) : pstate :=
  match e with
  | ESubmit r w => submit cfg st r w
  | EFlush f ex => flush cfg ex f st
  | EObserve => observe cfg st
  | ETime t => if now st <=? t then set_now st t else st
  end.

Definition run (cfg : config) (st : pstate) (es : list event) : pstate := fold_left (step cfg) es st.

(* what ResolveDocument shows of a DID: key/content ids, commitments (method metadata), deactivated,
   published *)
Inductive rview := RNotFound | RView (d : list Z) (u r : Z) (de pub : bool).

Definition state_view (s : state) (pub : bool) : rview :=
  RView (match doc s with Some d => d | None => [] end) (upd s) (rec s) (deact s) pub.

(* short form: "create operation not found" / "valid create operation not found" are both answered as
   not found; published = the processor returned at least one published operation *)
Definition short_view (cfg : config) (st : pstate) (s : Z) : rview :=
  match resolve_sfx cfg st s with
  | OOk r => state_view (r_state r) (match r_pub r with [] => false | _ => true end)
  | _ => RNotFound
  end.

(* dochandler.GetCreateResult: Apply of an unanchored copy (wall-clock time, no number, no canonical
   reference) under version v on the empty resolution model; an empty document is an error *)
Definition create_result (v : pver) (r : request) (wall : Z) : option state :=
  match apply (stamp (rq_op r) wall 0 0 (Some (pv_mdelta v))) init_state with
  | Some s => match doc s with Some (_ :: _) => Some s | _ => None end
  | None => None
  end.

(* the immediate response to an accepted create *)
Definition create_response (v : pver) (r : request) (wall : Z) : rview :=
  match create_result v r wall with Some s => state_view s false | None => RNotFound end.

(* ResolveDocument(long form): the stores first; if the DID is not found there, the initial state
   carried by the DID string under the CURRENT version *)
Definition long_view (cfg : config) (st : pstate) (r : request) (wall : Z) : rview :=
  match resolve_sfx cfg st (rq_sfx r) with
  | OOk res => state_view (r_state res) (match r_pub res with [] => false | _ => true end)
  | _ =>
    match version_at (c_versions cfg) (now st) with
    | Some cur => if rq_intake_ok r then create_response cur r wall else RNotFound
    | None => RNotFound
    end
  end.

(* content of a view: everything except the published flag *)
Definition view_content (v : rview) : option (list Z * Z * Z * bool) :=
  match v with RNotFound => None | RView d u r de _ => Some (d, u, r, de) end.

(* the places an accepted request can be in *)
Definition ledger_ops (st : pstate) : list qent := concat (map t_ops (ledger st)).
Definition places (st : pstate) : list qent :=
  queue st ++ ledger_ops st ++ map s_q (store st) ++ expired st ++ dropped st.

Definition v1 : pver := {| pv_genesis := 0; pv_mdelta := 7200; pv_max := 2 |}.
Definition v2 : pver := {| pv_genesis := 100; pv_mdelta := 600; pv_max := 4 |}.
Definition cfg1 : config := {| c_versions := [v1]; c_unpub := []; c_by_time := false |}.
Definition cfg2 : config := {| c_versions := [v1; v2]; c_unpub := [Create; Update]; c_by_time := false |}.

(* id type ; revealed commitment ; delta content, update / recovery commitment (correctly signed, no window) *)
Definition xreq (sfx i : Z) (t : optype) (rv dl u r : Z) : request :=
  {| rq_sfx := sfx; rq_key := i; rq_intake_ok := true;
     rq_op := {| oid := i; ty := t; time := 0; num := 0; cref := 0; mdelta := None;
                 parse_ok := true; reveal_c := rv; sig_ok := true; sfx_ok := true; dhash_ok := true;
                 dvalid := true; patch_ok := true; a_from := 0; a_until := 0; delta := dl; upd_c := u;
                 rec_c := r; origin := 1 |} |}.

Definition ex_create := xreq 7 1 Create 0 101 20 30.
Definition ex_update := xreq 7 2 Update 20 102 21 0.
Definition ex_recover := xreq 7 3 Recover 30 103 22 31.
Definition ex_update2 := xreq 7 4 Update 22 104 23 0.       (* reveals the commitment the recover installs *)

Example version_lookup : map (fun t => option_map pv_genesis (version_at [v1; v2] t)) [(-1); 0; 99; 100; 5000]
                         = [None; Some 0; Some 0; Some 100; Some 100].
Proof. reflexivity. Qed.

(* create, flush, observe, update, flush, observe: the DID resolves to both deltas *)
Example simple_life :
  short_view cfg1 (run cfg1 (init 10) [ESubmit ex_create 5000; EFlush true []; EObserve;
                                       ESubmit ex_update 5001; ETime 11; EFlush true []; EObserve]) 7
  = RView [101; 102] 21 30 false true.
Proof. vm_compute. reflexivity. Qed.

(* an update for an unknown DID is refused and leaves no trace *)
Example unknown_did_refused : run cfg1 (init 10) [ESubmit ex_update 5000] = init 10.
Proof. vm_compute. reflexivity. Qed.

(* with an unpublished-operation store the create is resolvable (unpublished) before it is anchored,
   and the update is accepted at once *)
Example unpublished_resolution :
  let st := run cfg2 (init 10) [ESubmit ex_create 5000; ESubmit ex_update 5001] in
  short_view cfg2 st 7 = RView [101; 102] 21 30 false false /\ length (queue st) = 2%nat.
Proof. vm_compute. split; reflexivity. Qed.

(* the three views of a create *)
Example three_views :
  let st0 := run cfg1 (init 10) [ESubmit ex_create 5000] in
  let st1 := run cfg1 st0 [EFlush true []; EObserve] in
  create_response v1 ex_create 5000 = RView [101] 20 30 false false /\
  long_view cfg1 st0 ex_create 6000 = RView [101] 20 30 false false /\
  short_view cfg1 st1 7 = RView [101] 20 30 false true.
Proof. vm_compute. repeat split; reflexivity. Qed.

(* THE BATCH WRITER REORDERS THE OPERATIONS OF ONE DID.  MaxOperationCount = 2; the DID exists; the
   client submits update (id 2), recover (id 3), update (id 4, on top of the recover).  First cut:
   [2; 3] - 2 is included, 3 is re-queued BEHIND 4.  Second cut (same VerifStep, the drain loop): [4; 3] - 4 is included, 3 re-queued;
   the forced cut anchors 3.  Anchoring order 2, 4, 3: the update 4 is anchored before the recover it builds on and is lost. *)
Definition reorder_events : list event :=
  [ESubmit ex_create 5000; EFlush true []; EObserve; ETime 11;
   ESubmit ex_update 5001; ESubmit ex_recover 5002; ESubmit ex_update2 5003;
   EFlush true []; EObserve].

Example reorder_store_order :
  map (fun e => (qe_id (s_q e), s_time e, s_num e)) (store (run cfg1 (init 10) reorder_events))
  = [(1, 10, 0); (2, 11, 1); (4, 11, 2); (3, 11, 3)].
Proof. vm_compute. reflexivity. Qed.

Example reorder_loses_update :
  short_view cfg1 (run cfg1 (init 10) reorder_events) 7 = RView [103] 22 31 false true.
Proof. vm_compute. reflexivity. Qed.

(* the same submissions with a batch size that holds all three: anchoring order 2, 3, 4 and the
   state the client intended *)
Definition cfg1_wide : config :=
  {| c_versions := [{| pv_genesis := 0; pv_mdelta := 7200; pv_max := 3 |}]; c_unpub := []; c_by_time := false |}.
Example no_reorder_intended_state :
  let st := run cfg1_wide (init 10) (reorder_events ++ [ETime 12; EFlush true []; EObserve]) in
  map (fun e => (qe_id (s_q e), s_time e, s_num e)) (store st) = [(1, 10, 0); (2, 11, 1); (3, 11, 2); (4, 12, 3)] /\
  short_view cfg1_wide st 7 = RView [103; 104] 23 31 false true /\
  short_view cfg1 (run cfg1 (init 10) (reorder_events ++ [ETime 12; EFlush true []; EObserve])) 7 = RView [103] 22 31 false true.
Proof. vm_compute. repeat split; reflexivity. Qed.

(* THE BATCH LIMIT IS THE CURRENT VERSION'S.  Four creates accepted under v1 (limit 2); the clock
   passes v2's genesis (limit 4); one unforced step anchors all four in one v1 batch. *)
Definition big_batch_events : list event :=
  [ESubmit (xreq 1 1 Create 0 101 20 30) 5000; ESubmit (xreq 2 2 Create 0 102 21 31) 5000;
   ESubmit (xreq 3 3 Create 0 103 22 32) 5000; ETime 150; ESubmit (xreq 4 4 Create 0 104 23 33) 5000;
   EFlush false []].
Example batch_limit_of_current_version :
  map (fun t => (t_pver t, map qe_id (t_ops t), map qe_ver (t_ops t))) (ledger (run cfg2 (init 10) big_batch_events))
  = [(0, [1; 2; 3], [0; 0; 0])] /\
  map qe_id (queue (run cfg2 (init 10) big_batch_events)) = [4].
Proof. vm_compute. split; reflexivity. Qed.

(* AN OPERATION DISCARDED AS EXPIRED STAYS IN THE UNPUBLISHED STORE.  The update (id 2) is accepted and
   copied to the unpublished-operation store; when its batch is cut the operation handler discards it
   as expired; only anchored operations are ever deleted from the unpublished store, so the DID keeps
   resolving WITH the update that will never be anchored (first view); without such a store the DID
   resolves to the create alone (second view). *)
Definition cfg_all_unpub : config :=
  {| c_versions := [v1]; c_unpub := [Create; Update; Recover; Deactivate]; c_by_time := false |}.
Definition expiry_events : list event :=
  [ESubmit ex_create 5000; EFlush true []; EObserve; ESubmit ex_update 5001; ETime 200; EFlush true [2]; EObserve].
Example expired_stays_unpublished :
  let st := run cfg_all_unpub (init 10) expiry_events in
  (map qe_id (queue st), map qe_id (expired st), map (fun u => qe_id (u_q u)) (unpub st),
   short_view cfg_all_unpub st 7, short_view cfg1 (run cfg1 (init 10) expiry_events) 7)
  = ([], [2], [2], RView [101; 102] 21 30 false true, RView [101] 20 30 false true).
Proof. vm_compute. reflexivity. Qed.

(* F16: A BATCH WHOSE OPERATIONS HAVE ALL EXPIRED WRITES NO TRANSACTION.  In [expiry_events] the second flush cuts
   the batch [2], which the handler finds expired: the operation is discarded, the ledger receives nothing and no
   transaction number is consumed (the code before F16 anchored "0.<uri>", which no observer can parse). *)
Example all_expired_batch_writes_no_transaction :
  let st := run cfg1 (init 10) [ESubmit ex_create 5000; EFlush true []; EObserve; ESubmit ex_update 5001; ETime 200;
                                EFlush true [2]] in
  (map qe_id (queue st), length (ledger st), next_num st, map qe_id (expired st)) = ([], 0%nat, 1, [2]).
Proof. vm_compute. reflexivity. Qed.

(* a partly expired batch: the expired operation is discarded, the other one anchored *)
Example partly_expired_batch :
  let st := run cfg1_wide (init 10) [ESubmit ex_create 5000; EFlush true []; EObserve; ESubmit ex_update 5001;
                                     ESubmit (xreq 8 9 Create 0 109 40 50) 5002; ETime 200; EFlush true [2]] in
  (map qe_id (queue st), map (fun t => (t_num t, map qe_id (t_ops t))) (ledger st), next_num st, map qe_id (expired st))
  = ([], [(1, [9])], 2, [2]).
Proof. vm_compute. reflexivity. Qed.
